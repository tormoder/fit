(* C20 -- proofs about the generated String methods, for any representation:
   a String method of one of the three shapes prints the fallback text for
   every value outside the intervals / keys its code tests for
   ([string_of_outside], including the unsigned wrap of `i -= lo`), whatever
   the width of the type. *)
From Coq Require Import NArith List String Ascii Bool Lia.
From FitV Require Import Model.Stringer Spec.StringSpec Proofs.Util Proofs.StringSpecProofs.
Import ListNotations.
Local Open Scope N_scope.

Lemma digit_is_digit_char d : d < 10 -> digit d = digit_char d.
Proof. intros H. unfold digit. rewrite <- (digit_char_code d H). apply ascii_N_embedding. Qed.

Lemma append_assoc (a b c : string) : ((a ++ b) ++ c = a ++ (b ++ c))%string.
Proof. induction a as [|x a IH]; simpl; [reflexivity|now rewrite IH]. Qed.

Lemma dec_aux_decimal fuel : forall n acc, dec_aux fuel n acc = (decimal_fuel fuel n ++ acc)%string.
Proof.
  induction fuel as [|f IH]; intros n acc; simpl; [reflexivity|].
  assert (Hm : n mod 10 < 10) by (apply N.mod_lt; discriminate).
  destruct (N.ltb_spec n 10) as [Hlt|Hge].
  - rewrite N.div_small by assumption. simpl. rewrite N.mod_small by assumption.
    now rewrite digit_is_digit_char.
  - assert (Hq : n / 10 <> 0).
    { intros E. apply N.div_small_iff in E; [lia|discriminate]. }
    apply N.eqb_neq in Hq. rewrite Hq, IH, append_assoc. simpl.
    now rewrite digit_is_digit_char.
Qed.

Lemma append_nil_r (a : string) : (a ++ "")%string = a.
Proof. induction a as [|x a IH]; simpl; [reflexivity|now rewrite IH]. Qed.

(* the model's strconv is the spec's numeral *)
Lemma dec_is_decimal n : dec n = decimal n.
Proof. unfold dec, decimal. now rewrite dec_aux_decimal, append_nil_r. Qed.

Lemma format_int64_small v : v < 2 ^ 63 -> format_int64 v = decimal v.
Proof.
  intros H. unfold format_int64.
  assert (H64 : v < 2 ^ 64) by (eapply N.lt_trans; [exact H|reflexivity]).
  rewrite N.mod_small by exact H64.
  apply N.ltb_lt in H. rewrite H. apply dec_is_decimal.
Qed.

Definition case_interval (c : mcase) : N * N :=
  match c with CEq v _ => (v, v) | CRange lo hi _ _ _ _ => (lo, hi) end.

Definition domain (m : strmethod) : list (N * N) :=
  match m_shape m with
  | SOne sub _ _ _ index =>
      let n := N.of_nat (List.length index) - 1 in
      let lo := match sub with Some k => k | None => 0 end in
      if n =? 0 then [] else [(lo, lo + n - 1)]
  | SMulti cases => map case_interval cases
  | SMap _ entries => map (fun e => (fst e, fst e)) entries
  end.

Definition in_iv (v : N) (iv : N * N) : bool := (fst iv <=? v) && (v <=? snd iv).
Definition in_domain (v : N) (d : list (N * N)) : bool := existsb (in_iv v) d.

(* the only condition the fallback direction needs: the offset added back is
   the one subtracted, it fits the type, and the run does not wrap around *)
Definition shape_ok (bits : N) (m : strmethod) : bool :=
  match m_shape m with
  | SOne sub add _ _ index =>
      let n := N.of_nat (List.length index) - 1 in
      match sub, add with
      | None, None => true
      | Some k, Some k' => (k =? k') && (k <? 2 ^ bits) && (k + n <=? 2 ^ bits)
      | _, _ => false
      end
  | _ => true
  end.

Lemma usub_ge P v k : 0 < P -> k <= v -> v < P -> (v + P - k mod P) mod P = v - k.
Proof.
  intros HP Hk Hv. rewrite (N.mod_small k P) by lia.
  replace (v + P - k) with ((v - k) + 1 * P) by lia.
  rewrite N.mod_add by lia. apply N.mod_small. lia.
Qed.

Lemma usub_outside P k n v : 0 < P -> k < P -> k + n <= P -> v < P -> ~ k <= v < k + n ->
  n <= (v + P - k mod P) mod P /\ ((v + P - k mod P) mod P + k) mod P = v.
Proof.
  intros HP Hk Hn Hv Hout. destruct (N.le_gt_cases k v) as [Hge|Hlt].
  - rewrite usub_ge by assumption. split; [lia|]. rewrite N.mod_small; lia.
  - rewrite (N.mod_small k P), (N.mod_small (v + P - k)) by lia. split; [lia|].
    replace (v + P - k + k) with (v + 1 * P) by lia. rewrite N.mod_add by lia. now apply N.mod_small.
Qed.

Lemma in_iv_le v lo hi : in_iv v (lo, hi) = true <-> lo <= v <= hi.
Proof. unfold in_iv. simpl. now rewrite andb_true_iff, !N.leb_le. Qed.

Lemma case_matches_iv c v : case_matches c v = in_iv v (case_interval c).
Proof.
  destruct c as [v0 nm|lo hi sub nm ib ix]; simpl; [|reflexivity].
  apply eq_true_iff_eq. rewrite N.eqb_eq, in_iv_le. lia.
Qed.

Lemma run_cases_outside bits cases v :
  existsb (in_iv v) (map case_interval cases) = false -> run_cases bits cases v = None.
Proof.
  induction cases as [|c r IH]; simpl; [reflexivity|].
  intros H. apply orb_false_iff in H as [H1 H2].
  rewrite case_matches_iv, H1. now apply IH.
Qed.

Lemma assoc_outside {A} (entries : list (N * A)) v :
  existsb (in_iv v) (map (fun e => (fst e, fst e)) entries) = false -> assoc v entries = None.
Proof.
  induction entries as [|[k a] r IH]; simpl; [reflexivity|].
  intros H. apply orb_false_iff in H as [H1 H2].
  unfold in_iv in H1. simpl in H1.
  destruct (N.eqb_spec v k) as [->|Hne].
  - now rewrite N.leb_refl in H1.
  - now apply IH.
Qed.

Lemma one_outside lo n v :
  existsb (in_iv v) (if n =? 0 then [] else [(lo, lo + n - 1)]) = false -> ~ lo <= v < lo + n.
Proof.
  destruct (N.eqb_spec n 0) as [->|NE]; [lia|]. unfold in_iv. simpl.
  rewrite orb_false_r, andb_false_iff, !N.leb_gt. lia.
Qed.

Lemma string_of_outside bits m v :
  shape_ok bits m = true -> v < 2 ^ bits -> in_domain v (domain m) = false ->
  string_of bits m v = Some (fallback m v).
Proof.
  unfold shape_ok, in_domain, domain, string_of.
  destruct (m_shape m) as [sub add name ib index|cases|name entries]; intros Hok Hv Hout.
  - set (n := N.of_nat (List.length index) - 1) in *. apply one_outside in Hout.
    destruct sub as [k|], add as [k'|]; try discriminate.
    + rewrite !andb_true_iff, N.eqb_eq, N.ltb_lt, N.leb_le in Hok. destruct Hok as [[<- Hfit] Hwrap].
      destruct (usub_outside (2 ^ bits) k n v) as [Hn Hback]; try assumption; [apply pow2_pos|].
      unfold usub, uadd. apply N.leb_le in Hn. now rewrite Hn, Hback.
    + replace (n <=? v) with true by (symmetry; apply N.leb_le; lia). reflexivity.
  - now rewrite run_cases_outside.
  - now rewrite assoc_outside.
Qed.
