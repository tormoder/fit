(* C04: the byte strings and the reader on which the Examples of Props/C04.v show, by evaluation, that the
   hypotheses of its theorems are satisfiable. *)
From Coq Require Import NArith List Bool Arith.
From FitV Require Import Model.Values Model.Bytes Model.Crc Model.IO Model.Header Model.Route Model.Decode Model.Components
  Gen.Consts Spec.CrcSpec Spec.Burst Spec.Integrity Spec.Grammar
  Proofs.BytesUtil Proofs.C04Crc Proofs.C04IO Proofs.C04Verdict Proofs.C04Bytes Proofs.C04Corrupt Proofs.C04Header Proofs.C04Main Proofs.C04Agree.
Import ListNotations.
Local Open Scope N_scope.

(* a 25-byte activity file (12-byte header, file_id definition and record, checksum A1 EC) and the same
   records behind a 14-byte header with stored checksum *)
Definition ex12 : list N :=
  [12; 16; 100; 0; 11; 0; 0; 0; 46; 70; 73; 84;  64; 0; 0; 0; 0; 1; 0; 1; 0;  0; 4;  161; 236].
Definition ex14_body : list N :=
  let h12 := [14; 16; 100; 0; 11; 0; 0; 0; 46; 70; 73; 84] in
  h12 ++ [lo8 (arc h12); hi8 (arc h12)] ++ [64; 0; 0; 0; 0; 1; 0; 1; 0;  0; 4].
Definition ex14 : list N := ex14_body ++ [lo8 (arc ex14_body); hi8 (arc ex14_body)].
Definition ex_rd (bs : list N) : reader := mk_reader bs [3; 0; 1; 100]%nat TEOF false 0.
