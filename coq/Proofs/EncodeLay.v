(* The record layout of Encode's output, before C05's own checks of the profile entries (C05Grammar.msg_ok) come
   in: which fields a definition carries (def_fields: at increasing struct indices, one per set field;
   collect_fields: the sorted union over a slice), what the two record writers serialise to (write_def_ser,
   write_mesg_menc), and how laid-out lists ([lay], C06Defs.v) compose (laid_app) and are taken apart (lay_groups).
   And what a well-formed File gives: the facts about its container, read off the routing table in one evaluation
   (file_types_ok, ft_entry_ok); wf_file taken apart (wf_file_inv); the messages Encode visits ([visible], which
   is file_msgs) and their types (visible_wf, file_msgs_typed).
   What the profile checks add, and the walk over Encode itself, are in C05Grammar.v. *)
From Coq Require Import NArith ZArith List Bool Lia String.
From Coq Require Import ZifyN ZifyNat ZifyBool.
From FitV Require Import Model.Values Model.Bytes Model.Base Model.Profile Model.Crc Model.Header
  Model.Components Model.Route Model.Encode Spec.FitSyntax Spec.Grammar Spec.RoundTrip
  Proofs.Util Proofs.EncodeProofs Proofs.C06Defs Proofs.C07MsgWf Gen.Consts Gen.RoutingData.
From FitV Require Proofs.ProfileProofs Proofs.C18Defs.
Import ListNotations.
Local Open Scope N_scope.
Ltac Zify.zify_post_hook ::= Z.div_mod_to_equations.

Lemma econcat_parts l : forall body, econcat l = EOk body ->
  exists parts, Forall2 (fun r p => r = EOk p) l parts /\ body = List.concat parts.
Proof.
  induction l as [|r l IH]; intros body H; cbn [econcat] in H.
  - inversion H. exists []. split; constructor.
  - apply ebind_ok in H as (x & Hx & H). apply ebind_ok in H as (y & Hy & H). inversion H; subst.
    destruct (IH _ Hy) as (parts & HF & ->). exists (x :: parts). split; [constructor; auto|reflexivity].
Qed.

Lemma forall2b_Forall2 {A B} (p : A -> B -> bool) : forall a b, Forall2 (fun x y => p x y = true) a b -> forall2b p a b = true.
Proof. induction 1 as [|x y a b Hxy Hab IH]; [reflexivity|]. cbn [forall2b]. now rewrite Hxy, IH. Qed.

Lemma econcat_map_parts {A} (g : A -> eres (list N)) l body : econcat (map g l) = EOk body ->
  exists parts, Forall2 (fun x p => g x = EOk p) l parts /\ body = List.concat parts.
Proof. intros H. apply econcat_parts in H as (parts & HF & ->). apply Forall2_map_left in HF. eauto. Qed.

Definition ftriple (pf : pfield) : N * N * N := (pf_num pf, fsize pf, fit_base (pf_t pf)).
Definition gdef_of (be : bool) (gmn : N) (fields : list pfield) : gdef := mk_gdef gmn be (map ftriple fields) 0.
Definition fbytes (fields : list pfield) : list N :=
  flat_map (fun pf => [pf_num pf; fsize pf; fit_base (pf_t pf)]) fields.

Lemma fdef_bytes_eq pf : fdef_bytes pf =
  match b_size (fit_base (pf_t pf)) with Some _ => EOk [pf_num pf; fsize pf; fit_base (pf_t pf)] | None => EPanic 4 end.
Proof. unfold fdef_bytes, fsize. destruct (b_size _); reflexivity. Qed.

Lemma econcat_fdefs : forall fields fb, econcat (map fdef_bytes fields) = EOk fb -> fb = fbytes fields.
Proof.
  induction fields as [|pf r IH]; intros fb H; cbn [map econcat] in H; [now inversion H|].
  rewrite fdef_bytes_eq in H. destruct (b_size _); [|discriminate]. cbn [ebind] in H.
  apply ebind_ok in H as (y & Hy & H). inversion H; subst. now rewrite (IH _ Hy).
Qed.

Lemma def_fields_length gmn vals invs i fs : def_fields gmn i vals invs = EOk fs -> (List.length fs <= List.length vals)%nat.
Proof.
  apply (def_fields_cases gmn (fun _ vals _ fs => (List.length fs <= List.length vals)%nat)); intros; cbn [List.length]; lia.
Qed.

Fixpoint ssorted (l : list pfield) : Prop :=
  match l with
  | [] => True
  | p :: r => Forall (fun q => pf_num p < pf_num q) r /\ ssorted r
  end.

Lemma ins_field_sorted pf : forall l, ssorted l -> ssorted (ins_field pf l).
Proof.
  induction l as [|q r IH]; intros H; cbn [ins_field]; [cbn; auto|]. destruct H as [Hq Hr].
  destruct (N.ltb_spec (pf_num pf) (pf_num q)) as [E1|E1]; [|destruct (N.eqb_spec (pf_num pf) (pf_num q)) as [E2|E2]]; cbn [ssorted].
  - split; [|split; assumption]. constructor; [exact E1|]. eapply Forall_impl; [|exact Hq]. intros a Ha. cbv beta in Ha. lia.
  - split; [|exact Hr]. now rewrite E2.
  - split; [|now apply IH]. apply Forall_forall. intros x Hx. apply ins_field_in in Hx as [->|Hx]; [lia|].
    rewrite Forall_forall in Hq. now apply Hq.
Qed.

Lemma collect_fields_sorted : forall ms acc fs, ssorted acc -> collect_fields ms acc = EOk fs -> ssorted fs.
Proof.
  induction ms as [|m r IH]; intros acc fs Hs; cbn [collect_fields]; intros H.
  - inversion H; subst. assumption.
  - apply ebind_ok in H as (d & _ & H). eapply IH; [|exact H]. clear - Hs. revert acc Hs.
    induction d as [|pf d IHd]; intros acc Hs; cbn [fold_left]; [assumption|]. now apply IHd, ins_field_sorted.
Qed.

Lemma collect_fields_inv mn : forall ms acc fs, Forall (fun m => m_num m = mn) ms ->
  Forall (from_profile mn) acc -> ssorted acc -> collect_fields ms acc = EOk fs ->
  Forall (from_profile mn) fs /\ ssorted fs.
Proof.
  intros ms acc fs Hm Ha Hs H. split; [|eapply collect_fields_sorted; eassumption].
  eapply collect_fields_Forall; [|exact Ha|exact H]. eapply Forall_impl; [|exact Hm]. intros m <- d. apply get_def_from.
Qed.

Lemma ssorted_nodup l : ssorted l -> NoDup (map pf_num l).
Proof.
  induction l as [|p r IH]; intros H; cbn [map]; [constructor|].
  destruct H as [Hp Hr]. constructor; [|now apply IH].
  intros Hin. apply in_map_iff in Hin as (q & Hq & Hin). rewrite Forall_forall in Hp. apply Hp in Hin. lia.
Qed.

Lemma last_num mn : forall ms d, ms <> [] -> Forall (fun m => m_num m = mn) ms -> m_num (last ms d) = mn.
Proof.
  induction ms as [|m r IH]; intros d Hne Hm; [congruence|]. inversion Hm; subst.
  destruct r as [|m2 r2]; [reflexivity|]. change (last (m :: m2 :: r2) d) with (last (m2 :: r2) d). apply IH; [discriminate|assumption].
Qed.

(* What the proofs need from a container of the routing table, in one evaluation: it starts with the file_id
   pointer slot and has the five common slots; outside the hidden slots it hosts none of the three message
   types with a []string field (which writeField refuses) *)
Definition str_array_msgs : list N := [201; 206; 264].
Fixpoint descs_plain (i : nat) (descs : list (string * bool * N)) : bool :=
  match descs with
  | [] => true
  | (_, _, mn) :: r => (hidden_slot i || negb (existsb (N.eqb mn) str_array_msgs)) && descs_plain (S i) r
  end.
Definition container_ok (descs : list (string * bool * N)) : bool :=
  match descs with (_, false, mn) :: _ => (mn =? c_MesgNumFileId) && Nat.leb 5 (List.length descs) | _ => false end &&
  descs_plain 0 descs.

Lemma file_types_ok :
  forallb (fun e : N * bool * string * list (string * bool * N) => let '(_, ok, _, ds) := e in if ok then container_ok ds else true)
          file_types = true.
Proof. vm_compute. reflexivity. Qed.

(* that, and every message type the container names is a known one (ProfileProofs.container_members_known) *)
Record container_facts (descs : list (string * bool * N)) : Prop := {
  ct_file_id : exists nm dr, descs = (nm, false, c_MesgNumFileId) :: dr;
  ct_common : (5 <= List.length descs)%nat;
  ct_plain : descs_plain 0 descs = true;
  ct_known : forall nm multi mn, In (nm, multi, mn) descs -> known_msg mn = true }.

Lemma ft_entry_ok ft cn descs : ft_entry ft = Some (true, cn, descs) -> container_facts descs.
Proof.
  unfold ft_entry. destruct (find _ file_types) as [[[[a b] c] d]|] eqn:E; [|discriminate]. intros H. inversion H; subst.
  apply find_some in E as [Hin _]. pose proof file_types_ok as T. rewrite forallb_forall in T. specialize (T _ Hin). cbv beta iota in T.
  unfold container_ok in T. apply andb_true_iff in T as [T T3].
  destruct descs as [|[[nm [|]] mn] dr]; try discriminate. apply andb_true_iff in T as [T1 T2].
  apply N.eqb_eq in T1. apply Nat.leb_le in T2. subst mn. split; eauto.
  intros nm' multi mn. exact (ProfileProofs.container_members_known _ _ _ _ nm' multi mn Hin eq_refl).
Qed.

(* the messages Encode visits, slot by slot (slots 3 and 4 are the hidden developer-data slots: the test is
   RoundTrip.hidden_slot i, spelled as Encode.encode_slots and EncLayout.slots_recs spell it) *)
Fixpoint visible (i : nat) (slots : list (list msg)) : list msg :=
  match slots with
  | [] => []
  | s :: r => (if Nat.eqb i 3 || Nat.eqb i 4 then [] else s) ++ visible (S i) r
  end.

Lemma visible_ge5 : forall slots i, (5 <= i)%nat -> visible i slots = List.concat slots.
Proof.
  induction slots as [|s r IH]; intros i Hi; [reflexivity|]. cbn [visible List.concat].
  destruct (Nat.eqb_spec i 3); [lia|]. destruct (Nat.eqb_spec i 4); [lia|]. cbn [orb]. rewrite IH by lia. reflexivity.
Qed.

Lemma file_msgs_visible f : file_msgs f = visible 0 (f_slots f).
Proof.
  unfold file_msgs. destruct (f_slots f) as [|s0 [|s1 [|s2 [|s3 [|s4 r]]]]]; cbn [visible firstn skipn List.concat Nat.eqb orb app];
    rewrite ?app_nil_r; try reflexivity.
  rewrite (visible_ge5 r 5) by lia. rewrite <- !app_assoc. reflexivity.
Qed.

Lemma msgs_wf_num mn s : forallb (msg_wf mn) s = true -> Forall (fun m => m_num m = mn) s.
Proof.
  intros H. apply Forall_forall. intros m Hin. rewrite forallb_forall in H. now apply msg_wf_num, H.
Qed.

(* slots_wf, slot by slot: the messages of a slot have the slot's type, a pointer slot holds at most one, and
   the first slot exactly one *)
Lemma slots_wf_cases (P : nat -> list (string * bool * N) -> list (list msg) -> Prop) :
  (forall i, P i [] []) ->
  (forall i nm multi mn dr s sr, forallb (msg_wf mn) s = true -> (multi || Nat.leb (List.length s) 1) = true ->
     (if Nat.eqb i 0 then Nat.eqb (List.length s) 1 else true) = true ->
     slots_wf (S i) dr sr = true -> P (S i) dr sr -> P i ((nm, multi, mn) :: dr) (s :: sr)) ->
  forall descs i slots, slots_wf i descs slots = true -> P i descs slots.
Proof.
  intros H0 Hs. induction descs as [|[[nm multi] mn] dr IH]; intros i [|s sr] H; try discriminate H; [apply H0|].
  cbn [slots_wf] in H. rewrite !andb_true_iff in H. destruct H as [[[Hm Hc] H1] Hr]. apply Hs; auto.
Qed.

(* every message Encode visits is a well-typed message of the type its slot is declared with *)
Lemma visible_wf : forall descs i slots, slots_wf i descs slots = true ->
  Forall (fun m => exists nm multi mn, In (nm, multi, mn) descs /\ msg_wf mn m = true) (visible i slots).
Proof.
  apply slots_wf_cases; [constructor|]. intros i nm multi mn dr s sr Hmsgs _ _ _ IH. cbn [visible].
  apply Forall_app. split.
  - destruct (Nat.eqb i 3 || Nat.eqb i 4); [constructor|]. rewrite forallb_forall in Hmsgs.
    apply Forall_forall. intros m Hin. exists nm, multi, mn. split; [now left|now apply Hmsgs].
  - eapply Forall_impl; [|exact IH]. intros m (nm' & mu' & mn' & Hin & Hw). exists nm', mu', mn'. split; [now right|exact Hw].
Qed.

Lemma wf_file_inv f : wf_file f = true ->
  exists cn descs m0 sr, f_inited f = Some (file_type f) /\ ft_entry (file_type f) = Some (true, cn, descs) /\
    slots_wf 0 descs (f_slots f) = true /\ f_slots f = [m0] :: sr /\ m_num m0 = c_MesgNumFileId.
Proof.
  unfold wf_file. destruct (f_inited f) as [ft|]; [|discriminate]. intros H.
  apply andb_true_iff in H as [Eft H]. apply N.eqb_eq in Eft. subst ft.
  destruct (ft_entry (file_type f)) as [[[[|] cn] descs]|] eqn:Efe; try discriminate.
  exists cn, descs. destruct (ct_file_id _ (ft_entry_ok _ _ _ Efe)) as (nm & dr & ->).
  destruct (f_slots f) as [|s0 sr]; [discriminate|]. pose proof H as H0. cbn [slots_wf Nat.eqb] in H0.
  apply andb_true_iff in H0 as [H0 _]. apply andb_true_iff in H0 as [H0 H1]. apply andb_true_iff in H0 as [Hm _].
  destruct s0 as [|m0 [|m1 s0r]]; try discriminate. exists m0, sr.
  cbn [forallb] in Hm. apply andb_true_iff in Hm as [Hm _]. apply msg_wf_num in Hm. auto.
Qed.

Lemma file_msgs_typed f : wf_file f = true ->
  Forall (fun m => vals_typed (msg_layout (m_num m)) (m_fields m) = true /\ known_msg (m_num m) = true) (file_msgs f).
Proof.
  intros Hwf. destruct (wf_file_inv f Hwf) as (cn & descs & _ & _ & _ & Efe & Hsw & _).
  rewrite file_msgs_visible. eapply Forall_impl; [|exact (visible_wf _ _ _ Hsw)].
  intros m (nm & multi & mn & Hd & [<- Ht]%msg_wf_iff). exact (conj Ht (ct_known _ (ft_entry_ok _ _ _ Efe) _ _ _ Hd)).
Qed.

Lemma def_fields_cover gmn : forall vals invs i own, def_fields gmn i vals invs = EOk own ->
  forall j v iv, nth_error vals j = Some v -> nth_error invs j = Some iv ->
    unset v iv = true \/ exists pf, get_field_by_sindex gmn (i + j) = Some pf /\ In pf own.
Proof.
  refine (def_fields_cases gmn _ _ _ _).
  - intros i vals invs [-> | ->] [|j] v iv Hv Hiv; discriminate.
  - intros i v0 vr iv0 ir fs Hu IH [|j] v iv Hv Hiv; cbn [nth_error] in Hv, Hiv.
    + injection Hv as <-. injection Hiv as <-. now left.
    + rewrite Nat.add_succ_r. exact (IH j v iv Hv Hiv).
  - intros i v0 vr iv0 ir pf fs E IH [|j] v iv Hv Hiv; cbn [nth_error] in Hv, Hiv.
    + right. exists pf. rewrite Nat.add_0_r. split; [exact E|now left].
    + rewrite Nat.add_succ_r. destruct (IH j v iv Hv Hiv) as [Hu|(q & Hq & Hin)]; [now left|].
      right. exists q. split; [exact Hq|now right].
Qed.

(* the field number that owns struct index i.  999 is no field number (they are bytes) and is not reached below the
   length of the layout: C05Grammar.msg_ok, which spells this body out, checks that every such index has an entry *)
Definition num_at (gmn : N) (i : nat) : N := match get_field_by_sindex gmn i with Some pf => pf_num pf | None => 999 end.

(* def_fields takes its entries at increasing struct indices: where those have distinct field numbers, so has the result *)
Lemma def_fields_nodup gmn n : (forall k k', (k < n)%nat -> (k' < n)%nat -> num_at gmn k = num_at gmn k' -> k = k') ->
  forall vals invs i own, def_fields gmn i vals invs = EOk own -> (i + List.length vals <= n)%nat ->
  NoDup (map pf_num own) /\ forall q, In q own -> exists k, (i <= k < n)%nat /\ get_field_by_sindex gmn k = Some q.
Proof.
  intros Hinj. refine (def_fields_cases gmn _ _ _ _).
  - intros i vals invs _ _. split; [constructor|intros q []].
  - intros i v0 vr iv0 ir fs _ IH Hn. cbn [List.length] in Hn. destruct IH as [Hnd Hat]; [lia|].
    split; [exact Hnd|]. intros q Hq. destruct (Hat q Hq) as (k & Hk & Eq). exists k. split; [lia|exact Eq].
  - intros i v0 vr iv0 ir pf fs E IH Hn. cbn [List.length] in Hn. destruct IH as [Hnd Hat]; [lia|]. split.
    + cbn [map]. constructor; [|exact Hnd]. intros Hc. apply in_map_iff in Hc as (q & Hq & Hqin).
      destruct (Hat q Hqin) as (k & Hk & Eq). assert (i = k); [|lia]. apply Hinj; [lia|lia|]. unfold num_at. now rewrite E, Eq.
    + intros q [<-|Hq]; [exists i; split; [lia|exact E]|]. destruct (Hat q Hq) as (k & Hk & Eq). exists k. split; [lia|exact Eq].
Qed.

Lemma ins_field_nums pf : forall l n, (In n (map pf_num l) \/ n = pf_num pf) -> In n (map pf_num (ins_field pf l)).
Proof.
  induction l as [|q r IH]; intros n H; cbn [ins_field].
  - destruct H as [[]| ->]. now left.
  - destruct (pf_num pf <? pf_num q) eqn:E1.
    + cbn [map]. destruct H as [H| ->]; [right; exact H|now left].
    + destruct (pf_num pf =? pf_num q) eqn:E2.
      * apply N.eqb_eq in E2. cbn [map] in *. destruct H as [[H|H]| ->]; [left; congruence|right; exact H|now left].
      * cbn [map] in *. destruct H as [[H|H]| ->]; [now left|right; apply IH; now left|right; apply IH; now right].
Qed.

Lemma fold_ins_nums : forall fs acc n, (In n (map pf_num acc) \/ In n (map pf_num fs)) ->
  In n (map pf_num (fold_left (fun a pf => ins_field pf a) fs acc)).
Proof.
  induction fs as [|pf r IH]; intros acc n H; cbn [fold_left].
  - destruct H as [H|[]]. exact H.
  - apply IH. cbn [map] in H. destruct H as [H|[H|H]].
    + left. apply ins_field_nums. now left.
    + left. apply ins_field_nums. right. now symmetry.
    + now right.
Qed.

Lemma collect_fields_nums : forall ms acc fs, collect_fields ms acc = EOk fs ->
  (forall n, In n (map pf_num acc) -> In n (map pf_num fs)) /\
  (forall m, In m ms -> exists own, get_encode_mesg_def m = EOk own /\ forall n, In n (map pf_num own) -> In n (map pf_num fs)).
Proof.
  induction ms as [|m r IH]; intros acc fs; cbn [collect_fields]; intros H.
  - inversion H; subst. split; [auto|intros m []].
  - apply ebind_ok in H as (d & Hd & H). destruct (IH _ _ H) as [H1 H2]. split.
    + intros n Hn. apply H1. apply fold_ins_nums. now left.
    + intros m0 [<-|Hin]; [|now apply H2]. exists d. split; [exact Hd|]. intros n Hn. apply H1. apply fold_ins_nums. now right.
Qed.

Lemma covers_mono m own fields : covers m own -> (forall n, In n (map pf_num own) -> In n (map pf_num fields)) -> covers m fields.
Proof.
  intros (inv & H1 & H2 & H3) Hincl. exists inv. split; [exact H1|]. split; [exact H2|]. intros i v iv Hv Hiv.
  destruct (H3 i v iv Hv Hiv) as [Hu|(pf & Hp & Hin)]; [now left|]. right. exists pf. split; [exact Hp|now apply Hincl].
Qed.

Lemma put16_put_int be g : put16 be g = put_int be 2 g.
Proof. destruct be; reflexivity. Qed.

Lemma ser_fdefs fields : flat_map ser_fdef (map sfdef_of fields) = fbytes fields.
Proof. induction fields as [|pf r IH]; [reflexivity|]. unfold fbytes in *. cbn [map flat_map]. now rewrite IH. Qed.

Lemma write_def_ser be gmn fields d :
  write_def_mesg be gmn fields = EOk d -> gmn < 65536 -> N.of_nat (List.length fields) < 256 ->
  d = ser_record (rdef_of be gmn fields).
Proof.
  intros H Hg Hn. unfold write_def_mesg in H. apply ebind_ok in H as (fb & Hfb & H).
  apply econcat_fdefs in Hfb. subst fb. inversion H; subst; clear H.
  change (N.lor c_mesgDefinitionMask (N.land 0 c_localMesgNumMask)) with 64.
  rewrite (N.mod_small _ _ Hg), (N.mod_small _ _ Hn).
  unfold rdef_of, ser_record. rewrite map_length, ser_fdefs, put16_put_int, app_nil_r. reflexivity.
Qed.

Lemma parts_of_eq be m : forall fields parts, Forall2 (fun pf p => field_out be m pf = EOk p) fields parts -> parts = parts_of be m fields.
Proof.
  induction 1 as [|pf p fields parts Hp HF IH]; [reflexivity|]. unfold parts_of in *. cbn [map]. unfold out_of at 1. rewrite Hp. now f_equal.
Qed.

Lemma write_mesg_menc be m fields w : Forall (from_profile (m_num m)) fields -> NoDup (map pf_num fields) -> covers m fields ->
  write_mesg be m fields = EOk w ->
  menc be m fields (parts_of be m fields) /\ w = ser_record (rdata_of (parts_of be m fields)).
Proof.
  intros Hfp Hnd Hcov H. unfold write_mesg in H. apply ebind_ok in H as (body & Hb & H). injection H as <-.
  apply (econcat_map_parts (field_out be m)) in Hb as (parts & HF & ->). rewrite <- (parts_of_eq _ _ _ _ HF).
  split; [repeat split; assumption|]. unfold rdata_of, ser_record. now rewrite app_nil_r.
Qed.

Definition laid (be : bool) (ms : list msg) (rs : list record) (bytes : list N) : Prop := lay be ms rs /\ bytes = ser_records rs.

Lemma laid_nil be : laid be [] [] [].
Proof. split; [constructor|reflexivity]. Qed.

Lemma lay_app be : forall ms1 rs1 ms2 rs2, lay be ms1 rs1 -> lay be ms2 rs2 -> lay be (ms1 ++ ms2) (rs1 ++ rs2).
Proof.
  intros ms1 rs1 ms2 rs2 H1 H2. induction H1 as [|m fields parts ms rs Hm Hl IH|mn fields group partss ms rs Hne Hg HF Hl IH].
  - exact H2.
  - cbn [app]. now constructor.
  - rewrite <- app_assoc, <- app_comm_cons, <- app_assoc. now constructor.
Qed.

Lemma laid_app be ms1 rs1 b1 ms2 rs2 b2 : laid be ms1 rs1 b1 -> laid be ms2 rs2 b2 -> laid be (ms1 ++ ms2) (rs1 ++ rs2) (b1 ++ b2).
Proof. intros [L1 ->] [L2 ->]. split; [now apply lay_app|symmetry; apply flat_map_app]. Qed.

Lemma slice_datas be fields : NoDup (map pf_num fields) ->
  forall ms body, (forall m, In m ms -> Forall (from_profile (m_num m)) fields /\ covers m fields) ->
  econcat (map (fun m => write_mesg be m fields) ms) = EOk body ->
  Forall2 (fun m parts => menc be m fields parts) ms (map (fun m => parts_of be m fields) ms) /\
  body = ser_records (map (fun m => rdata_of (parts_of be m fields)) ms).
Proof.
  intros Hnd. induction ms as [|m ms IH]; intros body Hms H; cbn [map econcat] in H.
  - injection H as <-. split; [constructor|reflexivity].
  - apply ebind_ok in H as (a & Ha & H). apply ebind_ok in H as (b & Hb & H). injection H as <-.
    destruct (Hms m (or_introl eq_refl)) as [Hfp Hcov]. destruct (write_mesg_menc _ _ _ _ Hfp Hnd Hcov Ha) as (Hm & ->).
    destruct (IH b (fun m' Hin => Hms m' (or_intror Hin)) Hb) as (HM & ->). split; [now constructor|reflexivity].
Qed.

Lemma msgs_wf_shape mn s : forallb (msg_wf mn) s = true -> Forall C18Defs.msg_shape s.
Proof.
  intros H. apply Forall_forall. intros m Hin. rewrite forallb_forall in H. apply H, msg_wf_iff in Hin as [Hn Ht].
  unfold C18Defs.msg_shape. rewrite Hn. now apply vals_typed_length.
Qed.

Lemma slots_wf_length : forall descs k slots, slots_wf k descs slots = true -> List.length slots = List.length descs.
Proof. apply slots_wf_cases; [reflexivity|]. intros. cbn [List.length]. now f_equal. Qed.

(* a pointer slot's message is a slice of one: [lay] by groups *)
Lemma lay_groups be (P : list msg -> list record -> Prop) : P [] [] ->
  (forall mn fields group partss ms rs, group <> [] -> Forall (fun m => m_num m = mn) group ->
     Forall2 (fun m parts => menc be m fields parts) group partss -> P ms rs ->
     P (group ++ ms) (rdef_of be mn fields :: map rdata_of partss ++ rs)) ->
  forall ms rs, lay be ms rs -> P ms rs.
Proof.
  intros H0 Hs. induction 1 as [|m fields parts ms rs Hm _ IH|]; [exact H0| |now apply Hs].
  apply (Hs (m_num m) fields [m] [parts]); [discriminate|now constructor|now constructor|exact IH].
Qed.
