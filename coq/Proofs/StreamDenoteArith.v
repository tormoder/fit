(* Stream-level decode = denote: byte-order and two's-complement arithmetic.
   The decoder reads fixed-width integers with get16/get32 after moving the wire bytes
   into a scratch buffer; the reference semantics reads the little/big-endian value of the
   wire bytes themselves (get_val) and sign-extends from the wire width. *)
From Coq Require Import NArith ZArith List Bool Lia Arith.
From Coq Require Import ZifyN ZifyNat ZifyBool.
From FitV Require Import Proofs.Util Proofs.BytesUtil Model.Values Model.Bytes Model.Reflect Model.Decode Spec.FitSyntax.
Import ListNotations.
Local Open Scope N_scope.
Ltac Zify.zify_post_hook ::= Z.div_mod_to_equations.

Lemma wrap_u_wire be w l : all_bytes l = true -> 8 * N.of_nat (List.length l) <= w ->
  wrap_u w (wire_unsigned be l) = wire_unsigned be l.
Proof.
  intros Hb Hw. apply wrap_u_small. eapply N.lt_le_trans; [apply (get_val_lt be l Hb)|].
  apply N.pow_le_mono_r; [discriminate|exact Hw].
Qed.

Lemma wrap_s_wire be w l : all_bytes l = true -> l <> [] -> 8 * N.of_nat (List.length l) <= w ->
  wrap_s w (wire_signed be l) = wire_signed be l.
Proof.
  intros Hb Hne Hw. unfold wire_signed.
  assert (Hpos : 0 < 8 * N.of_nat (List.length l)) by (destruct l; [congruence|cbn [List.length]; lia]).
  pose proof (to_signed_range _ _ (get_val_lt be l Hb)) as Hr.
  apply wrap_s_small; [lia|].
  pose proof (N.pow_le_mono_r 2 (8 * N.of_nat (List.length l) - 1) (w - 1) ltac:(discriminate) ltac:(lia)). lia.
Qed.

(* the 4-byte window the time and coordinate kinds are decoded from *)
Lemma extend4_unsigned be buf : (1 <= List.length buf <= 4)%nat -> get32 be (extend4 be false buf) = get_val be buf.
Proof.
  intros H. list_of_len buf H;
    destruct be; unfold extend4, get32, be32, le32, get_val, be_val, b_at;
    cbn [List.length Nat.leb Nat.ltb andb Nat.sub repeat app nth firstn fold_left le_val]; lia.
Qed.

Lemma extend4_whole be sg buf : List.length buf = 4%nat -> extend4 be sg buf = buf.
Proof. intros H. unfold extend4. rewrite H. cbn [Nat.leb]. rewrite <- H. apply firstn_all. Qed.

(* by cases on the sign byte *)
Lemma extend4_signed be buf : all_bytes buf = true ->
  (List.length buf = 1 \/ List.length buf = 2 \/ List.length buf = 4)%nat ->
  to_signed 32 (get32 be (extend4 be true buf)) = wire_signed be buf.
Proof.
  intros Hb [H|[H|H]].
  3: { rewrite extend4_whole, get32_val by exact H. unfold wire_signed. now rewrite H. }
  all: list_of_len buf H; repeat (apply all_bytes_cons in Hb; destruct Hb as [? Hb]);
    destruct be; unfold wire_signed, to_signed, extend4, get32, be32, le32, get_val, be_val, b_at;
    cbn [List.length Nat.leb Nat.ltb andb Nat.sub repeat app nth firstn fold_left le_val];
    repeat match goal with |- context [2 ^ ?e] => let v := eval vm_compute in (2 ^ e) in change (2 ^ e) with v end;
    repeat match goal with |- context [if ?c then _ else _] => destruct c eqn:? end; lia.
Qed.

Lemma split_every_1 {B} (f : list N -> B) : forall fuel l, (List.length l <= fuel)%nat ->
  map f (split_every 1 fuel l) = map (fun x => f [x]) l.
Proof.
  induction fuel as [|fu IH]; intros l Hl.
  - destruct l; [reflexivity|cbn in Hl; lia].
  - destruct l as [|a r]; [reflexivity|]. cbn [split_every firstn skipn map].
    rewrite IH by (cbn in Hl; lia). reflexivity.
Qed.

Lemma split_every_step k f l : l <> [] -> split_every k (S f) l = firstn k l :: split_every k f (skipn k l).
Proof. destruct l; [congruence|reflexivity]. Qed.

Lemma split_every_elems k : (0 < k)%nat -> forall q fuel l, List.length l = (q * k)%nat -> (List.length l <= fuel)%nat ->
  Forall (fun e => List.length e = k /\ incl e l) (split_every k fuel l).
Proof.
  intros Hk. induction q as [|q IH]; intros fuel l Hq Hf.
  - destruct l; [|discriminate]. destruct fuel; constructor.
  - cbn [Nat.mul] in Hq. destruct fuel as [|f]; [lia|]. rewrite split_every_step by (intros ->; cbn in Hq; lia).
    pose proof (firstn_skipn k l) as E. constructor.
    + split; [rewrite firstn_length; lia|]. rewrite <- E at 2. apply incl_appl, incl_refl.
    + eapply Forall_impl; [|apply (IH f (skipn k l)); rewrite skipn_length; lia].
      intros e [He Hi]. split; [exact He|]. rewrite <- E. apply incl_appr, Hi.
Qed.
