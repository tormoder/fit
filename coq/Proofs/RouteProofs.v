(* C03: routing. From routing_wf (its clauses evaluated, each once, over the
   table observed on the current source; Props/C03.v's C03_routing_wf is put
   together from them by rewriting) to: the contents of every slot after any message
   sequence, dropped messages have no effect, init/accessor behaviour. *)
From Coq Require Import NArith ZArith List Bool String Lia Arith.
From FitV Require Import Proofs.Util Proofs.ProfileProofs Proofs.ComponentProofs Model.Values Model.Reflect Model.Profile Model.Header Model.Components Model.Route
  Spec.RouteSpec Proofs.C18Defs Gen.Consts Gen.RoutingData.
Import ListNotations.
Local Open Scope N_scope.

(* the one evaluation of the checker, clause by clause; [init_ok] and [routing_wf] are put together from the
   clauses (taking them apart by [andb_prop] would have the kernel evaluate them again, see
   ProfileProofs.known_parts) *)
Lemma ft_routing_ok_true : forallb ft_routing_ok valid_file_types = true.
Proof. vm_compute. reflexivity. Qed.

Lemma init_parts :
  forallb (fun e : N * bool * string * list (string * bool * N) =>
             let '(ft, ok, _, _) := e in Bool.eqb ok (ft_valid ft)) file_types = true /\
  Nat.eqb (List.length file_types) 256 = true /\
  nodup_N (map (fun e : N * bool * string * list (string * bool * N) => fst (fst (fst e))) file_types) = true /\
  forallb (fun ft => match ft_entry ft with Some (true, _, _) => true | _ => false end) valid_file_types = true /\
  negb (ft_valid c_FileTypeInvalid) = true /\
  forallb (fun ft => negb ((c_FileTypeMfgRangeMin <=? ft) && (ft <=? c_FileTypeMfgRangeMax))) valid_file_types = true.
Proof. repeat apply conj; vm_compute; reflexivity. Qed.

Lemma init_ok_true : init_ok = true.
Proof. destruct init_parts as (H1 & H2 & H3 & H4 & H5 & H6). unfold init_ok. now rewrite H1, H2, H3, H4, H5, H6. Qed.

Lemma accessors_ok_true : accessors_ok = true.
Proof. vm_compute. reflexivity. Qed.

Lemma rmode_eqb_eq a b : rmode_eqb a b = true -> a = b.
Proof. destruct a, b; simpl; congruence. Qed.

Lemma routes_eqb_eq : forall a b, routes_eqb a b = true -> a = b.
Proof.
  induction a as [|[[i m] e] a IH]; intros [|[[j n] f] b] H; simpl in H; try discriminate; [reflexivity|].
  rewrite !andb_true_iff in H. destruct H as [[[H0 H1] H3] H2].
  apply Nat.eqb_eq in H0. apply rmode_eqb_eq in H1. apply eqb_prop in H3. subst. f_equal. now apply IH.
Qed.

Lemma slots_eqb_eq : forall a b, slots_eqb a b = true -> a = b.
Proof.
  induction a as [|[[n1 m1] h1] a IH]; intros [|[[n2 m2] h2] b] H; try discriminate; [reflexivity|].
  cbn [slots_eqb] in H. rewrite !andb_true_iff in H. destruct H as [[[H1 H2] H3] H4].
  apply String.eqb_eq in H1. apply eqb_prop in H2. apply N.eqb_eq in H3. subst. f_equal. now apply IH.
Qed.

Lemma nodup_N_spec l : nodup_N l = true -> NoDup l.
Proof. exact (nodupb_NoDup N.eqb N.eqb_refl l). Qed.

Lemma find_slot_from_spec : forall l mn k i multi, find_slot_from l mn k = Some (i, multi) ->
  exists j name, i = (k + j)%nat /\ nth_error l j = Some (name, multi, mn).
Proof.
  induction l as [|[[nm mu] held] l IH]; intros mn k i multi H; simpl in H; [discriminate|].
  destruct (N.eqb_spec held mn) as [->|NE].
  - inversion H; subst. exists 0%nat, nm. split; [lia|reflexivity].
  - destruct (IH _ _ _ _ H) as (j & name & -> & Hn). exists (S j), name. split; [lia|exact Hn].
Qed.

Lemma find_slot_from_complete : forall l mn k j name multi,
  NoDup (map (fun s : string * bool * N => snd s) l) ->
  nth_error l j = Some (name, multi, mn) -> find_slot_from l mn k = Some ((k + j)%nat, multi).
Proof.
  induction l as [|[[nm mu] held] l IH]; intros mn k j name multi Hnd Hn; [destruct j; discriminate|].
  simpl in Hnd. inversion Hnd as [|? ? Hnot Hnd']; subst. simpl.
  destruct j as [|j]; simpl in Hn.
  - inversion Hn; subst. rewrite N.eqb_refl. f_equal. f_equal. lia.
  - destruct (N.eqb_spec held mn) as [->|NE].
    + exfalso. apply Hnot. apply nth_error_In in Hn. change mn with (snd (name, multi, mn)). now apply in_map.
    + rewrite (IH mn (S k) j name multi Hnd' Hn). f_equal. f_equal. lia.
Qed.

Lemma routes_of_unfold ft mn :
  routes_of ft mn = match find (fun e : N * list (nat * rmode * bool) => fst e =? mn) (routing_of_ft ft) with
                    | Some (_, r) => r | None => [] end.
Proof. unfold routes_of, routing_of_ft. destruct (find _ routing) as [[a l]|]; reflexivity. Qed.

Lemma wf_ft_clauses ft : In ft valid_file_types ->
  (NCOMMON <= List.length (slots_of ft))%nat /\
  (forall mn r, In (mn, r) (routing_of_ft ft) -> r = expected_routes ft mn) /\
  (forall name multi held, In (name, multi, held) (slots_of ft) -> routes_of ft held <> []) /\
  NoDup (map (fun s : string * bool * N => snd s) (slots_of ft)) /\
  firstn NCOMMON (slots_of ft) = firstn NCOMMON (slots_of first_valid_ft).
Proof.
  intros Hft. pose proof ft_routing_ok_true as W. rewrite forallb_forall in W. specialize (W ft Hft).
  unfold ft_routing_ok in W. cbv zeta in W.
  rewrite !andb_true_iff, !forallb_forall in W. destruct W as [[[[[H1 H2] H3] H4] _] H6].
  split; [now apply Nat.leb_le|]. split; [|split; [|split; [now apply nodup_N_spec|now apply slots_eqb_eq]]].
  - intros mn r Hin. exact (routes_eqb_eq _ _ (H2 _ Hin)).
  - intros name multi held Hin E. specialize (H3 _ Hin). cbn beta iota in H3. now rewrite E in H3.
Qed.

Theorem routes_char : forall ft mn, In ft valid_file_types -> routes_of ft mn = expected_routes ft mn.
Proof.
  intros ft mn Hft. destruct (wf_ft_clauses ft Hft) as (_ & Ha & Hb & _).
  rewrite routes_of_unfold.
  destruct (find _ (routing_of_ft ft)) as [[mn' r]|] eqn:Ef.
  - apply find_some in Ef. destruct Ef as [Hin Hk]. simpl in Hk. apply N.eqb_eq in Hk. subst mn'. now apply Ha.
  - unfold expected_routes. destruct (find_slot ft mn) as [[i multi]|] eqn:Es; [|reflexivity].
    exfalso. apply find_slot_from_spec in Es. destruct Es as (j & name & _ & Hn).
    apply (Hb _ _ _ (nth_error_In _ _ Hn)). now rewrite routes_of_unfold, Ef.
Qed.

Lemma slots_nodup ft : In ft valid_file_types -> NoDup (map (fun s : string * bool * N => snd s) (slots_of ft)).
Proof. intros Hft. apply (wf_ft_clauses ft Hft). Qed.

Lemma find_slot_iff ft mn i multi : In ft valid_file_types ->
  (find_slot ft mn = Some (i, multi) <-> exists name, nth_error (slots_of ft) i = Some (name, multi, mn)).
Proof.
  intros Hft. unfold find_slot. split.
  - intros H. apply find_slot_from_spec in H. destruct H as (j & name & -> & Hn). eauto.
  - intros [name Hn]. rewrite (find_slot_from_complete _ _ 0 i name multi (slots_nodup ft Hft) Hn). reflexivity.
Qed.

Definition with_slots (f : file) (s : list (list msg)) : file :=
  mk_file (f_header f) (f_crc f) s (f_inited f) (f_unkm f) (f_unkf f).

Lemma file_add_inited ft f g m : In ft valid_file_types -> f_inited f = Some ft ->
  file_add f g m =
    match find_slot ft (m_num m) with
    | None => AddOk (with_slots f (f_slots f)) g
    | Some (i, multi) =>
        match stored ft g m with
        | None => AddPanic 30
        | Some (m', g') =>
            AddOk (with_slots f (set_nth i (if multi then nth i (f_slots f) [] ++ [m'] else [m']) (f_slots f))) g'
        end
    end.
Proof.
  intros Hft Hi. destruct f as [h c s i um uf]. simpl in Hi. subst i.
  unfold file_add, with_slots. simpl. rewrite (routes_char ft (m_num m) Hft).
  unfold expected_routes, stored. destruct (find_slot ft (m_num m)) as [[i multi]|]; simpl; [|reflexivity].
  destruct (Nat.ltb i NCOMMON); simpl.
  - destruct multi; reflexivity.
  - destruct (expands (m_num m)); simpl.
    + destruct (expand_components g m) as [[m' g']|]; [|reflexivity]. destruct multi; reflexivity.
    + destruct multi; reflexivity.
Qed.

Lemma first_valid_in : In first_valid_ft valid_file_types.
Proof. vm_compute. tauto. Qed.

(* before init, File.add stores into the File's own fields, unexpanded, and leaves the accumulators alone *)
Lemma file_add_uninited f g m : f_inited f = None ->
  file_add f g m =
    match find_slot first_valid_ft (m_num m) with
    | Some (i, multi) =>
        if Nat.ltb i NCOMMON
        then AddOk (with_slots f (set_nth i (if multi then nth i (f_slots f) [] ++ [m] else [m]) (f_slots f))) g
        else AddPanic 31
    | None => AddPanic 31
    end.
Proof.
  intros Hi. unfold file_add, common_routes. rewrite Hi, (routes_char _ _ first_valid_in). unfold expected_routes, with_slots.
  destruct (find_slot first_valid_ft (m_num m)) as [[i multi]|]; [|reflexivity]. cbn [filter fst].
  destruct (Nat.ltb i NCOMMON); [|reflexivity]. rewrite Hi. now destruct multi.
Qed.

(* File.add and a run of them keep the header and the initialisation *)
Lemma file_add_frame f g m f' g' : file_add f g m = AddOk f' g' -> f_header f' = f_header f /\ f_inited f' = f_inited f.
Proof.
  unfold file_add. destruct (f_inited f).
  - destruct (apply_routes _ m (f_slots f) g) as [[sl g1]|]; [|discriminate]. intros H; inversion H. now split.
  - destruct (common_routes (m_num m)); [discriminate|].
    destruct (apply_routes _ m (f_slots f) g) as [[sl g1]|]; [|discriminate]. intros H; inversion H. now split.
Qed.

Lemma adds_frame : forall ms f g f' g', adds f g ms = AddOk f' g' -> f_header f' = f_header f /\ f_inited f' = f_inited f.
Proof.
  induction ms as [|m r IH]; intros f g f' g' H; cbn [adds] in H; [injection H as <- _; now split|].
  destruct (file_add f g m) as [f1 g1|] eqn:E; [|discriminate].
  destruct (IH _ _ _ _ H) as [-> ->]. exact (file_add_frame _ _ _ _ _ E).
Qed.

Lemma file_id_slot : find_slot first_valid_ft c_MesgNumFileId = Some (0%nat, false).
Proof. vm_compute. reflexivity. Qed.

Lemma stored_cases ft g m r : stored ft g m = Some r -> r = (m, g) \/ expand_components g m = Some r.
Proof.
  unfold stored. destruct (find_slot ft (m_num m)) as [[i multi]|]; [|left; congruence].
  destruct (Nat.ltb i NCOMMON); [left; congruence|]. destruct (expands (m_num m)); [now right|left; congruence].
Qed.

Lemma stored_num ft g m m' g' : stored ft g m = Some (m', g') -> m_num m' = m_num m.
Proof. intros H. destruct (stored_cases _ _ _ _ H) as [[= -> _]|E]; [reflexivity|exact (expand_components_num _ _ _ _ E)]. Qed.

Lemma last_cons2 {A} (a b : A) l d : last (a :: b :: l) d = last (b :: l) d.
Proof. reflexivity. Qed.

Lemma file_add_step ft f g m f' g' : In ft valid_file_types -> f_inited f = Some ft ->
  file_add f g m = AddOk f' g' ->
  exists m', stored ft g m = Some (m', g') /\ f_inited f' = Some ft /\
    f_slots f' = match find_slot ft (m_num m) with
                 | Some (i, multi) => set_nth i (if multi then nth i (f_slots f) [] ++ [m'] else [m']) (f_slots f)
                 | None => f_slots f
                 end.
Proof.
  intros Hft Hi Ha. rewrite (file_add_inited ft f g m Hft Hi) in Ha.
  destruct (find_slot ft (m_num m)) as [[i multi]|] eqn:Es.
  - destruct (stored ft g m) as [[m' g1]|]; [|discriminate]. inversion Ha; subst. exists m'. now repeat split.
  - inversion Ha; subst. exists m. split; [unfold stored; now rewrite Es|now split].
Qed.

Lemma slot_contents_step ft : In ft valid_file_types -> forall m' slots sm i name multi held,
  List.length slots = List.length (slots_of ft) ->
  nth_error (slots_of ft) i = Some (name, multi, held) ->
  slot_contents multi held
    (nth i match find_slot ft (m_num m') with
           | Some (j, mj) => set_nth j (if mj then nth j slots [] ++ [m'] else [m']) slots
           | None => slots
           end []) sm =
  slot_contents multi held (nth i slots []) (m' :: sm).
Proof.
  intros Hft m' slots sm i name multi held Hlen Hn.
  unfold slot_contents. cbn [filter].
  destruct (N.eqb_spec (m_num m') held) as [->|NE].
  - rewrite (proj2 (find_slot_iff ft _ i multi Hft) (ex_intro _ name Hn)).
    rewrite nth_set_nth_eq by (rewrite Hlen; apply nth_error_Some; congruence).
    destruct multi; [now rewrite <- app_assoc|destruct (filter _ sm); reflexivity].
  - destruct (find_slot ft (m_num m')) as [[j mj]|] eqn:Es; [|reflexivity].
    rewrite nth_set_nth_neq; [reflexivity|]. intros ->. apply NE.
    apply (find_slot_iff ft _ _ _ Hft) in Es. destruct Es as [nm Hj]. rewrite Hj in Hn. now inversion Hn.
Qed.

(* File.add over a sequence is [stored_run] *)
Theorem adds_stored_run : forall ft, In ft valid_file_types -> forall ms f0 g0 f g,
  f_inited f0 = Some ft -> List.length (f_slots f0) = List.length (slots_of ft) ->
  adds f0 g0 ms = AddOk f g ->
  exists sm, stored_run ft g0 ms = Some (sm, g) /\ f_inited f = Some ft /\
    forall i name multi held, nth_error (slots_of ft) i = Some (name, multi, held) ->
      nth i (f_slots f) [] = slot_contents multi held (nth i (f_slots f0) []) sm.
Proof.
  intros ft Hft. induction ms as [|m r IH]; intros f0 g0 f g Hi Hlen Ha; cbn [adds stored_run] in *.
  - inversion Ha; subst. exists []. split; [reflexivity|]. split; [exact Hi|]. intros i name multi held _.
    unfold slot_contents. cbn [filter]. destruct multi; [now rewrite app_nil_r|reflexivity].
  - destruct (file_add f0 g0 m) as [f1 g1|w] eqn:E1; [|discriminate].
    destruct (file_add_step ft f0 g0 m f1 g1 Hft Hi E1) as (m' & Hs & Hi1 & Hsl). rewrite Hs.
    destruct (IH f1 g1 f g Hi1) as (sm & Hr & Hif & Hslots); [|exact Ha|].
    { rewrite Hsl. destruct (find_slot ft (m_num m)) as [[j mj]|]; [rewrite set_nth_length|]; exact Hlen. }
    rewrite Hr. exists (m' :: sm). split; [reflexivity|]. split; [exact Hif|].
    intros i name multi held Hn. rewrite (Hslots i name multi held Hn), Hsl, <- (stored_num _ _ _ _ _ Hs).
    exact (slot_contents_step ft Hft m' (f_slots f0) sm i name multi held Hlen Hn).
Qed.

Theorem route_spec : forall ft, In ft valid_file_types -> forall ms f0 g0 f g,
  f_inited f0 = Some ft -> List.length (f_slots f0) = List.length (slots_of ft) ->
  adds f0 g0 ms = AddOk f g ->
  exists sm, stored_seq ft g0 ms = Some sm /\
    forall i name multi held, nth_error (slots_of ft) i = Some (name, multi, held) ->
      nth i (f_slots f) [] = slot_contents multi held (nth i (f_slots f0) []) sm.
Proof.
  intros ft Hft ms f0 g0 f g Hi Hlen Ha.
  destruct (adds_stored_run ft Hft ms f0 g0 f g Hi Hlen Ha) as (sm & Hr & _ & Hs).
  exists sm. split; [exact (stored_run_seq ft ms g0 sm g Hr)|exact Hs].
Qed.

Theorem dropped_no_effect : forall ft, In ft valid_file_types -> forall f g m,
  f_inited f = Some ft -> find_slot ft (m_num m) = None -> file_add f g m = AddOk f g.
Proof.
  intros ft Hft f g m Hi Hs. rewrite (file_add_inited ft f g m Hft Hi), Hs.
  destruct f; reflexivity.
Qed.

Lemma expands_modelled g m : expands (m_num m) = true -> expand_components g m <> None.
Proof.
  unfold expands, expand_components. cbv zeta.
  destruct (_ =? c_MesgNumSession); [discriminate|]. destruct (_ =? c_MesgNumLap); [discriminate|].
  destruct (_ =? c_MesgNumRecord); [discriminate|]. destruct (_ =? c_MesgNumEvent); [discriminate|].
  destruct (_ =? c_MesgNumSegmentLap); discriminate.
Qed.

Lemma stored_total ft g m : exists m' g', stored ft g m = Some (m', g').
Proof.
  unfold stored. destruct (find_slot ft (m_num m)) as [[i multi]|]; [|eauto].
  destruct (Nat.ltb i NCOMMON); [eauto|]. destruct (expands (m_num m)) eqn:Ee; [|eauto].
  pose proof (expands_modelled g m Ee) as Hne.
  destruct (expand_components g m) as [[m' g']|]; [eauto|contradiction].
Qed.

Theorem add_no_panic : forall ft, In ft valid_file_types -> forall f g m,
  f_inited f = Some ft -> exists f' g', file_add f g m = AddOk f' g' /\ f_inited f' = Some ft /\
                                       List.length (f_slots f') = List.length (f_slots f).
Proof.
  intros ft Hft f g m Hi. destruct (stored_total ft g m) as (m' & g' & Hs).
  rewrite (file_add_inited ft f g m Hft Hi), Hs.
  destruct (find_slot ft (m_num m)) as [[i multi]|]; (eexists; eexists; split; [reflexivity|]; split; [exact Hi|]).
  - apply set_nth_length.
  - reflexivity.
Qed.

(* init: the table marks exactly the 17 valid file types as having a container *)
Lemma ft_entry_valid ft c sl : ft_entry ft = Some (true, c, sl) -> In ft valid_file_types.
Proof.
  unfold ft_entry. intros H.
  destruct (find (fun e : N * bool * string * list (string * bool * N) => fst (fst (fst e)) =? ft) file_types)
    as [[[[ft' ok] c'] sl']|] eqn:Ef; [|discriminate].
  inversion H; subst. apply find_some in Ef. destruct Ef as [Hin Hk]. cbn in Hk. apply N.eqb_eq in Hk. subst ft'.
  destruct init_parts as (W & _). rewrite forallb_forall in W. specialize (W _ Hin). cbv beta iota in W.
  destruct (ft_valid ft) eqn:Ee; [|discriminate W]. unfold ft_valid in Ee.
  apply existsb_exists in Ee. destruct Ee as (y & Hy & Hey). apply N.eqb_eq in Hey. now subst.
Qed.

Lemma valid_entry ft : In ft valid_file_types -> exists cn, ft_entry ft = Some (true, cn, slots_of ft).
Proof.
  intros Hft. destruct init_parts as (_ & _ & _ & W & _). rewrite forallb_forall in W. specialize (W ft Hft).
  unfold slots_of. destruct (ft_entry ft) as [[[[|] cn] sl]|]; [|discriminate..]. now exists cn.
Qed.

(* File.init: the file type is a valid one; the common slots are kept, the container's own start empty *)
Lemma file_init_some f f' : file_init f = Some f' ->
  In (file_type f) valid_file_types /\
  f' = mk_file (f_header f) (f_crc f)
         (firstn NCOMMON (f_slots f) ++ repeat [] (List.length (slots_of (file_type f)) - NCOMMON))
         (Some (file_type f)) (f_unkm f) (f_unkf f).
Proof.
  unfold file_init, slots_of. destruct (ft_entry (file_type f)) as [[[[|] cn] sl]|] eqn:Ee; try discriminate.
  intros [= <-]. split; [exact (ft_entry_valid _ _ _ Ee)|reflexivity].
Qed.

Lemma file_init_valid f f' : file_init f = Some f' ->
  In (file_type f) valid_file_types /\ f_inited f' = Some (file_type f).
Proof. intros [Hft ->]%file_init_some. now split. Qed.

Theorem init_exact : forall f, file_type f < 256 ->
  (exists f', file_init f = Some f') <-> In (file_type f) valid_file_types.
Proof.
  intros f _. unfold file_init. split.
  - intros [f' H]. exact (proj1 (file_init_some _ _ H)).
  - intros Hin. destruct (valid_entry _ Hin) as [cn ->]. eexists. reflexivity.
Qed.

Theorem accessor_exact : forall f accessor ret ft cname slots,
  In (accessor, ret) accessors -> NoDup (map fst accessors) ->
  file_type f = ft -> ft_entry ft = Some (true, cname, slots) ->
  accessor_ok f accessor = String.eqb cname ret.
Proof.
  intros f accessor ret ft cname slots Hin Hnd Hft He. unfold accessor_ok. rewrite Hft, He.
  destruct (find (fun a => String.eqb (fst a) accessor) accessors) as [[a r]|] eqn:Ef.
  - apply find_some in Ef. destruct Ef as [Hin2 Hk]. simpl in Hk. apply String.eqb_eq in Hk. subst a.
    assert ((accessor, r) = (accessor, ret)) as E.
    { eapply (NoDup_map_inj fst); eauto. }
    inversion E; subst. reflexivity.
  - exfalso. apply (find_none _ _ Ef) in Hin. simpl in Hin. rewrite String.eqb_refl in Hin. discriminate.
Qed.
