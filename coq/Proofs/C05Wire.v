(* C05: the values on the wire equal the values in the File: every field of
   every record the recogniser returns for Encode's output matches the struct
   field it was written from (Spec/Grammar.v: field_matches).  Two more things enter: a second closed check of
   the profile (msg_ok2: the grammar's base-type sizes are the library's, native fields have fixed-width Go
   types) and a condition on the values (file_sane: arrays below 256 elements, times within int64 nanoseconds of
   the epoch), without which the statement is false (encode_wire_array256_refuted, at the end). *)
From Coq Require Import NArith ZArith List Bool Lia String.
From Coq Require Import ZifyN ZifyNat ZifyBool.
From FitV Require Proofs.ProfileProofs.
From FitV Require Import Model.Values Model.Bytes Model.Base Model.Profile Model.Crc Model.Header
  Model.Components Model.Route Model.Encode Spec.CrcSpec Spec.Grammar Spec.RoundTrip
  Proofs.Util Proofs.BytesUtil Proofs.CrcProofs Proofs.EncodeProofs Proofs.C05Grammar Proofs.C07MsgWf Gen.Consts Gen.ProfileData Gen.RoutingData.
Import ListNotations.
Local Open Scope N_scope.
Ltac Zify.zify_post_hook ::= Z.div_mod_to_equations.

Definition bits_ok (b : N) : bool := (b =? 8) || (b =? 16) || (b =? 32) || (b =? 64).

Lemma bits_ok_pow b : bits_ok b = true -> 2 ^ b = 256 ^ N.of_nat (nbytes b) /\ b = 8 * (b / 8).
Proof.
  unfold bits_ok. intros H. repeat (apply orb_true_iff in H as [H|H]); apply N.eqb_eq in H; subst b; repeat split; reflexivity.
Qed.

(* time.go, encodeTime: while t.Sub(timeBase) fits int64 nanoseconds a whole second s is written as s mod 2^32 *)
Lemma encode_time_whole s : (-9223372036 <= s <= 9223372036)%Z -> encode_time s 0 = Z.to_N (s mod 4294967296)%Z.
Proof.
  intros H. unfold encode_time, sub_timebase, max_i64, min_i64. rewrite Z.add_0_r.
  rewrite Z.gtb_ltb. rewrite (proj2 (Z.ltb_ge _ _)) by lia. rewrite (proj2 (Z.ltb_ge _ _)) by lia.
  now rewrite Z.quot_mul by discriminate.
Qed.

Definition native_ty (ty : gotype) : bool := match ty with TU b | TI b | TF b => bits_ok b | _ => false end.

(* per profile entry: the grammar's own base-type table agrees with the
   library's on the size; native fields have fixed-width Go types; an array
   field has an invalid value of the element width *)
Definition entry_ok2 (gmn : N) (pf : pfield) : bool :=
  let t := pf_t pf in let bt := fit_base t in
  match b_size bt, field_type gmn (pf_sindex pf) with
  | Some bs, Some ty =>
      opt_eq (base_size_of bt) bs && (0 <? bs) &&
      (if fit_kind t =? kind_native then
         (bt =? base_string) ||
         (if fit_array t then
            native_ty (elem_type ty) &&
            match b_invalid bt, invalid_type bt with
            | Some iv, Some ity => native_ty ity && val_has_type ity iv
            | _, _ => false
            end
          else native_ty ty)
       else negb (fit_array t) && negb (bt =? base_string))
  | _, None => true
  | None, _ => false
  end.

Definition msg_ok2 (m : msgdesc) : bool :=
  (md_num m <? fields_len) && forallb (fun e => entry_ok2 (md_num m) (snd e)) (md_entries m) &&
  nodup_n (map fst (md_entries m)).

Lemma profile_msgs_ok2 : forallb msg_ok2 messages = true.
Proof. vm_compute. reflexivity. Qed.

(* what the comparison needs from the values: arrays shorter than 256 elements
   (writeField computes byte(value.Len())) and times within int64 nanoseconds of
   the FIT epoch (time.Sub saturates beyond) *)
Definition val_sane (v : goval) : bool :=
  match v with
  | VTime s _ _ => z_in (-9223372036) 9223372036 s
  | VList l => N.of_nat (List.length l) <? 256
  | _ => true
  end.
Definition msg_sane (m : msg) : bool := forallb val_sane (m_fields m).
Definition file_sane (f : file) : bool := forallb msg_sane (file_msgs f).

Definition arr_short (v : goval) : bool := match v with VList l => N.of_nat (List.length l) <? 256 | _ => true end.

(* w is the number field_matches wants *)
Definition elem_ok (be : bool) (pf : pfield) (bs : N) (x : goval) (q : list N) : Prop :=
  List.length q = N.to_nat bs /\ exists w, scalar_num pf bs x = Some w /\ opt_eqb w (num_of be q) = true.

Lemma bits_matches be b x : bits_ok b = true -> x < 2 ^ b ->
  opt_eqb (Some x) (num_of be (put_int be (nbytes b) x)) = true.
Proof.
  intros Hb Hx. destruct (bits_ok_pow _ Hb) as [Hp _]. cbn [opt_eqb].
  rewrite num_of_put_int_small by (rewrite <- Hp; exact Hx). apply N.eqb_refl.
Qed.

Definition fixed_width (ty : gotype) (bs : N) : Prop := native_ty ty = true /\ opt_eq (scalar_size ty) bs = true.

(* unsigned and float values are held as the number on the wire; signed ones go through of_signed *)
Lemma native_elem be pf ty bs x q :
  (fit_kind (pf_t pf) =? kind_native) = true -> (fit_base (pf_t pf) =? base_string) = false ->
  fixed_width ty bs -> val_has_type ty x = true ->
  encode_value be pf ty x = EOk q -> elem_ok be pf bs x q.
Proof.
  intros Hk Es [Hn Hs] Hv H. split; [exact (native_elem_len _ _ _ _ _ _ Hk Es Hs H)|].
  rewrite (encode_value_native _ _ _ _ Hk), Es in H. unfold scalar_num. rewrite Hk.
  destruct ty; try discriminate; cbn [native_ty scalar_size opt_eq] in Hn, Hs; apply N.eqb_eq in Hs;
    destruct x; try discriminate; cbn [val_has_type] in Hv; cbn [bw] in H; injection H as <-;
    eexists; (split; [reflexivity|]).
  1, 3: apply N.ltb_lt in Hv; rewrite (N.mod_small _ _ Hv); now apply bits_matches.
  destruct (bits_ok_pow _ Hn) as [_ H8]. rewrite <- Hs, <- H8. exact (bits_matches be _ _ Hn (of_signed_lt _ z)).
Qed.

(* a time is compared only if it is a whole second and the number wanted is a uint32; e is what encodeTime wrote *)
Lemma time_matches be ns z e : (ns = 0 -> (0 <= z < 4294967296)%Z -> e = Z.to_N z) ->
  opt_eqb (if ns =? 0 then u32_in_range z else None) (num_of be (put_int be 4 e)) = true.
Proof.
  intros He. destruct (N.eqb_spec ns 0) as [En|_]; [|reflexivity].
  unfold u32_in_range. destruct ((0 <=? z)%Z && (z <? 4294967296)%Z) eqn:E; [|reflexivity].
  cbn [opt_eqb]. rewrite (He En), (num_of_put_int_small be 4) by lia. apply N.eqb_refl.
Qed.

(* times and coordinates are four bytes. Only a local time needs val_sane: a UTC time beyond it is no uint32 anyway *)
Lemma other_elem be pf ty v p :
  (fit_kind (pf_t pf) =? kind_native) = false -> val_sane v = true -> encode_value be pf ty v = EOk p ->
  elem_ok be pf 4 v p.
Proof.
  intros Hk Hvs H. split; [exact (encode_value_4 _ _ _ _ _ Hk H)|].
  unfold encode_value in H. cbv zeta in H. unfold scalar_num. cbv zeta. rewrite Hk in H.
  destruct (fit_kind (pf_t pf) =? kind_timeutc).
  { destruct v; try discriminate. injection H as <-. eexists. split; [reflexivity|].
    apply time_matches. intros -> Hr. rewrite encode_time_whole by lia. now rewrite Z.mod_small. }
  destruct (fit_kind (pf_t pf) =? kind_timelocal).
  { destruct v; try discriminate. injection H as <-. eexists. split; [reflexivity|].
    cbn [val_sane] in Hvs. unfold z_in in Hvs. apply andb_true_iff in Hvs as [Hlo Hhi].
    apply time_matches. intros -> Hr. unfold encode_time_local. rewrite encode_time_whole by lia.
    rewrite Z2N.id by (apply Z.mod_pos_bound; lia). now rewrite Zplus_mod_idemp_l, Z.mod_small. }
  destruct (fit_kind (pf_t pf) =? kind_lat); [|destruct (fit_kind (pf_t pf) =? kind_lng); [|discriminate]];
    (destruct v; try discriminate; injection H as <-; eexists; split; [reflexivity|exact (bits_matches be 32 _ eq_refl (of_signed_lt 32 z))]).
Qed.

Lemma chunk_nil k fuel : chunk k fuel [] = [].
Proof. destruct fuel; reflexivity. Qed.

Lemma chunk_cons k fuel l : l <> [] -> chunk k (S fuel) l = firstn k l :: chunk k fuel (skipn k l).
Proof. destruct l; [congruence|reflexivity]. Qed.

Lemma chunk_concat k : forall (qs : list (list N)) fuel, (0 < k)%nat -> Forall (fun q => List.length q = k) qs ->
  (List.length qs <= fuel)%nat -> chunk k fuel (List.concat qs) = qs.
Proof.
  induction qs as [|q qs IH]; intros fuel Hk Hq Hf; cbn [List.concat].
  - apply chunk_nil.
  - inversion Hq; subst. destruct fuel as [|f]; [cbn in Hf; lia|]. cbn [List.length] in Hf.
    rewrite chunk_cons by (destruct q; [cbn in Hk; lia|discriminate]).
    rewrite firstn_len_app, skipn_len_app, IH; [reflexivity|assumption|assumption|lia].
Qed.

Lemma elems_chain be pf bs : forall xs qs, Forall2 (elem_ok be pf bs) xs qs ->
  exists want, all_some (map (scalar_num pf bs) xs) = Some want /\ elems_match want (map (num_of be) qs) = true.
Proof.
  induction 1 as [|x q xs qs (Hl & w & Hw & Hm) HF (want & Ha & He)].
  - exists []. split; reflexivity.
  - exists (w :: want). cbn [map all_some elems_match]. rewrite Hw, Ha, Hm, He. split; reflexivity.
Qed.

Lemma elems_concat be pf bs xs qs : 0 < bs -> Forall2 (elem_ok be pf bs) xs qs ->
  exists want, all_some (map (scalar_num pf bs) xs) = Some want /\
    elems_match want (map (num_of be) (chunk (N.to_nat bs) (List.length (List.concat qs)) (List.concat qs))) = true.
Proof.
  intros Hpos HF. destruct (elems_chain _ _ _ _ _ HF) as (want & Hw & Hm). exists want. split; [exact Hw|].
  assert (Hlens : Forall (fun q : list N => List.length q = N.to_nat bs) qs).
  { clear - HF. induction HF as [|x q xs qs [Hq _] _ IH]; constructor; assumption. }
  rewrite chunk_concat; [exact Hm|lia|exact Hlens|]. rewrite (concat_length_eq _ _ Hlens). nia.
Qed.

Lemma string_field_matches be pf bs s p :
  base_size_of (fit_base (pf_t pf)) = Some bs -> (fit_base (pf_t pf) =? base_string) = true -> fit_array (pf_t pf) = false ->
  encode_string s (pf_length pf) = EOk p -> field_matches be pf (fit_base (pf_t pf)) p (VStr s) = true.
Proof.
  intros Ebz Es Ea H. unfold field_matches. cbv zeta. rewrite N.eqb_refl, Ebz, Es, Ea. cbn [negb].
  unfold encode_string in H. destruct (pf_length pf =? 0); [discriminate|].
  destruct (utf8_valid _); [|discriminate]. injection H as <-. apply list_eqb_refl. (* bytes_eqb is list_eqb *)
Qed.

Lemma scalar_field_matches be pf bs v p :
  base_size_of (fit_base (pf_t pf)) = Some bs -> 0 < bs ->
  (fit_base (pf_t pf) =? base_string) = false -> fit_array (pf_t pf) = false ->
  elem_ok be pf bs v p -> field_matches be pf (fit_base (pf_t pf)) p v = true.
Proof.
  intros Ebz Hpos Es Ea He.
  destruct (elems_concat be pf bs [v] [p] Hpos (Forall2_cons _ _ He (Forall2_nil _))) as (want & Hw & Hm).
  cbn [List.concat] in Hm. rewrite app_nil_r in Hm. cbn [map all_some] in Hw.
  unfold field_matches. cbv zeta. rewrite N.eqb_refl, Ebz, Es, Ea. cbn [negb].
  destruct (scalar_num pf bs v); [injection Hw as <-; exact Hm|discriminate].
Qed.

Lemma array_field_matches be pf bs v l iv qs :
  base_size_of (fit_base (pf_t pf)) = Some bs -> 0 < bs ->
  (fit_base (pf_t pf) =? base_string) = false -> fit_array (pf_t pf) = true ->
  (match v with VList l => Some l | VNil => Some [] | _ => None end) = Some l -> b_invalid (fit_base (pf_t pf)) = Some iv ->
  Forall2 (elem_ok be pf bs) (firstn (N.to_nat (pf_length pf)) (l ++ repeat iv (N.to_nat (pf_length pf)))) qs ->
  field_matches be pf (fit_base (pf_t pf)) (List.concat qs) v = true.
Proof.
  intros Ebz Hpos Es Ea El Eiv HF. destruct (elems_concat _ _ _ _ _ Hpos HF) as (want & Hw & Hm).
  unfold field_matches. cbv zeta. rewrite N.eqb_refl, Ebz, Es, Ea, El, Eiv, Hw. exact Hm.
Qed.

Lemma entry_facts gmn pf ty :
  entry_ok gmn pf = true -> entry_ok2 gmn pf = true -> field_type gmn (pf_sindex pf) = Some ty ->
  exists bs, base_size_of (fit_base (pf_t pf)) = Some bs /\ 0 < bs /\
    if fit_kind (pf_t pf) =? kind_native then
      (fit_base (pf_t pf) =? base_string) = false ->
      if fit_array (pf_t pf) then
        fixed_width (elem_type ty) bs /\
        exists iv ity, b_invalid (fit_base (pf_t pf)) = Some iv /\ invalid_type (fit_base (pf_t pf)) = Some ity /\
          fixed_width ity bs /\ val_has_type ity iv = true
      else fixed_width ty bs
    else fit_array (pf_t pf) = false /\ (fit_base (pf_t pf) =? base_string) = false /\ bs = 4.
Proof.
  intros (bs & H1)%entry_ok_parts H2 Hty. pose proof (eo_size _ _ _ H1) as Ebs.
  pose proof (eo_sized _ _ _ H1 ty Hty) as Hsz. unfold sized in Hsz.
  unfold entry_ok2 in H2. cbv zeta in H2. rewrite Ebs, Hty in H2.
  apply andb_true_iff in H2 as [H2 H3]. apply andb_true_iff in H2 as [Hz Hpos].
  destruct (base_size_of _) as [x|]; [|discriminate]. apply N.eqb_eq in Hz. subst x. apply N.ltb_lt in Hpos.
  exists bs. split; [reflexivity|]. split; [exact Hpos|].
  destruct (fit_kind _ =? kind_native).
  - intros Es. rewrite Es in H3. destruct (fit_array _); cbn [andb orb] in H3.
    + destruct (proj2 Hsz Es) as (_ & Hel & Hinv). apply andb_true_iff in H3 as [Hne H3].
      destruct (b_invalid _) as [iv|]; [|discriminate]. destruct (invalid_type _) as [ity|]; [|discriminate].
      apply andb_true_iff in H3 as [Hnity Hviv]. split; [split; assumption|].
      exists iv, ity. repeat split; try assumption. exact (Hinv ity eq_refl).
    + exact (conj H3 (proj1 (Hsz Es))).
  - apply andb_true_iff in H3 as [Ha Es]. apply negb_true_iff in Ha, Es. rewrite Ha in Hsz.
    unfold fsize in Hsz. rewrite Ebs, Es, Ha, (N.mod_small _ _ (b_size_lt _ _ Ebs)) in Hsz. auto.
Qed.

(* what writeField takes of l, then what it pads *)
Lemma firstn_pad {A} (l : list A) iv L :
  let mx := if L <? N.of_nat (List.length l) then L else N.of_nat (List.length l) in
  firstn (N.to_nat L) (l ++ repeat iv (N.to_nat L)) = firstn (N.to_nat mx) l ++ repeat iv (N.to_nat (L - mx)).
Proof.
  cbv zeta. rewrite firstn_app. destruct (N.ltb_spec L (N.of_nat (List.length l))) as [Hlt|Hge]; f_equal.
  - replace (N.to_nat L - List.length l)%nat with 0%nat by lia. now rewrite N.sub_diag.
  - rewrite Nat2N.id, firstn_all. apply firstn_all2. lia.
  - rewrite firstn_repeat by lia. f_equal. lia.
Qed.

Lemma array_elems ty v l : val_has_type ty v = true -> val_sane v = true ->
  (match v with VList l => Some l | VNil => Some [] | _ => None end) = Some l ->
  Forall (fun x => val_has_type (elem_type ty) x = true) l /\ N.of_nat (List.length l) < 256.
Proof.
  intros Hv Hs El. destruct v; try discriminate; injection El as <-.
  - split; [constructor|reflexivity].
  - destruct ty; try discriminate. split; [apply Forall_forall, forallb_forall; now rewrite <- slice_typed|now apply N.ltb_lt].
Qed.

Lemma write_field_matches be gmn pf ty v p :
  entry_ok gmn pf = true -> entry_ok2 gmn pf = true -> field_type gmn (pf_sindex pf) = Some ty ->
  val_has_type ty v = true -> val_sane v = true ->
  write_field be pf ty v = EOk p -> field_matches be pf (fit_base (pf_t pf)) p v = true.
Proof.
  intros Hok Hok2 Hty Hv Hvs H. destruct (entry_facts _ _ _ Hok Hok2 Hty) as (bs & Ebz & Hpos & Hk).
  destruct (fit_array (pf_t pf)) eqn:Ea.
  - destruct (write_field_array _ _ _ _ _ Ea H) as (Es & l & elems & pads & El & HF1 & HF2 & Hpl & ->). cbv zeta in HF1, Hpl.
    destruct (fit_kind (pf_t pf) =? kind_native) eqn:Ek; [|destruct Hk; discriminate].
    destruct (Hk Es) as (Hel & iv & ity & Eiv & Eity & Hity & Hviv).
    destruct (array_elems _ _ _ Hv Hvs El) as [Hvl Hll]. rewrite (N.mod_small _ _ Hll) in HF1, Hpl.
    eapply array_field_matches; try eassumption. rewrite firstn_pad. apply Forall2_app.
    + eapply Forall2_impl_l; [|exact (Forall_firstn _ _ Hvl)|exact HF1].
      intros x q Hx Hq. exact (native_elem _ _ _ _ _ _ Ek Es Hel Hx Hq).
    + rewrite <- Hpl. apply Forall2_repeat_right. eapply Forall_impl; [|exact HF2].
      intros q (iv' & ity' & Eiv' & Eity' & Hq). rewrite Eiv in Eiv'. rewrite Eity in Eity'.
      injection Eiv' as <-. injection Eity' as <-. exact (native_elem _ _ _ _ _ _ Ek Es Hity Hviv Hq).
  - unfold write_field in H. rewrite Ea in H. cbn [negb] in H.
    destruct (fit_kind (pf_t pf) =? kind_native) eqn:Ek.
    + destruct (fit_base (pf_t pf) =? base_string) eqn:Es.
      * rewrite (encode_value_native _ _ _ _ Ek), Es in H. destruct v; try discriminate.
        eapply string_field_matches; eassumption.
      * eapply scalar_field_matches; try eassumption. eapply native_elem; eauto.
    + destruct Hk as (_ & Es & ->). eapply scalar_field_matches; try eassumption. eapply other_elem; eassumption.
Qed.

Lemma find_unique {A} (l : list (N * A)) : nodup_n (map fst l) = true -> forall e, In e l -> find (fun x => fst x =? fst e) l = Some e.
Proof.
  induction l as [|a l IH]; intros Hn e Hin; [contradiction|]. cbn [map nodup_n] in Hn. apply andb_true_iff in Hn as [Ha Hn].
  cbn [find]. destruct Hin as [->|Hin]; [now rewrite N.eqb_refl|].
  destruct (fst a =? fst e) eqn:E; [|now apply IH].
  exfalso. apply N.eqb_eq in E. apply negb_true_iff in Ha. rewrite <- not_true_iff_false in Ha. apply Ha.
  apply existsb_exists. exists (fst e). split; [apply in_map; exact Hin|now apply N.eqb_eq].
Qed.

Lemma from_profile_get_field gmn pf : from_profile gmn pf ->
  get_field gmn (pf_num pf) = Some pf /\ entry_ok2 gmn pf = true.
Proof.
  intros (i & Hi). apply by_sindex_in in Hi as (md & e & _ & He & <- & Efm).
  pose proof (ProfileProofs.find_msg_checked _ _ _ profile_msgs_ok2 Efm) as Hok2. pose proof (find_msg_num _ _ Efm) as Hnum.
  unfold msg_ok2 in Hok2. apply andb_true_iff in Hok2 as [Hok2 Hnd]. apply andb_true_iff in Hok2 as [Hlen Hent].
  rewrite Hnum in Hlen, Hent. apply N.ltb_lt in Hlen. split.
  - unfold get_field. replace (fields_len <=? gmn) with false by (symmetry; apply N.leb_gt; exact Hlen).
    rewrite Efm, <- (mo_keyed _ (find_msg_ok _ _ Efm) e He), (find_unique _ Hnd e He). reflexivity.
  - rewrite forallb_forall in Hent. now apply Hent.
Qed.

(* the field clause of record_matches *)
Definition fields_match (m : msg) (r : grec) : bool :=
  forallb (fun f =>
     let '(num, bt, raw) := f in
     match get_field (m_num m) num with
     | Some pf =>
         match nth_error (m_fields m) (pf_sindex pf) with
         | Some v => field_matches (gr_be r) pf bt raw v
         | None => false
         end
     | None => false
     end) (gr_fields r).

Lemma rec_fields_match be m r :
  rec_of be m r -> vals_typed (msg_layout (m_num m)) (m_fields m) = true -> msg_sane m = true ->
  gr_gmn r = m_num m /\ gr_be r = be /\ fields_match m r = true.
Proof.
  intros (fields & parts & Hfp & HF & ->) Hty Hsane. split; [reflexivity|]. split; [reflexivity|].
  unfold fields_match, grec_of. cbn [gr_fields gr_be].
  induction HF as [|pf p fields parts Hp HF IH]; [reflexivity|].
  inversion Hfp as [|? ? Hpf Hfp']; subst. cbn [combine map forallb fst snd]. rewrite (IH Hfp'), andb_true_r.
  destruct (from_profile_get_field _ _ Hpf) as [Hg Hok2]. rewrite Hg.
  pose proof (from_profile_entry_ok _ _ Hpf) as Hok.
  unfold field_out in Hp. destruct (nth_error (m_fields m) (pf_sindex pf)) as [v|] eqn:Ev; [|discriminate].
  destruct (field_type (m_num m) (pf_sindex pf)) as [ty|] eqn:Ety; [|discriminate].
  assert (Hv : val_has_type ty v = true).
  { destruct (field_type_nth _ _ _ Ety) as (nm & El). destruct (vals_typed_nth _ _ _ _ _ Hty El) as (v' & Ev' & Hv).
    rewrite Ev in Ev'. now injection Ev' as <-. }
  assert (Hvs : val_sane v = true).
  { unfold msg_sane in Hsane. rewrite forallb_forall in Hsane. apply Hsane. eapply nth_error_In; eassumption. }
  eapply write_field_matches; eassumption.
Qed.

Lemma file_msgs_checked f : wf_file f = true -> file_sane f = true ->
  Forall (fun m => vals_typed (msg_layout (m_num m)) (m_fields m) = true /\ msg_sane m = true) (file_msgs f).
Proof.
  intros Hwf%file_msgs_typed Hsane. unfold file_sane in Hsane. rewrite forallb_forall in Hsane. rewrite Forall_forall in *.
  intros m Hin. split; [apply (Hwf m Hin)|exact (Hsane m Hin)].
Qed.

(* FULL STATEMENT (refuted without file_sane): an array of 256 elements is written as all-invalid,
   because writeField computes byte(value.Len()) *)
Theorem encode_wire_array256_refuted :
  exists be pf ty v p, write_field be pf ty v = EOk p /\ val_has_type ty v = true /\
    field_matches be pf (fit_base (pf_t pf)) p v = false.
Proof.
  exists false, (mk_pfield 0 0 (N.lor 0x20 0x02) 2), (TSlice (TU 8)), (VList (repeat (VU 1) 256)).
  eexists. split; [vm_compute; reflexivity|]. split; vm_compute; reflexivity.
Qed.
