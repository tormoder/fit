(* C07 -- anything Decode accepts re-encodes; one round trip is a fixpoint.
   Models: Model/Decode.v, Model/Encode.v.  Comparators: Spec/RoundTrip.v
   (content_eq7 compares norm_msg (trunc_msg _) slot by slot). *)
From Coq Require Import NArith ZArith List Bool String.
From FitV Require Import Model.Values Model.Bytes Model.Profile Model.Reflect Model.Components Model.Route Model.IO
  Model.Header Model.Encode Model.Decode Spec.RoundTrip Proofs.EncodeProofs
  Spec.RouteSpec Proofs.C07Fixpoint Proofs.C07Reencode Proofs.C07DecodeWf Proofs.C07Integrity Proofs.C07CsdLength Proofs.C07Generations Proofs.C06Route Proofs.StreamDenoteDecode Proofs.EncExamples.
Import ListNotations.
Local Open Scope N_scope.

(* for every wf_file (every Go state of a File whose container matches FileId.Type): Encode returns
   bytes or the UTF-8 error of encodeString; it never panics *)
Theorem C07_encode_total : forall f be, wf_file f = true ->
  (exists r, encode f be = EOk r) \/ encode f be = EErr EEString.
Proof. exact encode_total. Qed.
Print Assumptions C07_encode_total.
Theorem C07_encode_no_panic : forall f be w, wf_file f = true -> encode f be <> EPanic w.
Proof. exact encode_no_panic. Qed.

(* what the decoder stores is well typed (decode_wf at field and message level) *)
Theorem C07_parse_fit_field_typed : forall be fd buf ty v,
  Forall (fun b => b < 256) buf -> float_fits (fd_btype fd) ty = true ->
  parse_fit_field be fd buf ty = FSet v -> val_has_type ty v = true.
Proof. exact parse_fit_field_typed. Qed.
Theorem C07_parse_fit_field_array_typed : forall be fd buf ty v,
  Forall (fun b => b < 256) buf -> float_fits (fd_btype fd) ty = true ->
  parse_fit_field_array be fd buf ty = FSet v -> val_has_type ty v = true.
Proof. exact parse_fit_field_array_typed. Qed.
(* every message parseDataMessage returns, on any input bytes and any decoder state, is a well-typed
   message of its type (wpre: weakest precondition over the decoder's read primitives) *)
Theorem C07_parse_data_message_wf : forall o b compressed,
  wpre (parse_data_message o b compressed)
       (fun om => match om with Some m => msg_wf (m_num m) m = true | None => True end).
Proof. exact parse_data_message_wf. Qed.
Print Assumptions C07_parse_data_message_wf.
(* File.add (routing and component expansion) keeps every slot well typed *)
Theorem C07_file_add_typed : forall f g m f' g',
  mwf m -> all_typed (f_slots f) -> file_add f g m = AddOk f' g' -> all_typed (f_slots f').
Proof.
  intros f g m f' g' Hm Hs. unfold file_add.
  destruct (f_inited f) as [ft|]; [|destruct (common_routes (m_num m)) as [|r rs]; [discriminate|]].
  all: destruct (apply_routes _ m (f_slots f) g) as [[slots g1]|] eqn:E; [|discriminate].
  all: intros H; inversion H; subst; cbn [f_slots]; eapply apply_routes_typed; eassumption.
Qed.

(* decode_wf at File level: for ANY input bytes, options, accumulator state and reader, a File Decode returns
   without error has the container init created for a valid file type, every slot holds well-typed messages of
   its own type, pointer slots at most one, FileId exactly one ... *)
Theorem C07_decode_slots_wf : forall o g rd fuel h file' rd' g' q,
  Forall (fun b => b < 256) (rd_data rd) ->
  entry_Decode o g rd fuel = TDone (mk_dres None h (Some file') rd' g' q) ->
  exists ft, f_inited file' = Some ft /\ In ft valid_file_types /\
             slots_wf 0 (slots_of ft) (f_slots file') = true.
Proof. exact decode_slots_wf. Qed.
(* ... hence it is wf_file exactly when FileId.Type still names that container (no second file_id record of
   another type: the known finding second_file_id is the ONLY way a decoded File is not wf_file) *)
Theorem C07_decode_wf_iff : forall o g rd fuel h file' rd' g' q,
  Forall (fun b => b < 256) (rd_data rd) ->
  entry_Decode o g rd fuel = TDone (mk_dres None h (Some file') rd' g' q) ->
  exists ft, f_inited file' = Some ft /\ wf_file file' = (ft =? file_type file').
Proof. exact decode_wf_iff. Qed.
Theorem C07_decode_wf : forall o g rd fuel h file' rd' g' q,
  Forall (fun b => b < 256) (rd_data rd) ->
  entry_Decode o g rd fuel = TDone (mk_dres None h (Some file') rd' g' q) ->
  forall ft, f_inited file' = Some ft -> file_type file' = ft -> wf_file file' = true.
Proof. exact decode_wf. Qed.
Print Assumptions C07_decode_wf.
(* the re-encode clause: anything Decode accepts re-encodes (or hits the UTF-8 defect); Encode never panics on it *)
Theorem C07_decode_reencode : forall o g rd fuel h file' rd' g' q be,
  Forall (fun b => b < 256) (rd_data rd) ->
  entry_Decode o g rd fuel = TDone (mk_dres None h (Some file') rd' g' q) ->
  f_inited file' = Some (file_type file') ->
  (exists r, encode file' be = EOk r) \/ encode file' be = EErr EEString.
Proof.
  intros o g rd fuel h file' rd' g' q be Hb Hd Hi. apply encode_total.
  eapply decode_wf; [exact Hb|exact Hd|exact Hi|reflexivity].
Qed.
Print Assumptions C07_decode_reencode.
(* ... and its output passes CheckIntegrity: the whole re-encode clause in one statement.  For any input Decode
   accepts (whose FileId.Type still names the container): Encode fails with the UTF-8 error, or writes bytes that
   CheckIntegrity accepts through any reader (bytes shorter than 2^32: the data-size field is 32 bits) *)
Theorem C07_reencode_total_integrity : forall o g rd fuel h file' rd' g' q be,
  Forall (fun b => b < 256) (rd_data rd) ->
  entry_Decode o g rd fuel = TDone (mk_dres None h (Some file') rd' g' q) ->
  f_inited file' = Some (file_type file') ->
  encode file' be = EErr EEString \/
  exists bs f'', encode file' be = EOk (bs, f'') /\
    (N.of_nat (List.length bs) < 4294967296 -> forall g2 rd2 fuel2 extra,
       rd_data rd2 = bs ++ extra -> (List.length (rd_data rd2) + List.length (rd_sched rd2) < fuel2)%nat ->
       exists r, entry_CheckIntegrity false g2 rd2 fuel2 = TDone r /\ dr_err r = None).
Proof. exact reencode_total_integrity. Qed.
Print Assumptions C07_reencode_total_integrity.
(* the header Decode leaves in the File is one Encode accepts *)
Theorem C07_decode_file_header : forall o g rd fuel h file' rd' g' q,
  Forall (fun b => b < 256) (rd_data rd) ->
  entry_Decode o g rd fuel = TDone (mk_dres None h (Some file') rd' g' q) ->
  f_header file' = h /\ Proofs.EncodeProofs.wf_header h = true /\ Model.Header.proto_ok (Model.Header.h_proto h) = true /\ Model.Header.h_profile h < 65536.
Proof. exact decode_file_header. Qed.
Theorem C07_decode_chained_wf : forall o g rd fuel files rd' g' q,
  Forall (fun b => b < 256) (rd_data rd) ->
  entry_DecodeChained o g rd fuel = TDone (mk_cres None files rd' g' q) ->
  Forall (fun f => exists ft, f_inited f = Some ft /\ wf_file f = (ft =? file_type f)) files.
Proof.
  intros o g rd fuel files rd' g' q Hb Hd. unfold entry_DecodeChained in Hd.
  pose proof (decode_chained_ok o fuel _ g rd 0%nat [] [] _ Hb (Forall_nil _) Hd eq_refl) as H.
  cbn [cr_files] in H. eapply Forall_impl; [|exact H]. exact file_ok_wf.
Qed.
(* the hypotheses are satisfiable (a concrete stream read in chunks), and the side condition is necessary:
   a file_id definition, an activity file_id, then a settings file_id decodes to a File that is not wf_file *)
Example C07_decode_wf_example :
  Forall (fun b => b < 256) (rd_data ok_reader) /\
  match entry_Decode no_opts g_init ok_reader 200 with
  | TDone r =>
      match dr_err r, dr_file r with
      | None, Some f => opt_n_eqb (f_inited f) (Some (file_type f)) && wf_file f
      | _, _ => false
      end
  | _ => false
  end = true.
Proof. exact decode_wf_example. Qed.
Theorem C07_decode_wf_needs_single_file_id :
  Forall (fun b => b < 256) (rd_data sfid_reader) /\
  match entry_Decode no_opts g_init sfid_reader 100 with
  | TDone r =>
      match dr_err r, dr_file r with
      | None, Some f => opt_n_eqb (f_inited f) (Some 4) && (file_type f =? 2) && negb (wf_file f)
      | _, _ => false
      end
  | _ => false
  end = true.
Proof. split; [apply BytesUtil.all_bytes_is_bytes; vm_compute; reflexivity|vm_compute; reflexivity]. Qed.

(* every decoded message of a type a container can host re-encodes (or hits the string defect) *)
Theorem C07_reencode_message : forall o b compressed be,
  wpre (parse_data_message o b compressed)
       (fun om => match om with
                  | Some m => mesg_enc_ok (m_num m) = true ->
                      (exists bs, encode_def_and_data be m = EOk bs) \/ encode_def_and_data be m = EErr EEString
                  | None => True
                  end).
Proof.
  intros o b compressed be.
  eapply wpre_mono; [|apply parse_data_message_wf]. intros [m|] H; [|exact I]. intros He.
  exact (one_err_cases _ _ (encode_def_and_data_cases be (m_num m) m H He)).
Qed.
(* the message types for which that fails are exactly those with []string fields; no container hosts them *)
Theorem C07_profile_mesg_enc_ok :
  map md_num (filter (fun m => md_known m && negb (mesg_enc_ok (md_num m))) Gen.ProfileData.messages) = [201; 206; 264].
Proof. exact profile_mesg_enc_ok. Qed.

(* numeric values survive decode -> encode -> decode, in any pair of byte orders *)
Theorem C07_decode_reencode_scalar : forall be be' fd buf ty v,
  Forall (fun b => b < 256) buf ->
  parse_fit_field be fd buf ty = FSet v -> codec_ok (fd_btype fd) ty = true ->
  exists bs, bw be' ty v = EOk bs /\ parse_fit_field be' fd bs ty = FSet v.
Proof.
  intros be be' fd buf ty v Hb Hp Hc.
  destruct (bw_typed_ok be' v ty) as [bs Hbs]; [eapply decoded_scalar_typed; eassumption|now apply (codec_ok_int (fd_btype fd))|].
  exists bs. split; [exact Hbs|]. eapply decode_reencode_scalar; eassumption.
Qed.

(* the fixpoint clause: the comparator compares idempotent normal forms and is an equivalence *)
Theorem C07_norm_msg_idem : forall m, norm_msg (norm_msg m) = norm_msg m.
Proof. exact norm_msg_idem. Qed.
Theorem C07_trunc_msg_idem : forall m, trunc_msg (trunc_msg m) = trunc_msg m.
Proof. intros m. unfold trunc_msg. cbn [m_num m_fields]. now rewrite (map_fields_idem trunc_field _ trunc_field_idem). Qed.
Theorem C07_cmp7_iff : forall i m m', cmp7 i m m' = true <-> norm_msg (trunc_msg m) = norm_msg (trunc_msg m').
Proof. exact cmp7_iff. Qed.
Theorem C07_content_eq7_refl : forall f, content_eq7 f f = true.
Proof. apply (eqb_of_key_equiv _ _ content_eq7_iff). Qed.
Theorem C07_content_eq7_sym : forall f1 f2, content_eq7 f1 f2 = content_eq7 f2 f1.
Proof. apply (eqb_of_key_equiv _ _ content_eq7_iff). Qed.
Theorem C07_content_eq7_trans : forall f1 f2 f3, content_eq7 f1 f2 = true -> content_eq7 f2 f3 = true -> content_eq7 f1 f3 = true.
Proof. apply (eqb_of_key_equiv _ _ content_eq7_iff). Qed.
Print Assumptions C07_content_eq7_trans.

(* the value-equality clause ("... decodes successfully with the same per-type message counts and equal numeric,
   time and coordinate field values ...; encoding that second result again yields the same decoded content").
   FULL STATEMENT (refuted) for records that carry a compressed_speed_distance array; the clause is claimed only for
   decoded Files none of whose records has a compressed_speed_distance source (array nil, empty, or 0xFF in its first
   three bytes: csd_free of Spec/RoundTrip.v), for two recorded reasons:
   (1) csd_array_length: RecordMsg.expandComponents expands the array only when it has exactly 3 bytes.  The validator
       accepts a definition that gives field 8 any size; Decode then leaves Speed/Distance alone; Encode pads or cuts the
       array to the profile's 3 bytes; the next Decode DOES expand.  Witnesses below: a 2-byte and a 5-byte array.
   (2) csd_accumulator: with exactly 3 bytes Speed and Distance are derived in both generations, but Distance continues
       the process-wide accumulator and EnhancedSpeed follows the derived Speed one generation late (third witness:
       even from fresh accumulators generation 1 has EnhancedSpeed invalid and generation 2 has 528).
   csd_obs pay = (array, Speed, Distance) of the record in generation 1, the same in generation 2 (Decode of Encode
   of generation 1, little endian, fresh accumulators) and the verdict of content_eq7. *)
(* 2 bytes: generation 1 keeps the array, Speed and Distance stay invalid; generation 2 holds the array
   padded with 0xFF, Speed 528 and Distance 243; the comparator of C07 says "different" *)
Theorem C07_reencode_csd_array_length_refuted :
  csd_obs [0x10; 0x32] =
  Some (VList [VU 16; VU 50], VU 65535, VU 4294967295, (VList [VU 16; VU 50; VU 255], VU 528, VU 243), false).
Proof. vm_compute. reflexivity. Qed.
Print Assumptions C07_reencode_csd_array_length_refuted.
(* 5 bytes: the array is cut to 3 bytes by Encode and expanded by the second Decode *)
Theorem C07_reencode_csd_array_length5_refuted :
  csd_obs [0x10; 0x32; 0x54; 0x76; 0x98] =
  Some (VList [VU 16; VU 50; VU 84; VU 118; VU 152], VU 65535, VU 4294967295, (VList [VU 16; VU 50; VU 84], VU 528, VU 67), false).
Proof. vm_compute. reflexivity. Qed.
(* exactly 3 bytes: both generations expand and Speed/Distance agree (from fresh accumulators); the generations
   still differ: EnhancedSpeed follows the derived Speed one generation late (part of the finding csd_accumulator) *)
Theorem C07_reencode_csd_three_bytes :
  csd_obs [0x10; 0x32; 0x54] =
  Some (VList [VU 16; VU 50; VU 84], VU 528, VU 67, (VList [VU 16; VU 50; VU 84], VU 528, VU 67), false) /\
  match gens [0x10; 0x32; 0x54] with
  | Some (f1, f2) => match first_record f1, first_record f2 with
                     | Some m1, Some m2 => (fld m1 "EnhancedSpeed", fld m2 "EnhancedSpeed") = (VU 4294967295, VU 528)
                     | _, _ => False
                     end
  | None => False
  end.
Proof. (* gens is named so that the checker evaluates it once *)
  unfold csd_obs. set (g := gens [0x10; 0x32; 0x54]). vm_compute. split; reflexivity.
Qed.

(* the positive counterpart: value equality between generation 1 and generation 2.  For every File f1 that Decode
   returned (FileId.Type still naming the container) whose truncation to the profile's fixed lengths (trunc_file:
   arrays cut to the profile length, strings to length - 1, exactly what Encode keeps) is in the C06 domain -- in
   particular no compressed_speed_distance source -- and, for the six string fields of profile length 1, holds no
   non-empty string (Encode writes a lone terminator for them), arrays below 256 elements: if Encode f1 succeeds,
   Decode of its output succeeds and returns f2 with content_eq6 (trunc_file f1) f2: same file type, per slot the
   same number of messages in the same order, field-for-field equal up to the profile's fixed lengths, trailing
   invalid padding, wall clock of local times and the component rule.  Proof: Encode f1 and Encode (trunc_file f1)
   write the same bytes (encode_trunc), then C06_roundtrip. *)
Theorem C07_encode_trunc : forall f be bs f',
  wf_file f = true -> len1_strings_empty f = true -> arrays_short f = true ->
  encode f be = EOk (bs, f') -> exists f'', encode (trunc_file f) be = EOk (bs, f'').
Proof. exact encode_trunc. Qed.
Theorem C07_generations_eq_decoded : forall o0 g0 rd0 fuel0 h0 f1 rd0' g0' q0 be bs f1' o g rd fuel extra,
  Forall (fun b => b < 256) (rd_data rd0) ->
  entry_Decode o0 g0 rd0 fuel0 = TDone (mk_dres None h0 (Some f1) rd0' g0' q0) ->
  f_inited f1 = Some (file_type f1) ->
  len1_strings_empty f1 = true -> arrays_short f1 = true ->
  in_domain (trunc_file f1) = true -> ginv g ->
  encode f1 be = EOk (bs, f1') -> N.of_nat (List.length bs) < 4294967296 ->
  rd_data rd = bs ++ extra -> (List.length (rd_data rd) + List.length (rd_sched rd) < fuel)%nat ->
  exists rd' f2 g' q h,
    entry_Decode o g rd fuel = TDone (mk_dres None h (Some f2) rd' g' q) /\
    content_eq6 (trunc_file f1) f2 = true /\ ginv g' /\
    rd_data rd' = extra /\ rd_pos rd' = (rd_pos rd + List.length bs)%nat.
Proof. exact generations_eq_decoded. Qed.
Print Assumptions C07_generations_eq_decoded.
(* satisfiable, with a File that is not itself in the C06 domain (a 25-byte ProductName, profile length 20, and a
   6-element Speed1s, profile length 5); on it both byte orders give content_eq6 (trunc_file f) f2 and content_eq7 f f2;
   neither side condition can be dropped: without it the bytes of Encode f and Encode (trunc_file f) can differ
   (C07_len1_string_differs below for len1_strings_empty, C07Generations.array256_differs for arrays_short) *)
Example C07_generations_example :
  wf_file gen_file && wf_header (f_header gen_file) && proto_ok (h_proto (f_header gen_file)) &&
  (h_profile (f_header gen_file) <? 65536) && len1_strings_empty gen_file && arrays_short gen_file &&
  in_domain (trunc_file gen_file) && negb (in_domain gen_file) &&
  enc_small gen_file true && enc_small gen_file false &&
  same_bytes gen_file (trunc_file gen_file) true && same_bytes gen_file (trunc_file gen_file) false = true.
Proof. exact generations_example. Qed.
Example C07_len1_string_differs :
  wf_file len1_file && arrays_short len1_file && negb (len1_strings_empty len1_file) &&
  enc_small len1_file false && enc_small (trunc_file len1_file) false &&
  negb (same_bytes len1_file (trunc_file len1_file) false) = true.
Proof. exact len1_string_differs. Qed.
(* not proved in general: that every decoded File satisfies len1_strings_empty / arrays_short (true on the explored
   ones), and the step from content_eq6 (trunc_file f1) f2 to content_eq7 f1 f2 (needs: expansion is idempotent on
   already expanded messages, generation 2 holds arrays of exactly the profile length); the harness decides
   content_eq7 between generations per accepted input *)

(* FULL STATEMENT (refuted): Encode succeeds on every File Decode returns.  The decoder hands out any
   bytes before the first NUL as a string; encodeString refuses what is not valid UTF-8 (known finding
   reencode_utf8) *)
Theorem C07_reencode_refuted :
  exists fd buf s size, parse_fit_field false fd buf TStr = FSet (VStr s) /\ 0 < size /\ encode_string s size = EErr EEString.
Proof. exact reencode_refuted. Qed.
Theorem C07_reencode_rune_split_refuted : exists s size, utf8_valid s = true /\ encode_string s size = EErr EEString.
Proof. (* a valid string cut in the middle of a rune: "a" followed by U+00E9, profile length 3 *)
  exists [97; 195; 169], 3. split; vm_compute; reflexivity.
Qed.
(* a decoded []string field cannot be written at all ("can't encode array of strings"); the three message
   types concerned are hosted by no container (206 only by the hidden developer-data slot Encode skips) *)
Theorem C07_reencode_string_array_refuted :
  exists fd buf v pf m0,
    get_field 264 2 = Some pf /\ field_type 264 (pf_sindex pf) = Some (TSlice TStr) /\
    parse_fit_field_array false fd buf (TSlice TStr) = FSet v /\ val_has_type (TSlice TStr) v = true /\
    (forall be, write_field be pf (TSlice TStr) v = EErr EEStringArray) /\
    mesg_all_invalid 264 = Some m0 /\ msg_wf 264 (msg_set m0 (pf_sindex pf) v) = true /\
    encode_def_and_data false (msg_set m0 (pf_sindex pf) v) = EErr EEStringArray.
Proof.
  exists (mk_fdef 2 4 Base.base_string), [65; 0; 66; 0], (VList [VStr [65]; VStr [66]]),
         (mk_pfield 3 2 39 200), (mk_msg 264 [VU 65535; VU 65535; VU 65535; VNil]).
  split; [vm_compute; reflexivity|]. split; [vm_compute; reflexivity|]. split; [vm_compute; reflexivity|].
  split; [vm_compute; reflexivity|]. split; [intros be; apply write_field_string_array; vm_compute; reflexivity|].
  split; [vm_compute; reflexivity|]. split; vm_compute; reflexivity.
Qed.

Example C07_example : wf_file ex_file = true /\ norm_msg ex_record <> mk_msg 0 [] /\ norm_msg (norm_msg ex_record) = norm_msg ex_record.
Proof. split; [exact ex_file_wf|]. split; [vm_compute; discriminate|apply norm_msg_idem]. Qed.
