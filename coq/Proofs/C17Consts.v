(* Tie of the C17 models to the current source text: Gen/C17Consts.v is
   regenerated on every check from latlng.go and time.go (constants as Go's
   constant evaluator computes them, the arguments of timeBase's time.Date call); the
   lemmas below state that the models use exactly those: sint32Invalid, precision,
   stringInvalid, and timeBase's instant and zone.  A change of the sentinel, the
   precision, the invalid string, the epoch or its zone in the source breaks them;
   the bounds, the operators and the time unit are tied by Proofs/C17Funcs.v. *)
From Coq Require Import ZArith String List.
From FitV Require Import Gen.C17Consts Model.LatLng Model.FitTime.
Import ListNotations.
Local Open Scope string_scope.
Local Open Scope Z_scope.

Lemma latlng_consts_agree :
  src_sint32Invalid = sint32_invalid /\ src_precision = precision /\ src_stringInvalid = string_invalid.
Proof. repeat split; reflexivity. Qed.

(* timeBase in the source is the date whose distance from January 1, year 1 is
   the model's base_abs, at 0 ns, in UTC (the unit of decodeDateTime and
   encodeTime is the subject of go_decodeDateTime_is and go_encodeTime_is in
   Proofs/C17Funcs.v, not of this lemma) *)
Lemma time_consts_agree :
  match src_timeBase with
  | [y; m; d; h; mi; s; ns] =>
      (days_from_civil y m d - days_from_civil 1 1 1) * 86400 + h * 3600 + mi * 60 + s = base_abs + t_sec time_base /\
      ns = t_nsec time_base
  | _ => False
  end /\
  src_timeBase_loc = "UTC" /\ t_zone time_base = None.
Proof. repeat split; reflexivity. Qed.
