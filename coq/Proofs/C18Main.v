(* C18 on whole streams.  route_msgs (StreamDenoteMain.v) is File.add over the messages, and File.add over a sequence
   is [stored_run] (RouteProofs.adds_stored_run): expand_components applied in stream order, threading the accumulator
   state (route_msgs_expanded).  With Decode_denote (Decode's File is route_msgs of the denoted messages) this gives what
   Decode returns for a stream in the domain of C02's decode_denote, from ANY accumulator state g (stream_expanded); the
   Distance theorems follow from it by the message-level ones of C18Messages.v.  At the end a witness stream (csd_stream,
   csd_hdr, csd_reader), with record_distances and state_after to read a Decode result, for the example here and the
   refutation in Props/C18.v. *)
From Coq Require Import NArith ZArith List Bool String Lia Arith.
From FitV Require Import Proofs.Util Model.Values Model.Bytes Model.Reflect Model.Profile Model.IO Model.Header Model.Components
  Model.Route Model.Decode Spec.FitSyntax Spec.RouteSpec Spec.ComponentSpec Proofs.RouteProofs
  Proofs.ComponentProofs Proofs.C18Defs Proofs.C18Good Proofs.C18Messages
  Proofs.StreamDenoteDefs Proofs.StreamDenoteLift Proofs.StreamDenoteMain Proofs.StreamDenoteFrame Proofs.StreamDenoteDecode
  Gen.Consts Gen.RoutingData.
From FitV Require Import Proofs.StreamDenoteWitness.
Import ListNotations.
Local Open Scope N_scope.

(* File.add before init + init *)
Theorem start_file_facts : forall h g m0 f2 g1, start_file h g m0 = Some (f2, g1) ->
  g1 = g /\ exists ft, In ft valid_file_types /\ f_inited f2 = Some ft /\
    List.length (f_slots f2) = List.length (slots_of ft) /\
    forall i, (NCOMMON <= i)%nat -> nth i (f_slots f2) [] = [].
Proof.
  intros h g m0 f2 g1 H. unfold start_file in H. rewrite (file_add_uninited (new_file h) g m0 eq_refl) in H.
  destruct (find_slot first_valid_ft (m_num m0)) as [[i0 multi]|]; [|discriminate].
  destruct (Nat.ltb i0 NCOMMON); [|discriminate].
  destruct (file_init _) as [fb|] eqn:Ei; [|discriminate]. inversion H; subst fb g1. clear H. split; [reflexivity|].
  set (s' := set_nth i0 _ _) in *. assert (Hl : List.length s' = 5%nat) by apply set_nth_length.
  change (with_slots (new_file h) s') with (mk_file h 0 s' None None None) in Ei.
  destruct (file_init_some _ _ Ei) as [Hft ->].
  exists (file_type (mk_file h 0 s' None None None)). split; [exact Hft|]. split; [reflexivity|].
  set (ft := file_type (mk_file h 0 s' None None None)) in *. cbn [f_slots].
  set (sl := slots_of ft) in *.
  destruct (wf_ft_clauses ft Hft) as (Hok & _). fold sl in Hok.
  assert (Hf5 : List.length (firstn NCOMMON s') = NCOMMON) by (rewrite firstn_length, Hl; cbn [List.length]; unfold NCOMMON; lia).
  split.
  - rewrite app_length, repeat_length, Hf5. lia.
  - intros i Hi. rewrite app_nth2 by lia. apply nth_repeat.
Qed.

Theorem route_msgs_expanded : forall h g m0 ms f g',
  route_msgs h g (m0 :: ms) = Some (f, g') ->
  exists ft sm,
    In ft valid_file_types /\ f_inited f = Some ft /\
    stored_run ft g ms = Some (sm, g') /\
    forall i name multi held, nth_error (slots_of ft) i = Some (name, multi, held) -> (NCOMMON <= i)%nat ->
      nth i (f_slots f) [] = slot_contents multi held [] sm.
Proof.
  intros h g m0 ms f g' H. unfold route_msgs in H.
  destruct (start_file h g m0) as [[f2 g1]|] eqn:Es; [|discriminate].
  destruct (adds f2 g1 ms) as [fx gx|] eqn:Ea; [|discriminate]. inversion H; subst fx gx. clear H.
  destruct (start_file_facts _ _ _ _ _ Es) as (-> & ft & Hft & Hi & Hlen & Hempty).
  destruct (adds_stored_run ft Hft ms f2 g f g' Hi Hlen Ea) as (sm & Hr & Hif & Hslots).
  exists ft, sm. repeat (split; [assumption|]).
  intros i name multi held Hn Hge. rewrite (Hslots i name multi held Hn). now rewrite Hempty.
Qed.

Theorem stream_expanded : forall o g rd fuel h rs ss1 f2 g1 extra,
  header_wf h -> h_dsize h = N.of_nat (List.length (ser_records rs)) ->
  starts_with_file_id rs = true -> stream_wf rs = true -> denote rs = Some ss1 ->
  start_file h g (hd dummy_msg (ss_msgs ss1)) = Some (f2, g1) ->
  rd_data rd = fit_file h rs ++ extra ->
  (List.length (rd_data rd) + List.length (rd_sched rd) < fuel)%nat ->
  exists rd' file' g' q ft m0 ms sm,
    entry_Decode o g rd fuel = TDone (mk_dres None h (Some file') rd' g' q) /\
    ss_msgs ss1 = m0 :: ms /\ Forall good ms /\
    In ft valid_file_types /\ f_inited file' = Some ft /\
    stored_run ft g ms = Some (sm, g') /\
    forall i name multi held, nth_error (slots_of ft) i = Some (name, multi, held) -> (NCOMMON <= i)%nat ->
      nth i (f_slots file') [] = slot_contents multi held [] sm.
Proof.
  intros o g rd fuel h rs ss1 f2 g1 extra Hh Hsz Hs Hwf Hd Hst Hdata Hfuel.
  destruct (Decode_denote o g rd fuel h rs ss1 f2 g1 extra Hh Hsz Hs Hwf Hd Hst Hdata Hfuel)
    as (rd' & file' & f & g' & q & Hdec & Hroute & Hslots & Hinit & _).
  destruct (ss_msgs ss1) as [|m0 ms] eqn:Em; [discriminate Hroute|].
  destruct (route_msgs_expanded h g m0 ms f g' Hroute) as (ft & sm & Hft & Hi & Hrun & Hcont).
  pose proof (denote_good rs ss1 Hwf Hd) as Hgood. rewrite Em in Hgood. inversion Hgood as [|? ? _ Hgms]; subst.
  exists rd', file', g', q, ft, m0, ms, sm. rewrite Hslots, Hinit. repeat split; try assumption.
Qed.

Lemma good_msgs_ok ms : Forall good ms -> msgs_ok ms.
Proof.
  unfold msgs_ok. apply Forall_impl. intros m Hg. split; [exact (proj1 Hg)|]. intros Hr. now apply good_csd_bytes.
Qed.

(* the Distance column of the record slot, and the accumulator handed on: what stream_expanded says of the slots, read
   through stream_distance_general *)
Lemma record_column ft ms g sm gl i (slots : list (list msg)) :
  In ft valid_file_types -> find_slot ft c_MesgNumRecord = Some (i, true) -> (NCOMMON <= i)%nat ->
  (forall j name multi held, nth_error (slots_of ft) j = Some (name, multi, held) -> (NCOMMON <= j)%nat ->
     nth j slots [] = slot_contents multi held [] sm) ->
  Forall good ms -> stored_run ft g ms = Some (sm, gl) ->
  map distance_of (nth i slots []) = expect_dist (dist_acc g) ms /\
  dist_acc gl = run_accum_state (dist_acc g) (map raw_of (filter csd_valid (filter is_record ms))).
Proof.
  intros Hft Hf Hi Hc Hgood Hrun. destruct (proj1 (find_slot_iff ft c_MesgNumRecord i true Hft) Hf) as [name Hn].
  rewrite (Hc i name true c_MesgNumRecord Hn Hi).
  apply (stream_distance_general ft); [exists i, true; split; assumption|exact (msgs_ok_shape ms (good_msgs_ok ms Hgood))|exact Hrun].
Qed.

Theorem stream_distance : forall o g rd fuel h rs ss1 f2 g1 extra,
  header_wf h -> h_dsize h = N.of_nat (List.length (ser_records rs)) ->
  starts_with_file_id rs = true -> stream_wf rs = true -> denote rs = Some ss1 ->
  start_file h g (hd dummy_msg (ss_msgs ss1)) = Some (f2, g1) ->
  rd_data rd = fit_file h rs ++ extra ->
  (List.length (rd_data rd) + List.length (rd_sched rd) < fuel)%nat ->
  g_dist g = None ->
  exists rd' file' g' q ft m0 ms,
    entry_Decode o g rd fuel = TDone (mk_dres None h (Some file') rd' g' q) /\
    ss_msgs ss1 = m0 :: ms /\ f_inited file' = Some ft /\
    forall i, find_slot ft c_MesgNumRecord = Some (i, true) -> (NCOMMON <= i)%nat ->
      let recs := nth i (f_slots file') [] in
      let src := filter is_record ms in
      List.length recs = List.length src /\
      pick_valid src (map distance_of recs) = spec_accumulate 12 (map raw_of (filter csd_valid src)) /\
      leave_invalid src (map distance_of recs) = map distance_of (filter (fun m => negb (csd_valid m)) src) /\
      (Forall (fun m => is_record m = true -> csd_valid m = true) ms ->
         map distance_of recs = spec_accumulate 12 (map raw_of src)) /\
      (Forall (fun m => is_record m = true -> csd_valid m = true) ms ->
       Forall (fun m => is_record m = true -> nth 2 (csd_bytes m) 0 < 16) ms ->
         map distance_of recs = spec_accumulate 12 (map spec_raw_of src)).
Proof.
  intros o g rd fuel h rs ss1 f2 g1 extra Hh Hsz Hs Hwf Hd Hst Hdata Hfuel Hg.
  destruct (stream_expanded o g rd fuel h rs ss1 f2 g1 extra Hh Hsz Hs Hwf Hd Hst Hdata Hfuel)
    as (rd' & file' & g' & q & ft & m0 & ms & sm & Hdec & Hm & Hgood & Hft & Hi & Hrun & Hc).
  exists rd', file', g', q, ft, m0, ms. split; [exact Hdec|]. split; [exact Hm|]. split; [exact Hi|].
  intros i Hf Hge recs src. unfold recs, src.
  destruct (record_column ft ms g sm g' i _ Hft Hf Hge Hc Hgood Hrun) as [E _].
  pose proof (good_msgs_ok ms Hgood) as Hok. rewrite <- (map_length distance_of), E.
  destruct (expect_dist_pick ms (dist_acc g)) as (Hlen & -> & Hleave).
  pose proof (fun l => run_accum_fresh g ms l Hg Hok) as Hfr.
  split; [exact Hlen|]. split; [apply Hfr, incl_filter|]. split; [exact Hleave|]. split.
  - intros Hv. rewrite (expect_dist_all_valid ms _ Hv). apply Hfr, incl_refl.
  - intros Hv Hb. rewrite (expect_dist_all_valid ms _ Hv), <- (raws_spec ms Hok Hb). apply Hfr, incl_refl.
Qed.

Print Assumptions stream_expanded.
Print Assumptions stream_distance.

(* activity file; four records carrying compressed_speed_distance: raw distances 1, 3, (FF FF FF: invalid), 5 *)
Definition csd_stream : list record :=
  [w_fileid_def; w_fileid; RDef 1 false 20 [mk_sfdef 8 3 13] false [];
   RData 1 [0; 16; 0] []; RData 1 [0; 48; 0] []; RData 1 [255; 255; 255] []; RData 1 [0; 80; 0] []].
Definition csd_hdr : header := mk_header 12 16 2215 (N.of_nat (List.length (ser_records csd_stream))) fit_dtype 0.
Definition csd_reader : reader := mk_reader (fit_file csd_hdr csd_stream) [4; 0; 9]%nat TEOF false 0.

Lemma csd_hdr_wf : header_wf csd_hdr.
Proof.
  unfold header_wf, csd_hdr. cbn [h_size h_proto h_profile h_dsize h_dtype h_crc].
  repeat split; try (vm_compute; reflexivity); try (right; reflexivity); intros H; try reflexivity; discriminate H.
Qed.

Definition record_distances (r : tout dres) : option (list N) :=
  match r with
  | TDone d => match dr_file d with
               | Some f => Some (map distance_of (filter is_record (List.concat (f_slots f))))
               | None => None
               end
  | _ => None
  end.
Definition state_after (r : tout dres) : gstate := match r with TDone d => dr_g d | _ => g_init end.

Example csd_stream_example :
  header_wf csd_hdr /\ h_dsize csd_hdr = N.of_nat (List.length (ser_records csd_stream)) /\
  starts_with_file_id csd_stream = true /\ stream_wf csd_stream = true /\
  (exists ss f2 g1, denote csd_stream = Some ss /\ start_file csd_hdr g_init (hd dummy_msg (ss_msgs ss)) = Some (f2, g1)) /\
  g_dist g_init = None /\
  record_distances (entry_Decode no_opts g_init csd_reader 200) = Some [1; 3; 4294967295; 5] /\
  spec_accumulate 12 [1; 3; 5] = [1; 3; 5].
Proof.
  split; [exact csd_hdr_wf|]. split; [reflexivity|]. split; [vm_compute; reflexivity|]. split; [vm_compute; reflexivity|].
  split; [apply starts_computed; vm_compute; discriminate|].
  split; [reflexivity|]. split; vm_compute; reflexivity.
Qed.
