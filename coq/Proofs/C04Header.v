(* C04 (d): the header checksum verdict is the same in every API that checks headers.
   header_stage_with checksum (Spec/Integrity.v) is what CheckIntegrity, DecodeHeader, DecodeHeaderAndFileID and
   Decode compute (Proofs/C04Verdict.v: decode_header_verdict, header_error_all_modes, header_only_spec);
   header_check_integrity (Model/Header.v) is Header.CheckIntegrity on the Header value they report. *)
From Coq Require Import NArith ZArith List Bool Arith Lia.
From Coq Require Import ZifyN ZifyNat ZifyBool.
From FitV Require Import Model.Values Model.Bytes Model.Crc Model.IO Model.Header Model.Route Model.Decode Gen.Consts
  Spec.CrcSpec Spec.Burst Spec.Integrity Proofs.Util Proofs.BytesUtil Proofs.CrcProofs Proofs.C04Crc Proofs.C04IO Proofs.C04Verdict
  Proofs.C04Bytes.
Import ListNotations.
Local Open Scope N_scope.

Definition hci_of_stage (v : option err) : option bool :=
  match v with None => None | Some EHdrCRC => Some true | Some _ => Some false end.

Lemma hci_of_stage_none v : hci_of_stage v = None <-> v = None.
Proof. destruct v as [[]|]; split; (discriminate || reflexivity). Qed.

(* Header.CheckIntegrity checksums the bytes it marshals from the Header: for a decoded Header these are
   the 14 bytes that were read *)
Lemma header_image bs : is_bytes (firstn 14 bs) -> (14 <= length bs)%nat ->
  header_bytes12 (parse_header bs) ++ put_le16 (stored_hdr_crc bs) = firstn 14 bs.
Proof.
  intros Hb Hl. do 14 (destruct bs as [|? bs]; [cbn [length] in Hl; lia|]).
  cbn [firstn] in Hb. repeat (apply Forall_cons_iff in Hb; destruct Hb as [? Hb]).
  unfold header_bytes12, parse_header, stored_hdr_crc, b_at.
  cbn [nth firstn skipn h_size h_proto h_profile h_dsize h_dtype app].
  rewrite !put_le16_le16, put_le32_le32 by assumption. reflexivity.
Qed.

Theorem header_apis_agree : forall bs tm, is_bytes (firstn 14 bs) ->
  (b_at bs 0 = 12 \/ b_at bs 0 = 14) -> (N.to_nat (b_at bs 0) <= length bs)%nat ->
  header_check_integrity (parse_header bs) = hci_of_stage (header_stage_with checksum bs tm).
Proof.
  intros bs tm Hb Hsz Hlen. rewrite header_stage_legal by (unfold hdr_size; lia).
  unfold header_check_integrity. cbn [parse_header h_size h_proto h_dtype h_crc].
  change c_headerSizeCRC with 14. change c_headerSizeNoCRC with 12.
  replace ((b_at bs 0 =? 14) || (b_at bs 0 =? 12)) with true by lia. cbn [negb].
  destruct (proto_ok _); cbn [negb]; [|reflexivity].
  destruct (list_eqb _ fit_dtype); cbn [negb]; [|reflexivity].
  destruct Hsz as [E|E]; rewrite E in *; cbn [N.eqb Pos.eqb]; [reflexivity|].
  destruct (stored_hdr_crc bs =? 0); [reflexivity|].
  rewrite header_image by (assumption || lia). destruct (checksum (firstn 14 bs) =? 0); reflexivity.
Qed.

(* Header.CheckIntegrity on ANY Header value whose Size is neither 12 nor 14: a non-integrity error, first *)
Theorem header_check_bad_size : forall h, h_size h <> 12 -> h_size h <> 14 -> header_check_integrity h = Some false.
Proof.
  intros h H12 H14. unfold header_check_integrity. change c_headerSizeCRC with 14. change c_headerSizeNoCRC with 12.
  apply N.eqb_neq in H12. apply N.eqb_neq in H14. now rewrite H12, H14.
Qed.

Theorem header_stage_bad_size : forall crcf sz t tm, sz <> 12 -> sz <> 14 ->
  header_stage_with crcf (sz :: t) tm = Some EHeaderSize.
Proof.
  intros crcf sz t tm H12 H14. unfold header_stage_with. change c_headerSizeCRC with 14. change c_headerSizeNoCRC with 12.
  apply N.eqb_neq in H12. apply N.eqb_neq in H14. now rewrite H12, H14.
Qed.

(* for every header value and every corruption of it: Header.CheckIntegrity on the Header the decoder
   reports gives the verdict of the header stage of the decoding entry points, error class included;
   the header bytes are demanded only when the size byte is 12 or 14 *)
Theorem header_apis_agree_all_sizes : forall bs tm, bs <> [] -> is_bytes (firstn 14 bs) ->
  (b_at bs 0 = 12 \/ b_at bs 0 = 14 -> (N.to_nat (b_at bs 0) <= length bs)%nat) ->
  header_check_integrity (parse_header bs) = hci_of_stage (header_stage_with checksum bs tm).
Proof.
  intros bs tm Hne Hb Hlen.
  destruct (N.eq_dec (b_at bs 0) 12) as [E|N12]; [apply header_apis_agree; auto|].
  destruct (N.eq_dec (b_at bs 0) 14) as [E|N14]; [apply header_apis_agree; auto|].
  destruct bs as [|sz t]; [contradiction|]. rewrite header_stage_bad_size by assumption. now apply header_check_bad_size.
Qed.

Theorem header_crc_agree : forall bs, is_bytes (firstn 14 bs) -> b_at bs 0 = 14 -> (14 <= length bs)%nat ->
  stored_hdr_crc bs <> 0 ->
  (arc (firstn 12 bs) <> stored_hdr_crc bs ->
     (forall tm, exists e, header_stage_with arc bs tm = Some e /\ (e = EProto \/ e = ENotFit \/ e = EHdrCRC)) /\
     header_check_integrity (parse_header bs) <> None) /\
  (arc (firstn 12 bs) = stored_hdr_crc bs -> proto_ok (b_at bs 1) = true -> firstn 4 (skipn 8 bs) = fit_dtype ->
     (forall tm, header_stage_with arc bs tm = None) /\ header_check_integrity (parse_header bs) = None).
Proof.
  intros bs Hb E Hlen Hst.
  assert (Hagree : forall tm, header_check_integrity (parse_header bs) = hci_of_stage (header_stage_with arc bs tm)).
  { intros tm. rewrite <- header_stage_arc by assumption. apply header_apis_agree; [assumption|now right|rewrite E; exact Hlen]. }
  pose proof (header_residue_iff bs Hb Hlen) as Hres.
  rewrite (checksum_is_arc (firstn 14 bs)), (checksum_is_arc (firstn 12 bs)) in Hres
    by (assumption || apply (Forall_firstn 12) in Hb; now rewrite firstn_firstn in Hb).
  assert (Hsz : hdr_size bs = 14%nat) by (unfold hdr_size; now rewrite E).
  split.
  - intros Hne.
    assert (Hrej : forall tm, header_stage_with arc bs tm <> None).
    { intros tm Hs. apply header_stage_none_iff in Hs as (_ & _ & _ & _ & Hc). apply Hne. symmetry. now apply Hres, Hc. }
    split; [|rewrite (Hagree TEOF), hci_of_stage_none; apply Hrej].
    (* with the size legal and the bytes there, the stage can only stop at one of its last three tests *)
    intros tm. specialize (Hrej tm). rewrite header_stage_legal in * by lia.
    destruct (negb (proto_ok _)); [eauto|]. destruct (negb (list_eqb _ _)); [eauto|].
    destruct (_ =? 12); [now elim Hrej|]. destruct (_ =? 0); [now elim Hrej|]. destruct (negb _); [eauto|now elim Hrej].
  - intros Heq Hp Hdt.
    assert (Hacc : forall tm, header_stage_with arc bs tm = None).
    { intros tm. apply header_stage_none_iff. rewrite Hsz. repeat split; auto. intros _ _. now apply Hres. }
    split; [exact Hacc|]. now rewrite (Hagree TEOF), Hacc.
Qed.

Theorem header_nocrc_accept : forall bs tm, is_bytes (firstn 14 bs) ->
  (b_at bs 0 = 12 \/ (b_at bs 0 = 14 /\ stored_hdr_crc bs = 0)) -> (N.to_nat (b_at bs 0) <= length bs)%nat ->
  proto_ok (b_at bs 1) = true -> firstn 4 (skipn 8 bs) = fit_dtype ->
  header_stage_with arc bs tm = None /\ header_check_integrity (parse_header bs) = None.
Proof.
  intros bs tm Hb Hsz Hlen Hp Hdt.
  assert (Hs : header_stage_with arc bs tm = None).
  { apply header_stage_none_iff. unfold hdr_size. repeat split; auto; [lia|]. intros H14 Hst. exfalso. lia. }
  split; [exact Hs|].
  rewrite (header_apis_agree bs tm Hb), header_stage_arc, Hs by tauto. reflexivity.
Qed.

Theorem header_verdict_all_apis : forall o g fuel rd, (measure rd < fuel)%nat ->
  (forall e, header_stage_with checksum (rd_data rd) (rd_term rd) = Some e ->
     forall md, exists r, decode o md g rd fuel = TDone r /\ dr_err r = Some e) /\
  (header_stage_with checksum (rd_data rd) (rd_term rd) = None ->
     (exists r, decode o MHeaderOnly g rd fuel = TDone r /\ dr_err r = None /\ dr_hdr r = parse_header (rd_data rd)) /\
     (exists r, decode o MCrcOnly g rd fuel = TDone r /\ dr_err r <> Some EHdrCRC /\ dr_err r <> Some EProto /\ dr_err r <> Some ENotFit) /\
     (exists h crc rd', decode_header fuel rd = Done (None, h, crc, rd'))).
Proof.
  intros o g fuel rd Hm. split.
  - intros e He md. exact (header_error_all_modes o md g fuel rd e Hm He).
  - intros Hn. split; [|split].
    + destruct (header_only_spec o g fuel rd Hm) as (r & E & Hr & Hh). rewrite Hn in Hr. exists r. split; [exact E|split; [exact Hr|now apply Hh]].
    + destruct (check_integrity_spec o g fuel rd Hm) as (r & E & Hr & _). exists r. split; [exact E|].
      rewrite Hr. unfold crc_verdict_with. rewrite Hn.
      destruct (Nat.ltb _ _); [repeat split; discriminate|]. destruct (Nat.ltb _ _); [repeat split; discriminate|].
      destruct (_ =? 0); repeat split; discriminate.
    + destruct (decode_header_verdict fuel rd Hm) as (h & crc & rd' & E). rewrite Hn in E. eauto.
Qed.

(* there is no decoded Header behind an illegal size byte: the Header is whatever a caller builds *)
Theorem bad_size_rejected_all_apis : forall sz t o g fuel rd, rd_data rd = sz :: t -> (measure rd < fuel)%nat ->
  sz <> 12 -> sz <> 14 ->
  (forall md, exists r, decode o md g rd fuel = TDone r /\ dr_err r = Some EHeaderSize /\ is_integrity EHeaderSize = false) /\
  (forall h, h_size h = sz -> header_check_integrity h = Some false).
Proof.
  intros sz t o g fuel rd Hd Hm H12 H14. split.
  - intros md. destruct (header_error_all_modes o md g fuel rd EHeaderSize Hm) as (r & E & Hr); [|eauto].
    rewrite Hd. now apply header_stage_bad_size.
  - intros h <-. now apply header_check_bad_size.
Qed.
