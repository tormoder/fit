(* C04 (b): verdict soundness of the decoder model, for every chunk schedule.
   Proofs/C10Frame.v (decode_abs) reduces decode over any reader to decode_a over the reader's bytes.  Here
   decode_a is compared with the verdict functions of Spec/Integrity.v, taken with the checksum of Model/Crc.v: its header
   stage computes header_stage_m and parse_header (C10Frame.hdr_a_stage, decode_a_header); in CheckIntegrity's mode it
   computes crc_verdict_m (decode_a_crc_only); in Decode's mode too, unless record parsing or the buffered reads
   fail, and that failure is never an IntegrityError (decode_a_full, by Proofs/C04Leaves.v).  The theorems about
   decode follow, and from them accepted_verdict: if Decode or CheckIntegrity returns no error, the bytes consumed
   are header ++ data ++ crc with residue 0. *)
From Coq Require Import NArith ZArith List Bool Arith Lia.
From FitV Require Import Model.Values Model.Bytes Model.Crc Model.IO Model.Header Model.Route Model.Decode Gen.Consts
  Spec.Integrity Proofs.Util Proofs.CrcProofs Proofs.IOSim Proofs.C10IO Proofs.C10Frame Proofs.C04IO Proofs.C04Leaves
  Proofs.C04Bytes.
Import ListNotations.
Local Open Scope N_scope.

Notation header_stage_m := (header_stage_with checksum).
Notation crc_verdict_m := (crc_verdict_with checksum).

Lemma decode_a_header o md g bs tm :
  match header_stage_m bs tm with
  | Some e => exists h used, decode_a o md g bs tm = TDone (mk_ares (Some e) h None used g [] true)
  | None => decode_a o md g bs tm =
              body_a o md g (parse_header bs) (checksum (firstn (hdr_size bs) bs)) (hdr_size bs) (skipn (hdr_size bs) bs) tm /\
            (hdr_size bs <= length bs)%nat
  end.
Proof.
  unfold decode_a. destruct (hdr_a_stage bs tm) as (h & crc & used & -> & Hok).
  destruct (header_stage_m bs tm) as [e|] eqn:Ehs.
  - eexists _, _. reflexivity.
  - destruct (Hok eq_refl) as (-> & -> & ->). split; [reflexivity|apply (header_stage_none_legal _ _ _ Ehs)].
Qed.

Definition verdict_res (bs : list N) (tm : term) (a : ares) : Prop :=
  ar_err a = crc_verdict_m bs tm /\ ar_exact a = true /\ (ar_err a = None -> ar_used a = frame_len bs).

Lemma verdict_res_decode rd r a : matches rd r a -> verdict_res (rd_data rd) (rd_term rd) a ->
  dr_err r = crc_verdict_m (rd_data rd) (rd_term rd) /\
  (dr_err r = None -> rd_pos (dr_rd r) = (rd_pos rd + frame_len (rd_data rd))%nat).
Proof.
  intros M (Hv & Hx & Hu). destruct (matches_pos _ _ _ M Hx) as [Hp _]. pose proof (mt_err _ _ _ M) as M1.
  split; [congruence|]. intros Hn. rewrite Hp, Hu; congruence.
Qed.

Lemma verdict_res_header bs tm e h f used g : header_stage_m bs tm = Some e ->
  verdict_res bs tm (mk_ares (Some e) h f used g [] true).
Proof. intros Hs. unfold verdict_res, crc_verdict_with. rewrite Hs. repeat split. discriminate. Qed.

Lemma verdict_res_crc bs tm f h fl g q : header_stage_m bs tm = None -> (hdr_size bs + data_size bs <= length bs)%nat ->
  let c := crc_a (skipn (data_size bs) (skipn (hdr_size bs) bs)) tm
                 (crc_write (checksum (firstn (hdr_size bs) bs)) (firstn (data_size bs) (skipn (hdr_size bs) bs))) f in
  verdict_res bs tm (mk_ares (fst (fst c)) h fl (hdr_size bs + data_size bs + snd c) g q true).
Proof.
  intros Hs Hk. unfold verdict_res, crc_verdict_with. rewrite Hs.
  replace (Nat.ltb (length bs) (hdr_size bs + data_size bs)) with false by (symmetry; apply Nat.ltb_ge; lia).
  unfold crc_a, rf_err. rewrite !skipn_length.
  destruct (Nat.leb_spec 2 (length bs - hdr_size bs - data_size bs)) as [L|L]; cbn [fst snd ar_err ar_exact ar_used].
  - replace (Nat.ltb (length bs) (frame_len bs)) with false by (symmetry; apply Nat.ltb_ge; unfold frame_len; lia).
    replace (crc_write (crc_write _ _) _) with (checksum (firstn (frame_len bs) bs)).
    2:{ unfold crc_write, checksum, frame_len. rewrite <- !update_app, !firstn_plus, <- app_assoc, skipn_skipn_add. reflexivity. }
    unfold crc_sum16. destruct (checksum (firstn (frame_len bs) bs) =? 0); (split; [reflexivity|split; [reflexivity|intros _; reflexivity]]).
  - replace (Nat.ltb (length bs) (frame_len bs)) with true by (symmetry; apply Nat.ltb_lt; unfold frame_len; lia).
    split; [reflexivity|split; [reflexivity|discriminate]].
Qed.

(* CheckIntegrity checksums the data bytes without looking at them *)
Lemma decode_a_crc_only o g bs tm : exists a, decode_a o MCrcOnly g bs tm = TDone a /\ verdict_res bs tm a.
Proof.
  pose proof (decode_a_header o MCrcOnly g bs tm) as H. destruct (header_stage_m bs tm) as [e|] eqn:Ehs.
  - destruct H as (h & used & ->). eexists. split; [reflexivity|]. now apply verdict_res_header.
  - destruct H as [-> Hle]. unfold body_a, cp_err.
    change (N.to_nat (h_dsize (parse_header bs))) with (data_size bs). rewrite skipn_length.
    destruct (Nat.leb_spec (data_size bs) (length bs - hdr_size bs)) as [L|L]; (eexists; split; [reflexivity|]).
    + exact (verdict_res_crc bs tm _ _ _ _ _ Ehs ltac:(lia)).
    + unfold verdict_res, crc_verdict_with. rewrite Ehs.
      replace (Nat.ltb (length bs) (hdr_size bs + data_size bs)) with true by (symmetry; apply Nat.ltb_lt; lia).
      split; [reflexivity|split; [reflexivity|discriminate]].
Qed.

(* acceptance is a matter of the frame alone: whatever follows it, and however the reader ends *)
Lemma verdict_none_app bs tm tl tm' : crc_verdict_m bs tm = None -> crc_verdict_m (bs ++ tl) tm' = None.
Proof.
  intros Hv. destruct (decode_a_crc_only no_opts Components.g_init bs tm) as (a & Ea & Hr & _). rewrite Hv in Hr.
  destruct (decode_a_need _ _ _ _ _ _ Ea Hr) as (need & L & _ & _ & Hext).
  destruct (decode_a_crc_only no_opts Components.g_init (bs ++ tl) tm') as (a' & Ea' & Hr' & _).
  rewrite (Hext (bs ++ tl) tm' (firstn_app_le _ _ _ L)) in Ea' by (rewrite app_length; lia). injection Ea' as <-. congruence.
Qed.

(* Decode parses them; the other errors are those of record parsing and of the buffered reads *)
Lemma decode_a_full o g bs tm a : decode_a o MFull g bs tm = TDone a ->
  verdict_res bs tm a \/ (exists e, ar_err a = Some e /\ is_integrity e = false).
Proof.
  pose proof (decode_a_header o MFull g bs tm) as H. destruct (header_stage_m bs tm) as [e|] eqn:Ehs.
  - destruct H as (h & used & ->). intros [= <-]. left. now apply verdict_res_header.
  - destruct H as [-> Hle]. unfold body_a, buffered_a.
    change (N.to_nat (h_dsize (parse_header bs))) with (data_size bs).
    pose proof (run_a_leaves not_integrity _ (lv_data_prog o false (S (data_size bs)))) as Hlv.
    pose proof (run_a_prefix (data_prog o false (S (data_size bs))) (skipn (hdr_size bs) bs) tm 0 (data_size bs)
                  (init_dstate (new_file (parse_header bs)) g)) as HP.
    destruct (run_a _ _ _) as [x a' s|e a' s|e a' s|w|] eqn:Erun; try discriminate.
    + (* the records were read to the end of the data: a' stands behind them *)
      destruct (Nat.eqb_spec (a_n a') (a_limit a')) as [En|]; [cbn [negb]|discriminate].
      pose proof (po_len _ _ _ _ _ HP) as Plen. pose proof (po_rest _ _ _ _ _ HP) as Prest.
      pose proof (po_limit _ _ _ _ _ HP) as Plim. rewrite Plim in En. rewrite En, Nat.sub_0_r, skipn_length in *. rewrite Prest.
      intros [= <-]. left. exact (verdict_res_crc bs tm _ _ _ _ _ Ehs ltac:(lia)).
    + intros [= <-]. right. exists e. split; [reflexivity|]. exact (Hlv _ _ _ _ _ Erun).
    + intros [= <-]. right. exists (EIO e). split; reflexivity.
Qed.

Theorem decode_header_verdict fuel rd : (measure rd < fuel)%nat ->
  exists h crc rd', decode_header fuel rd = Done (header_stage_m (rd_data rd) (rd_term rd), h, crc, rd').
Proof.
  intros Hm. pose proof (decode_header_spec fuel rd) as H.
  destruct (decode_header fuel rd) as [[[[e h] crc] rd1]|]; [|contradiction].
  destruct (hdr_a_stage (rd_data rd) (rd_term rd)) as (h' & crc' & used & Eh & _). rewrite Eh in H. destruct H as [[= -> -> ->] _].
  eauto.
Qed.

(* every entry point starts with the header stage and returns its error unchanged *)
Theorem header_error_all_modes o md g fuel rd e : (measure rd < fuel)%nat ->
  header_stage_m (rd_data rd) (rd_term rd) = Some e ->
  exists r, decode o md g rd fuel = TDone r /\ dr_err r = Some e.
Proof.
  intros Hm He. pose proof (decode_a_header o md g (rd_data rd) (rd_term rd)) as H. rewrite He in H.
  destruct H as (h & used & Ea). destruct (decode_of_a o md g rd fuel _ Hm Ea) as (r & Er & M).
  exists r. split; [exact Er|exact (mt_err _ _ _ M)].
Qed.

(* DecodeHeader / CheckIntegrity(r, true) accept exactly when the header stage does *)
Theorem header_only_spec o g fuel rd : (measure rd < fuel)%nat ->
  exists r, decode o MHeaderOnly g rd fuel = TDone r /\ dr_err r = header_stage_m (rd_data rd) (rd_term rd) /\
            (dr_err r = None -> dr_hdr r = parse_header (rd_data rd)).
Proof.
  intros Hm. pose proof (decode_a_header o MHeaderOnly g (rd_data rd) (rd_term rd)) as H.
  destruct (header_stage_m (rd_data rd) (rd_term rd)) as [e|].
  - destruct H as (h & used & Ea). destruct (decode_of_a _ _ _ _ _ _ Hm Ea) as (r & Er & M). pose proof (mt_err _ _ _ M) as M1.
    exists r. split; [exact Er|]. split; [exact M1|]. rewrite M1. discriminate.
  - destruct H as [Ea _]. destruct (decode_of_a _ _ _ _ _ _ Hm Ea) as (r & Er & M).
    exists r. split; [exact Er|]. split; [exact (mt_err _ _ _ M)|]. intros _. exact (mt_hdr _ _ _ M).
Qed.

Theorem check_integrity_spec o g fuel rd : (measure rd < fuel)%nat ->
  exists r, decode o MCrcOnly g rd fuel = TDone r /\
    dr_err r = crc_verdict_m (rd_data rd) (rd_term rd) /\
    (dr_err r = None -> rd_pos (dr_rd r) = (rd_pos rd + frame_len (rd_data rd))%nat).
Proof.
  intros Hm. destruct (decode_a_crc_only o g (rd_data rd) (rd_term rd)) as (a & Ea & Hv).
  destruct (decode_of_a o MCrcOnly g rd fuel a Hm Ea) as (r & Er & M).
  exists r. split; [exact Er|exact (verdict_res_decode rd r a M Hv)].
Qed.

Theorem decode_full_spec o g fuel rd r : decode o MFull g rd fuel = TDone r ->
  (dr_err r = crc_verdict_m (rd_data rd) (rd_term rd) /\
   (dr_err r = None -> rd_pos (dr_rd r) = (rd_pos rd + frame_len (rd_data rd))%nat)) \/
  (exists e, dr_err r = Some e /\ is_integrity e = false).
Proof.
  intros Hd. destruct (decode_done_a o MFull g rd fuel r Hd) as (a & Ea & M).
  destruct (decode_a_full o g _ _ a Ea) as [Hv|(e & He & Hi)].
  - left. exact (verdict_res_decode rd r a M Hv).
  - right. exists e. split; [rewrite (mt_err _ _ _ M); exact He|exact Hi].
Qed.

Corollary accepted_verdict o g fuel rd r md : (md = MFull \/ md = MCrcOnly) -> (measure rd < fuel)%nat ->
  decode o md g rd fuel = TDone r -> dr_err r = None ->
  crc_verdict_m (rd_data rd) (rd_term rd) = None /\ rd_pos (dr_rd r) = (rd_pos rd + frame_len (rd_data rd))%nat.
Proof.
  intros [->| ->] Hm H He.
  - destruct (decode_full_spec o g fuel rd r H) as [[Hv Hp]|(e & He' & _)]; [|congruence]. rewrite <- Hv. auto.
  - destruct (check_integrity_spec o g fuel rd Hm) as (r' & E & Hr & Hp). rewrite H in E. inversion E; subst r'.
    rewrite <- Hr. auto.
Qed.
