(* The record list Encode lays out for a File, as executable definitions (no proofs; imports Model, Spec and
   Gen only, so that extraction does not depend on any proof file): the definition writeDefMesg writes for a
   profile entry, the bytes writeMesg writes for a field, and the records of a message, a slot, a File.
   Lemmas about them: Proofs/C05Grammar.v, Proofs/C06Defs.v, Proofs/C06Lay.v. *)
From Coq Require Import NArith ZArith List Bool String.
From FitV Require Import Model.Values Model.Bytes Model.Base Model.Profile Model.Components Model.Route Model.Encode
  Spec.FitSyntax.
Import ListNotations.
Local Open Scope N_scope.

(* the size byte writeDefMesg writes for a profile entry *)
Definition fsize (pf : pfield) : N :=
  let bt := fit_base (pf_t pf) in
  match b_size bt with
  | Some bs => if bt =? base_string then pf_length pf
               else if fit_array (pf_t pf) then (bs mod 256 * pf_length pf) mod 256 else bs mod 256
  | None => 0
  end.


(* the bytes writeMesg writes for one field of the definition *)
Definition field_out (be : bool) (m : msg) (pf : pfield) : eres (list N) :=
  match nth_error (m_fields m) (pf_sindex pf), field_type (m_num m) (pf_sindex pf) with
  | Some v, Some ty => write_field be pf ty v
  | _, _ => EPanic 2
  end.


Definition sfdef_of (pf : pfield) : sfdef := mk_sfdef (pf_num pf) (fsize pf) (fit_base (pf_t pf)).


Definition rdef_of (be : bool) (gmn : N) (fields : list pfield) : record := RDef 0 be gmn (map sfdef_of fields) false [].
Definition rdata_of (parts : list (list N)) : record := RData 0 (List.concat parts) [].


Definition out_of (be : bool) (m : msg) (pf : pfield) : list N := match field_out be m pf with EOk p => p | _ => [] end.
Definition parts_of (be : bool) (m : msg) (fields : list pfield) : list (list N) := map (out_of be m) fields.

Definition unit_recs (be : bool) (m : msg) : list record :=
  match get_encode_mesg_def m with
  | EOk fs => [rdef_of be (m_num m) fs; rdata_of (parts_of be m fs)]
  | _ => []
  end.
Definition slice_recs (be : bool) (ms : list msg) : list record :=
  match ms with
  | [] => []
  | _ => match collect_fields ms [] with
         | EOk fs => rdef_of be (m_num (last ms (mk_msg 0 []))) fs :: map (fun m => rdata_of (parts_of be m fs)) ms
         | _ => []
         end
  end.
Definition slot_recs (be : bool) (multi : bool) (ms : list msg) : list record :=
  if multi then slice_recs be ms else flat_map (unit_recs be) ms.
Fixpoint slots_recs (be : bool) (i : nat) (descs : list (string * bool * N)) (slots : list (list msg)) : list record :=
  match descs, slots with
  | (_, multi, _) :: dr, s :: sr =>
      (if Nat.eqb i 3 || Nat.eqb i 4 then [] else slot_recs be multi s) ++ slots_recs be (S i) dr sr
  | _, _ => []
  end.
(* the records of a File: FileId, FileCreator, TimestampCorrelation, then the container's fields *)
Definition file_recs (f : file) (be : bool) : list record :=
  match ft_entry (file_type f) with
  | Some (true, _, descs) => slots_recs be 0 descs (f_slots f)
  | _ => []
  end.

