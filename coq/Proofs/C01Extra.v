(* C01: the remaining named ingredients.
   - the string-array scanner of parseFitFieldArray (a for {} loop in Go)
     terminates: its model fuel S dsize is never the reason it stops;
   - Go index/slice bounds that the model does not represent as Panic
     outcomes, as facts about the generated constants: the local message type
     is inside the 16 slots, every slice of the scratch buffer is inside it;
   - the latent hole of the validator (float32 profile scalar + sint32
     definition) and why it is unreachable with the compiled profile;
   - a concrete file and reader ([ex_body], [ex_stream], [ex_reader]) on which
     Props/C01.v checks the hypotheses of decode_total and evaluates Decode. *)
From Coq Require Import NArith ZArith List Bool Arith Lia.
From FitV Require Import Proofs.Util Model.Values Model.Bytes Model.Base Model.Profile Model.Reflect Model.Crc Model.IO
  Model.Components Model.Route Model.Decode
  Spec.ProfileWf Proofs.ProfileProofs Proofs.DecodeLemmas Proofs.C01Cells Gen.Consts.
Import ListNotations.
Local Open Scope N_scope.

Lemma scan_strings_fuel buf dsize : forall f1 f2 j k acc,
  (dsize - (j + k) <= f1)%nat -> (dsize - (j + k) <= f2)%nat -> (j + k < dsize)%nat ->
  scan_strings f1 buf dsize j k acc = scan_strings f2 buf dsize j k acc.
Proof.
  induction f1 as [|f1 IH]; intros f2 j k acc H1 H2 Hlt; [lia|].
  destruct f2 as [|f2]; [lia|]. cbn [scan_strings].
  destruct (b_at buf (j + k) =? 0).
  - destruct (Nat.eqb k 0); [reflexivity|].
    destruct (Nat.leb_spec dsize (j + k + 1)) as [L|G]; [reflexivity|].
    apply IH; lia.
  - destruct (Nat.leb_spec dsize (j + S k)) as [L|G]; [reflexivity|].
    apply IH; lia.
Qed.

Theorem string_scanner_terminates : forall buf dsize extra, (0 < dsize)%nat ->
  scan_strings (S dsize + extra) buf dsize 0 0 [] = scan_strings (S dsize) buf dsize 0 0 [].
Proof. intros buf dsize extra H. apply scan_strings_fuel; lia. Qed.

(* d.defmsgs[localMsgType] (16 slots): normal headers address 0-15, compressed headers 0-3 *)
Theorem slots_in_bounds : forall b, b < 256 ->
  N.land b c_localMesgNumMask < c_maxLocalMesgs /\
  N.shiftr (N.land b c_compressedLocalMesgNumMask) 5 < 4 /\ 4 <= c_maxLocalMesgs.
Proof.
  intros b Hb. split; [apply normal_local_lt|]. split; [apply (compressed_local_2bits b Hb)|].
  unfold c_maxLocalMesgs. lia.
Qed.

(* d.tmp (765 bytes): the 3*fields bytes of a definition, a field of any size,
   the widened time/coordinate value *)
Theorem tmp_in_bounds : forall nf size, nf < 256 -> size < 256 ->
  3 * nf <= c_tmpLen /\ size <= c_tmpLen /\ 4 <= c_tmpLen /\ c_bytesForCRC <= c_tmpLen.
Proof. intros nf size H1 H2. unfold c_tmpLen, c_bytesForCRC. lia. Qed.

(* a float32 profile scalar with a sint32 definition of size 4: the validator
   accepts, and parseFitField then calls SetInt on a float field: panic.
   About the validator and parser as functions of the descriptor; the compiled
   profile has no such field (no_float_fields), so the main theorem is not
   affected. *)
Theorem validate_float_hole_refuted : exists pd bt size ty,
  pd = (false, base_float32) /\ ty = TF 32 /\
  validate_cell (Some pd) bt size = VOk /\
  forall be num buf, parse_fit_field be (mk_fdef num size bt) buf ty = FPanic 3 \/
                     parse_fit_field be (mk_fdef num size bt) buf ty = FPanic 5.
Proof.
  exists (false, base_float32), base_sint32, 4, (TF 32).
  split; [reflexivity|]. split; [reflexivity|]. split; [vm_compute; reflexivity|].
  intros be num buf. unfold parse_fit_field. cbn [fd_btype].
  change (is_u8like base_sint32) with false. cbv iota.
  change (base_sint32 =? base_sint8) with false. change (base_sint32 =? base_sint16) with false.
  change ((base_sint32 =? base_uint16) || (base_sint32 =? base_uint16z)) with false.
  change (base_sint32 =? base_sint32) with true. cbv iota.
  destruct (Nat.ltb (List.length buf) 4); [right|left]; reflexivity.
Qed.

(* the profile checker admits no float32 descriptor, so none of the descriptors in the hole *)
Theorem float_hole_excluded : forall k arr, desc_valid k arr base_float32 = false.
Proof.
  intros k arr. unfold desc_valid.
  replace (base_storable base_float32) with false by (vm_compute; reflexivity).
  now rewrite andb_false_r.
Qed.

(* non-vacuity: a valid activity file: file_id (type 4), a record definition (timestamp uint32, heart_rate uint8) and one record;
   12-byte header, file CRC computed by the model's CRC *)
Definition ex_body : list N :=
  [12; 32; 0x47; 8; 29; 0; 0; 0; 46; 70; 73; 84;
   0x40; 0; 0; 0; 0; 1; 0; 1; 0;   0; 4;
   0x41; 0; 1; 0; 20; 2; 253; 4; 0x86; 3; 1; 2;   1; 0; 0; 0; 0x40; 150].
Definition ex_stream : list N :=
  let c := crc_sum16 (crc_write crc_new ex_body) in ex_body ++ [c mod 256; c / 256].
(* small reads with an empty read in between, EOF delivered with the last byte *)
Definition ex_reader : reader := mk_reader ex_stream [1; 0; 1; 3; 1; 1; 2; 1; 1; 1; 7; 1]%nat TEOF true 0.
