(* C05: the record section Encode writes parses under the FIT grammar
   (Spec/Grammar.v): every data record is preceded by the definition of its
   local type, the field sizes of the definition add up to the record length and
   are multiples of their base-type size.
   The encoder is walked once, from writeDefMesg/writeMesg up to encode_slots (encode_slots_lay_recs): its
   bytes are the serialisation of the record list slots_recs of Spec/EncLayout.v, laid out as [lay]
   (C06Defs.v) says.  The recogniser is then run over any laid-out list (lay_steps), one definition step and
   one data step; C06 reads the same list with the reference semantics (C06Denote.lay_denote). *)
From Coq Require Import NArith ZArith List Bool Lia String.
From Coq Require Import ZifyN ZifyNat ZifyBool.
From FitV Require Proofs.ProfileProofs.
From FitV Require Import Model.Values Model.Bytes Model.Base Model.Profile Model.Crc Model.Header
  Model.Components Model.Route Model.Encode Spec.CrcSpec Spec.FitSyntax Spec.Grammar Spec.RoundTrip
  Proofs.Util Proofs.CrcProofs Proofs.EncodeProofs Proofs.C06Defs Gen.Consts Gen.ProfileData Gen.RoutingData.
(* fsize, field_out and the record layout functions are executable definitions of Spec/EncLayout.v *)
From FitV Require Export Spec.EncLayout Proofs.EncodeLay.
Import ListNotations.
Local Open Scope N_scope.
Ltac Zify.zify_post_hook ::= Z.div_mod_to_equations.

(* bytes binary.Write emits for one value of a scalar Go type *)
Definition scalar_size (ty : gotype) : option N :=
  match ty with
  | TU b | TI b | TF b => Some (b / 8)
  | TLat | TLng => Some 4
  | _ => None
  end.
Definition opt_eq (a : option N) (b : N) : bool := match a with Some x => x =? b | None => false end.

(* per profile entry: its three definition bytes are bytes and pass the grammar's
   field check; the Go type of the struct field has the width of the base type
   (arrays: element type and the type of the invalid value; no byte overflow of
   size * length); time and coordinate kinds are 4 bytes wide *)
Definition entry_ok (gmn : N) (pf : pfield) : bool :=
  let t := pf_t pf in let bt := fit_base t in
  match b_size bt with
  | None => false
  | Some bs =>
    (pf_num pf <? 256) && (pf_length pf <? 256) && field_def_ok (pf_num pf, fsize pf, bt) &&
    match field_type gmn (pf_sindex pf) with
    | None => true
    | Some ty =>
      (if fit_array t then
         (fit_kind t =? kind_native) &&
         ((bt =? base_string) ||
          ((fsize pf =? bs * pf_length pf) && opt_eq (scalar_size (elem_type ty)) bs &&
           match invalid_type bt with Some ity => opt_eq (scalar_size ity) bs | None => true end))
       else if fit_kind t =? kind_native then
         (bt =? base_string) || (opt_eq (scalar_size ty) bs && (fsize pf =? bs))
       else fsize pf =? 4)
    end
  end.

(* per message: 16-bit number, fewer than 256 entries, entries keyed by their
   field number, every struct index owned by an entry (getFieldBySindex never
   falls through to fields[255]) and distinct struct indices owned by distinct
   field numbers *)
Definition msg_ok (m : msgdesc) : bool :=
  (md_num m <? 65536) && (N.of_nat (List.length (md_entries m)) <? 256) && (N.of_nat (List.length (md_invalid m)) <? 256) &&
  forallb (fun e => fst e =? pf_num (snd e)) (md_entries m) &&
  forallb (fun e => entry_ok (md_num m) (snd e)) (md_entries m) &&
  forallb (fun i => match find (fun e => Nat.eqb (pf_sindex (snd e)) i) (md_entries m) with Some _ => true | None => false end)
          (seq 0 (List.length (md_layout m))) &&
  nodup_n (map (fun i => match get_field_by_sindex (md_num m) i with Some pf => pf_num pf | None => 999 end)
               (seq 0 (List.length (md_layout m)))).

Lemma profile_msgs_ok : forallb msg_ok messages = true.
Proof. vm_compute. reflexivity. Qed.

Lemma find_msg_num gmn m : find_msg gmn = Some m -> md_num m = gmn.
Proof. exact (fun H => proj2 (ProfileProofs.find_msg_in gmn m H)). Qed.

(* msg_ok, clause by clause; the last one is about EncodeLay.num_at, whose body msg_ok spells out *)
Record msg_facts (m : msgdesc) : Prop := {
  mo_num : md_num m < 65536;
  mo_entries : N.of_nat (List.length (md_entries m)) < 256;
  mo_keyed : forall e, In e (md_entries m) -> fst e = pf_num (snd e);
  mo_entry : forall e, In e (md_entries m) -> entry_ok (md_num m) (snd e) = true;
  mo_owned : forall i, (i < List.length (md_layout m))%nat ->
    exists e, find (fun e => Nat.eqb (pf_sindex (snd e)) i) (md_entries m) = Some e;
  mo_distinct : NoDup (map (num_at (md_num m)) (seq 0 (List.length (md_layout m)))) }.

Lemma msg_ok_parts m : msg_ok m = true -> msg_facts m.
Proof.
  unfold msg_ok. rewrite !andb_true_iff, !N.ltb_lt, !forallb_forall. intros [[[[[[H1 H2] _] H4] H5] H6] H7].
  split; try assumption.
  - intros e He. now apply N.eqb_eq, H4.
  - intros i Hi. specialize (H6 i). destruct (find _ (md_entries m)) as [e|]; [now exists e|].
    discriminate H6. apply in_seq. lia.
  - exact (nodupb_NoDup N.eqb N.eqb_refl _ H7).
Qed.

Lemma find_msg_ok gmn m : find_msg gmn = Some m -> msg_facts m.
Proof. intros H. exact (msg_ok_parts m (ProfileProofs.find_msg_checked msg_ok gmn m profile_msgs_ok H)). Qed.

Lemma from_profile_entry_ok gmn pf : from_profile gmn pf -> entry_ok gmn pf = true.
Proof.
  intros (i & Hi). apply by_sindex_in in Hi as (m & e & Hm & He & <- & Hf).
  rewrite <- (find_msg_num _ _ Hf). exact (mo_entry _ (find_msg_ok _ _ Hf) e He).
Qed.

(* writeField on an array field: the first min(profile length, byte(len)) elements, then the base type's
   invalid value up to the profile length *)
Lemma write_field_array be pf ty v p :
  fit_array (pf_t pf) = true -> write_field be pf ty v = EOk p ->
  (fit_base (pf_t pf) =? base_string) = false /\
  exists l elems pads,
    (match v with VList l => Some l | VNil => Some [] | _ => None end) = Some l /\
    let len8 := N.of_nat (List.length l) mod 256 in
    let mx := if pf_length pf <? len8 then pf_length pf else len8 in
    Forall2 (fun x q => encode_value be pf (elem_type ty) x = EOk q) (firstn (N.to_nat mx) l) elems /\
    Forall (fun q => exists iv ity, b_invalid (fit_base (pf_t pf)) = Some iv /\ invalid_type (fit_base (pf_t pf)) = Some ity /\
                       encode_value be pf ity iv = EOk q) pads /\
    List.length pads = N.to_nat (pf_length pf - mx) /\ p = List.concat (elems ++ pads).
Proof.
  intros Ha H. unfold write_field in H. rewrite Ha in H. cbn [negb] in H.
  destruct (fit_base (pf_t pf) =? base_string); [discriminate|]. split; [reflexivity|].
  destruct (b_known _) as [kn|]; [|discriminate].
  destruct (match v with VList l => Some l | VNil => Some [] | _ => None end) as [l|]; [|discriminate].
  exists l. cbv zeta in H |- *. apply econcat_parts in H as (parts & HF & ->).
  apply Forall2_app_inv_l in HF as (elems & pads & HF1 & HF2 & ->). apply Forall2_map_left in HF1.
  exists elems, pads. split; [reflexivity|]. split; [exact HF1|].
  destruct (N.to_nat (pf_length pf - _)) as [|k].
  - inversion HF2. repeat split; constructor.
  - destruct (negb kn); [inversion HF2; discriminate|].
    destruct (b_invalid _) as [iv|]; [|inversion HF2; discriminate].
    destruct (invalid_type _) as [ity|]; [|inversion HF2; discriminate].
    apply Forall2_repeat_left in HF2 as [HA HL]. repeat split; [|exact HL].
    eapply Forall_impl; [|exact HA]. intros q Hq. eauto.
Qed.

Lemma bw_len be ty v p s : scalar_size ty = Some s -> bw be ty v = EOk p -> N.of_nat (List.length p) = s.
Proof.
  intros Hs H. destruct ty; cbn [scalar_size] in Hs; inversion Hs; subst; clear Hs;
    destruct v; cbn [bw] in H; try discriminate; inversion H; subst; rewrite put_int_length; unfold nbytes;
    try apply N2Nat.id; reflexivity.
Qed.

Lemma encode_value_native be pf ty v : (fit_kind (pf_t pf) =? kind_native) = true ->
  encode_value be pf ty v =
  if fit_base (pf_t pf) =? base_string then match v with VStr s => encode_string s (pf_length pf) | _ => EErr EENotString end
  else bw be ty v.
Proof. intros Hk. apply N.eqb_eq in Hk. unfold encode_value. rewrite Hk. reflexivity. Qed.

Lemma encode_string_len s size p : encode_string s size = EOk p -> List.length p = N.to_nat size.
Proof.
  unfold encode_string. destruct (size =? 0) eqn:E0; [discriminate|]. destruct (utf8_valid _); [|discriminate].
  intros H. inversion H; subst. rewrite app_length, firstn_length, repeat_length. apply N.eqb_neq in E0. lia.
Qed.

Lemma encode_value_4 be pf ty v p : (fit_kind (pf_t pf) =? kind_native) = false ->
  encode_value be pf ty v = EOk p -> List.length p = 4%nat.
Proof.
  intros Hk H. unfold encode_value in H. rewrite Hk in H.
  repeat match type of H with
         | (if ?c then _ else _) = _ => destruct c
         | match ?v with _ => _ end = _ => destruct v
         end; try discriminate; inversion H; subst; apply put_int_length.
Qed.

(* the sizes of the base-type table fit the size byte of a definition *)
Lemma b_size_lt bt bs : b_size bt = Some bs -> bs < 256.
Proof.
  unfold b_size, tbl. intros E.
  assert (T : forallb (fun o => match o with Some s => s <? 256 | None => true end) Gen.BaseTables.base_size = true) by (vm_compute; reflexivity).
  rewrite forallb_forall in T.
  destruct (nth_in_or_default (N.to_nat bt) Gen.BaseTables.base_size None) as [Hin|Hd]; [|rewrite Hd in E; discriminate].
  apply T in Hin. rewrite E in Hin. now apply N.ltb_lt.
Qed.

Lemma native_elem_len be pf ty x q bs : (fit_kind (pf_t pf) =? kind_native) = true ->
  (fit_base (pf_t pf) =? base_string) = false -> opt_eq (scalar_size ty) bs = true ->
  encode_value be pf ty x = EOk q -> List.length q = N.to_nat bs.
Proof.
  intros Hk Es Hs Hq. rewrite (encode_value_native _ _ _ _ Hk), Es in Hq.
  destruct (scalar_size ty) as [s|] eqn:Ess; [|discriminate]. apply N.eqb_eq in Hs. subst s.
  apply (bw_len _ _ _ _ _ Ess) in Hq. lia.
Qed.

(* entry_ok, clause by clause.  [sized pf bs ty]: what it says of the sizes where the struct field has the Go type ty *)
Definition sized (pf : pfield) (bs : N) (ty : gotype) : Prop :=
  if fit_array (pf_t pf) then
    (fit_kind (pf_t pf) =? kind_native) = true /\
    ((fit_base (pf_t pf) =? base_string) = false ->
     fsize pf = bs * pf_length pf /\ opt_eq (scalar_size (elem_type ty)) bs = true /\
     forall ity, invalid_type (fit_base (pf_t pf)) = Some ity -> opt_eq (scalar_size ity) bs = true)
  else if fit_kind (pf_t pf) =? kind_native then
    (fit_base (pf_t pf) =? base_string) = false -> opt_eq (scalar_size ty) bs = true /\ fsize pf = bs
  else fsize pf = 4.

Record entry_sizes (gmn : N) (pf : pfield) (bs : N) : Prop := {
  eo_size : b_size (fit_base (pf_t pf)) = Some bs;
  eo_def : field_def_ok (pf_num pf, fsize pf, fit_base (pf_t pf)) = true;
  eo_sized : forall ty, field_type gmn (pf_sindex pf) = Some ty -> sized pf bs ty }.

Lemma entry_ok_parts gmn pf : entry_ok gmn pf = true -> exists bs, entry_sizes gmn pf bs.
Proof.
  unfold entry_ok. cbv zeta. destruct (b_size (fit_base (pf_t pf))) as [bs|] eqn:Ebs; [|discriminate].
  rewrite !andb_true_iff. intros [[_ H3] H4]. exists bs. split; try assumption.
  intros ty Hty. rewrite Hty in H4. unfold sized. destruct (fit_array (pf_t pf)).
  - apply andb_true_iff in H4 as [Hk H4]. split; [exact Hk|]. intros Es. rewrite Es in H4. cbn [orb] in H4.
    rewrite !andb_true_iff, N.eqb_eq in H4. destruct H4 as [[Hfs Hel] Hinv]. repeat split; try assumption.
    intros ity Eity. now rewrite Eity in Hinv.
  - destruct (fit_kind (pf_t pf) =? kind_native); [|now apply N.eqb_eq].
    intros Es. rewrite Es in H4. cbn [orb] in H4. apply andb_true_iff in H4 as [Hs Hf]. now apply N.eqb_eq in Hf.
Qed.

Lemma write_field_len be gmn pf ty v p :
  entry_ok gmn pf = true -> field_type gmn (pf_sindex pf) = Some ty ->
  write_field be pf ty v = EOk p -> N.of_nat (List.length p) = fsize pf.
Proof.
  intros (bs & Hok)%entry_ok_parts Hty H. pose proof (eo_size _ _ _ Hok) as Ebs.
  pose proof (eo_sized _ _ _ Hok ty Hty) as Hk. unfold sized in Hk.
  destruct (fit_array (pf_t pf)) eqn:Ea.
  - destruct (write_field_array _ _ _ _ _ Ea H) as (Es & l & elems & pads & _ & HF1 & HF2 & Hpl & ->). cbv zeta in HF1, Hpl.
    destruct Hk as [Hk Hr]. destruct (Hr Es) as (Hfs & Hel & Hinv).
    rewrite (concat_length_eq (N.to_nat bs)).
    + rewrite app_length, Hpl, (Forall2_length' _ _ _ HF1), firstn_length, Hfs, Nat2N.inj_mul, N2Nat.id, N.mul_comm. f_equal.
      destruct (pf_length pf <? N.of_nat (List.length l) mod 256) eqn:E; [apply N.ltb_lt in E|apply N.ltb_ge in E]; cbv iota; lia.
    + apply Forall_app. split.
      * clear - HF1 Hk Es Hel. induction HF1; constructor; [eapply native_elem_len; eassumption|assumption].
      * eapply Forall_impl; [|exact HF2]. intros q (iv & ity & _ & Eity & Hq).
        exact (native_elem_len _ _ _ _ _ _ Hk Es (Hinv _ Eity) Hq).
  - unfold write_field in H. rewrite Ea in H. cbn [negb] in H.
    destruct (fit_kind (pf_t pf) =? kind_native) eqn:Ekn.
    + destruct (fit_base (pf_t pf) =? base_string) eqn:Es.
      * rewrite (encode_value_native _ _ _ _ Ekn), Es in H. destruct v; try discriminate.
        apply encode_string_len in H. rewrite H, N2Nat.id. unfold fsize. now rewrite Ebs, Es.
      * destruct (Hk eq_refl) as [Hs Hf]. rewrite Hf, (native_elem_len _ _ _ _ _ _ Ekn Es Hs H). apply N2Nat.id.
    + rewrite Hk. apply (encode_value_4 _ _ _ _ _ Ekn) in H. now rewrite H.
Qed.

(* [bytes] is a sequence of complete records: from definitions [defs] the
   recogniser consumes it, ends with definitions [defs'] and emits [out] *)
Definition steps (defs : list (N * gdef)) (bytes : list N) (defs' : list (N * gdef)) (out : list grec) : Prop :=
  exists k, (k <= List.length bytes)%nat /\
    forall fuel tl acc, records (k + fuel) defs (bytes ++ tl) acc = records fuel defs' tl (rev out ++ acc).

Lemma steps_nil defs : steps defs [] defs [].
Proof. exists 0%nat. split; [apply Nat.le_refl|]. intros. reflexivity. Qed.

Lemma steps_app d0 b1 d1 o1 b2 d2 o2 :
  steps d0 b1 d1 o1 -> steps d1 b2 d2 o2 -> steps d0 (b1 ++ b2) d2 (o1 ++ o2).
Proof.
  intros (k1 & L1 & H1) (k2 & L2 & H2). exists (k1 + k2)%nat. split; [rewrite app_length; lia|].
  intros fuel tl acc. rewrite <- app_assoc, <- Nat.add_assoc, H1, H2, rev_app_distr, <- app_assoc. reflexivity.
Qed.

Lemma steps_def defs body d :
  (forall tl, parse_definition 64 (body ++ tl) = Some (d, tl)) -> steps defs (64 :: body) ((0, d) :: defs) [].
Proof.
  intros H. exists 1%nat. split; [cbn [List.length]; lia|]. intros fuel tl acc.
  (* header byte 64: a definition of local type 0 *)
  cbn -[parse_definition]. now rewrite H.
Qed.

Lemma steps_data defs d body r :
  lookup_def 0 defs = Some d -> (forall tl, parse_data d (body ++ tl) = Some (r, tl)) -> steps defs (0 :: body) defs [r].
Proof.
  intros Hl H. exists 1%nat. split; [cbn [List.length]; lia|]. intros fuel tl acc.
  (* header byte 0: a data record of local type 0 *)
  cbn -[lookup_def parse_data]. now rewrite Hl, H.
Qed.

Lemma records_run data defs' out fuel :
  steps [] data defs' out -> (List.length data < fuel)%nat -> records fuel [] data [] = Some out.
Proof.
  intros (k & Hk & H) Hf. replace fuel with (k + S (fuel - k - 1))%nat by lia.
  specialize (H (S (fuel - k - 1)) [] []). rewrite app_nil_r in H. rewrite H.
  cbn [records]. now rewrite app_nil_r, rev_involutive.
Qed.

Lemma take_app n (a b : list N) : List.length a = n -> take n (a ++ b) = Some (a, b).
Proof.
  intros <-. unfold take. rewrite app_length. replace (Nat.leb _ _) with true by (symmetry; apply Nat.leb_le; lia).
  now rewrite firstn_len_app, skipn_len_app.
Qed.

Lemma triples_fbytes : forall fields, triples (fbytes fields) = map ftriple fields.
Proof. exact (BytesUtil.chunk3_triples ftriple). Qed.

Lemma fbytes_length fields : List.length (fbytes fields) = (3 * List.length fields)%nat.
Proof. exact (BytesUtil.triples_length ftriple fields). Qed.

Lemma entry_ok_def_ok gmn pf : entry_ok gmn pf = true -> field_def_ok (ftriple pf) = true.
Proof. intros (bs & H)%entry_ok_parts. exact (eo_def _ _ _ H). Qed.

Definition grec_of (be : bool) (gmn : N) (fields : list pfield) (parts : list (list N)) : grec :=
  mk_grec gmn be (map (fun x => (pf_num (fst x), fit_base (pf_t (fst x)), snd x)) (combine fields parts)).

Lemma field_out_len be m pf p : from_profile (m_num m) pf -> field_out be m pf = EOk p -> N.of_nat (List.length p) = fsize pf.
Proof.
  unfold field_out. intros Hpf Hp. destruct (nth_error _ _); [|discriminate].
  destruct (field_type _ _) eqn:Ety; [|discriminate]. exact (write_field_len _ _ _ _ _ _ (from_profile_entry_ok _ _ Hpf) Ety Hp).
Qed.

Lemma payload_parts be m : forall fields parts,
  Forall (from_profile (m_num m)) fields -> Forall2 (fun pf p => field_out be m pf = EOk p) fields parts ->
  sum_sizes (map ftriple fields) = N.of_nat (List.length (List.concat parts)) /\
  split_fields (map ftriple fields) (List.concat parts) =
  map (fun x => (pf_num (fst x), fit_base (pf_t (fst x)), snd x)) (combine fields parts).
Proof.
  intros fields parts Hfp HF. induction HF as [|pf p fields parts Hp HF IH]; [split; reflexivity|].
  inversion Hfp as [|? ? Hpf Hr]; subst. destruct (IH Hr) as [IH1 IH2]. apply (field_out_len _ _ _ _ Hpf) in Hp.
  cbn [map List.concat combine]. unfold ftriple at 1 3. cbn [sum_sizes fold_right split_fields fst snd]. split.
  - fold (sum_sizes (map ftriple fields)). rewrite app_length, Nat2N.inj_add, IH1, Hp. reflexivity.
  - rewrite <- Hp, Nat2N.id, firstn_len_app, skipn_len_app, IH2. reflexivity.
Qed.

Lemma fields_short mn md fs : find_msg mn = Some md -> Forall (from_profile mn) fs -> NoDup (map pf_num fs) ->
  N.of_nat (List.length fs) < 256.
Proof.
  intros Ef Hf Hnd. pose proof (find_msg_ok _ _ Ef) as Hok.
  assert (Hincl : incl (map pf_num fs) (map fst (md_entries md))).
  { intros n Hn. apply in_map_iff in Hn as (pf & <- & Hin). rewrite Forall_forall in Hf.
    destruct (Hf pf Hin) as (i & Hi). apply by_sindex_in in Hi as (md' & e & _ & He & <- & Ef').
    rewrite Ef in Ef'. inversion Ef'; subst md'. rewrite <- (mo_keyed _ Hok e He). now apply in_map. }
  pose proof (NoDup_incl_length Hnd Hincl) as HL. pose proof (mo_entries _ Hok). rewrite !map_length in HL. lia.
Qed.

(* the record the recogniser returns for message m: its fields are profile
   entries of the message type, each with the bytes writeField wrote for it *)
Definition rec_of (be : bool) (m : msg) (r : grec) : Prop :=
  exists fields parts, Forall (from_profile (m_num m)) fields /\
    Forall2 (fun pf p => field_out be m pf = EOk p) fields parts /\ r = grec_of be (m_num m) fields parts.

Lemma msg_num_inj gmn md : find_msg gmn = Some md ->
  forall k k', (k < List.length (md_layout md))%nat -> (k' < List.length (md_layout md))%nat -> num_at gmn k = num_at gmn k' -> k = k'.
Proof.
  intros Ef k k' Hk Hk' E. pose proof (mo_distinct _ (find_msg_ok _ _ Ef)) as Hnd. rewrite (find_msg_num _ _ Ef) in Hnd.
  apply (NoDup_map_inj (num_at gmn) _ k k' Hnd); [apply in_seq; lia|apply in_seq; lia|exact E].
Qed.

Lemma get_def_menc_facts m own :
  get_encode_mesg_def m = EOk own -> List.length (m_fields m) = List.length (msg_layout (m_num m)) ->
  NoDup (map pf_num own) /\ covers m own.
Proof.
  unfold get_encode_mesg_def. destruct (mesg_all_invalid (m_num m)) as [inv|] eqn:Einv; [|discriminate].
  destruct (Nat.eqb _ _) eqn:El; [|discriminate]. cbn [negb]. apply Nat.eqb_eq in El. intros H Hlen. split.
  - destruct (ProfileProofs.mesg_all_invalid_some _ _ Einv) as (md & Ef & _).
    apply (def_fields_nodup _ _ (msg_num_inj _ _ Ef) _ _ _ _ H). rewrite Hlen. unfold msg_layout. rewrite Ef. apply Nat.le_refl.
  - exists inv. split; [exact Einv|]. split; [exact El|]. intros i v iv Hv Hiv.
    destruct (def_fields_cover _ _ _ _ _ H i v iv Hv Hiv) as [Hu|(pf & Hp & Hin)]; [now left|].
    right. exists pf. split; [exact Hp|now apply in_map].
Qed.

Lemma covers_num_lt m fields : covers m fields -> m_num m < 65536.
Proof.
  intros (inv & H & _). destruct (ProfileProofs.mesg_all_invalid_some _ _ H) as (md & Ef & _).
  rewrite <- (find_msg_num _ _ Ef). exact (mo_num _ (find_msg_ok _ _ Ef)).
Qed.

Lemma menc_small be m fields parts : menc be m fields parts -> m_num m < 65536 /\ N.of_nat (List.length fields) < 256.
Proof.
  intros (Hfp & Hnd & _ & Hcov). split; [exact (covers_num_lt _ _ Hcov)|].
  destruct Hcov as (inv & Hinv & _). destruct (ProfileProofs.mesg_all_invalid_some _ _ Hinv) as (md & Ef & _).
  exact (fields_short _ _ _ Ef Hfp Hnd).
Qed.

Lemma unit_laid be m bytes : encode_def_and_data be m = EOk bytes -> C18Defs.msg_shape m -> laid be [m] (unit_recs be m) bytes.
Proof.
  unfold encode_def_and_data, unit_recs. intros H Hlen.
  apply ebind_ok in H as (fs & Hfs & H). apply ebind_ok in H as (d & Hd & H). apply ebind_ok in H as (w & Hw & H).
  injection H as <-. rewrite Hfs. destruct (get_def_menc_facts _ _ Hfs Hlen) as [Hnd Hcov].
  destruct (write_mesg_menc be m fs w (get_def_from _ _ Hfs) Hnd Hcov Hw) as (Hm & ->).
  destruct (menc_small _ _ _ _ Hm) as [Hg Hn]. rewrite (write_def_ser _ _ _ _ Hd Hg Hn).
  split; [constructor; [exact Hm|constructor]|]. unfold ser_records. cbn [flat_map]. now rewrite app_nil_r.
Qed.

Lemma units_laid be : forall ms bytes, econcat (map (encode_def_and_data be) ms) = EOk bytes -> Forall C18Defs.msg_shape ms ->
  laid be ms (flat_map (unit_recs be) ms) bytes.
Proof.
  (* econcat is unfolded in the goal, before H is introduced, for the reason given at collect_fields_Forall *)
  induction ms as [|m ms IH]; intros bytes; cbn [map econcat]; intros H Hl.
  - injection H as <-. apply laid_nil.
  - apply ebind_ok in H as (a & Ha & H). apply ebind_ok in H as (b & Hb & H). injection H as <-.
    inversion Hl as [|? ? Hl1 Hl2]; subst. exact (laid_app be [m] _ a ms _ b (unit_laid _ _ _ Ha Hl1) (IH _ Hb Hl2)).
Qed.

(* the merged definition of a slice covers every element: it holds the field numbers of each element's own definition *)
Lemma slice_laid be mn ms bytes : Forall (fun m => m_num m = mn) ms -> Forall C18Defs.msg_shape ms ->
  encode_slice be ms = EOk bytes -> laid be ms (slice_recs be ms) bytes.
Proof.
  intros Hm Hl H. unfold encode_slice in H. unfold slice_recs. destruct ms as [|m0 mr]; [injection H as <-; apply laid_nil|].
  set (ms := m0 :: mr) in *. assert (Hne : ms <> []) by discriminate.
  apply ebind_ok in H as (fs & Hfs & H). apply ebind_ok in H as (d & Hd & H). apply ebind_ok in H as (b & Hb & H).
  injection H as <-. rewrite Hfs. rewrite (last_num mn _ _ Hne Hm) in Hd |- *.
  destruct (collect_fields_inv mn ms [] fs Hm (Forall_nil _) I Hfs) as [Hfp Hs].
  destruct (slice_datas be fs (ssorted_nodup _ Hs) ms b) as (HM & ->); [|exact Hb|].
  { intros m Hin. rewrite Forall_forall in Hm, Hl. rewrite (Hm m Hin). split; [exact Hfp|].
    destruct (proj2 (collect_fields_nums _ _ _ Hfs) m Hin) as (own & Hown & Hincl).
    exact (covers_mono _ _ _ (proj2 (get_def_menc_facts _ _ Hown (Hl m Hin))) Hincl). }
  (* the bounds writeDefMesg needs are those of the first element's [menc] *)
  assert (Hsm : mn < 65536 /\ N.of_nat (List.length fs) < 256).
  { inversion Hm as [|? ? <- _]. inversion HM as [|? ? ? ? HM0 _]. exact (menc_small _ _ _ _ HM0). }
  rewrite (write_def_ser _ _ _ _ Hd (proj1 Hsm) (proj2 Hsm)), <- (map_map (fun m => parts_of be m fs) rdata_of). split; [|reflexivity].
  rewrite <- (app_nil_r ms) at 1. rewrite <- (app_nil_r (map rdata_of _)). apply lay_slice; [exact Hne|exact Hm|exact HM|constructor].
Qed.

Lemma slot_laid be multi mn s a : forallb (msg_wf mn) s = true -> encode_slot be multi s = EOk a ->
  laid be s (slot_recs be multi s) a.
Proof.
  intros Hmsgs Ha. pose proof (msgs_wf_shape _ _ Hmsgs) as Hl. unfold encode_slot in Ha. unfold slot_recs. destruct multi.
  - exact (slice_laid be mn s a (msgs_wf_num _ _ Hmsgs) Hl Ha).
  - exact (units_laid be s a Ha Hl).
Qed.

Lemma encode_slots_lay_recs be : forall descs i slots, slots_wf i descs slots = true ->
  forall bytes, encode_slots be i descs slots = EOk bytes -> laid be (visible i slots) (slots_recs be i descs slots) bytes.
Proof.
  refine (slots_wf_cases _ _ _); [intros i bytes [= <-]; apply laid_nil|].
  intros i nm multi mn dr s sr Hmsgs _ _ _ IH bytes H. cbn [encode_slots] in H. cbn [visible slots_recs].
  destruct (Nat.eqb i 3 || Nat.eqb i 4); [exact (IH _ H)|].
  apply ebind_ok in H as (a & Ha & H). apply ebind_ok in H as (b & Hb & H). injection H as <-.
  exact (laid_app be _ _ _ _ _ _ (slot_laid be multi mn s a Hmsgs Ha) (IH _ Hb)).
Qed.

(* the record the recogniser returns for m, with everything [menc] knows of its definition *)
Definition rec_menc (be : bool) (m : msg) (r : grec) : Prop :=
  exists fields parts, menc be m fields parts /\ r = grec_of be (m_num m) fields parts.

Lemma rec_menc_of be m r : rec_menc be m r -> rec_of be m r.
Proof. intros (fields & parts & (Hfp & _ & HF & _) & ->). exists fields, parts. auto. Qed.

Lemma rdef_steps be gmn fields defs :
  Forall (from_profile gmn) fields -> gmn < 65536 ->
  steps defs (ser_record (rdef_of be gmn fields)) ((0, gdef_of be gmn fields) :: defs) [].
Proof.
  intros Hfp Hg. unfold rdef_of, ser_record. rewrite map_length, ser_fdefs, put16_put_int, app_nil_r.
  apply steps_def. intros tl. cbn [app]. rewrite <- !app_assoc. cbn [app].
  assert (Hok : forallb (fun pf => field_def_ok (ftriple pf)) fields = true).
  { apply forallb_forall. intros pf Hin. rewrite Forall_forall in Hfp. exact (entry_ok_def_ok _ _ (from_profile_entry_ok _ _ (Hfp pf Hin))). }
  (* reserved byte, architecture byte, message number, field count, field definitions; no developer fields *)
  unfold parse_definition. cbv zeta.
  replace ((if be then 1 else 0) =? 1) with be by now destruct be.
  replace (negb (_ || be)) with false by now destruct be.
  rewrite (take_app 2 _ _ (put_int_length be 2 gmn)), (take_app _ (fbytes fields) tl) by (rewrite Nat2N.id; apply fbytes_length).
  rewrite triples_fbytes, forallb_map_comp, Hok, (num_of_put_int_small be 2 gmn Hg). now destruct be.
Qed.

Lemma rdata_steps be m fields parts defs :
  menc be m fields parts -> lookup_def 0 defs = Some (gdef_of be (m_num m) fields) ->
  steps defs (ser_record (rdata_of parts)) defs [grec_of be (m_num m) fields parts].
Proof.
  intros (Hfp & _ & HF & _) Hl. destruct (payload_parts be m fields parts Hfp HF) as [Hsum Hsplit].
  unfold rdata_of, ser_record. rewrite app_nil_r. apply (steps_data _ _ _ _ Hl). intros tl.
  unfold parse_data, gdef_of. cbn [gd_fields gd_dev gd_gmn gd_be].
  rewrite Hsum, Nat2N.id, (take_app _ _ _ eq_refl), Hsplit. reflexivity.
Qed.

(* the data records of one slot, read under the slot's definition *)
Lemma rdatas_steps be mn fields defs : lookup_def 0 defs = Some (gdef_of be mn fields) ->
  forall group partss, Forall (fun m => m_num m = mn) group -> Forall2 (fun m parts => menc be m fields parts) group partss ->
  exists recs, steps defs (ser_records (map rdata_of partss)) defs recs /\ Forall2 (rec_menc be) group recs.
Proof.
  intros Hl. induction 2 as [|m parts group partss Hm HF IH]; [exists []; split; [apply steps_nil|constructor]|].
  inversion H as [|? ? Hn Hr]; subst. destruct (IH Hr) as (recs & S & F).
  exists (grec_of be (m_num m) fields parts :: recs). split.
  - exact (steps_app _ _ _ [_] _ _ _ (rdata_steps be m fields parts defs Hm Hl) S).
  - constructor; [exists fields, parts; auto|exact F].
Qed.

Lemma lay_steps be ms rs : lay be ms rs ->
  forall defs, exists defs' recs, steps defs (ser_records rs) defs' recs /\ Forall2 (rec_menc be) ms recs.
Proof.
  induction 1 as [|mn fields group partss ms rs Hne Hg HF IH] using lay_groups; intros defs.
  - exists defs, []. split; [apply steps_nil|constructor].
  - assert (Hs : Forall (from_profile mn) fields /\ mn < 65536).
    { destruct HF as [|m0 p0 gr ps Hm0 _]; [congruence|]. inversion Hg as [|? ? <- _].
      destruct Hm0 as (Hfp & _ & _ & Hcov). exact (conj Hfp (covers_num_lt _ _ Hcov)). }
    destruct Hs as (Hfp & Hn). set (d1 := (0, gdef_of be mn fields) :: defs).
    destruct (rdatas_steps be mn fields d1 eq_refl group partss Hg HF) as (r1 & S1 & F1).
    destruct (IH d1) as (defs' & r2 & S2 & F2). exists defs', (r1 ++ r2). split; [|now apply Forall2_app].
    change (ser_records (?a :: ?l)) with (ser_record a ++ ser_records l). unfold ser_records at 1. rewrite flat_map_app.
    apply (steps_app _ _ d1 [] _ _ _ (rdef_steps be mn fields defs Hfp Hn)). exact (steps_app _ _ _ _ _ _ _ S1 S2).
Qed.

(* the lemma about the emitted records from which the grammar, wire and completeness theorems follow *)
Lemma encode_recs f be bs f' :
  wf_file f = true -> wf_header (f_header f) = true ->
  encode f be = EOk (bs, f') -> N.of_nat (List.length bs) < 4294967296 ->
  exists recs, grammar bs = Some recs /\ Forall2 (rec_menc be) (file_msgs f) recs.
Proof.
  intros Hwf Hh Henc Hlen.
  destruct (encode_framing f be bs f' Hh Henc Hlen) as (Hb & Hho & Hto & Hdata & _).
  destruct (wf_file_inv f Hwf) as (cn & descs & _ & _ & _ & Efe & Hsw & _). unfold enc_data in Hdata. rewrite Efe in Hdata.
  destruct (encode_slots_lay_recs be descs 0 (f_slots f) Hsw _ Hdata) as (Hlay & Hser).
  destruct (lay_steps be _ _ Hlay []) as (d' & recs & S & F). rewrite <- Hser in S.
  exists recs. split; [|rewrite file_msgs_visible; exact F].
  (* Encode's frame is accepted, so the recogniser's verdict on the stream is that of its record loop on the
     bytes of the slot encoder *)
  unfold grammar. rewrite Hb, Hho, Hto. cbn [negb].
  apply (records_run _ d'); [exact S|]. unfold record_bytes. rewrite firstn_length, skipn_length. lia.
Qed.

(* C05, record level: the record section parses under the grammar, one data
   record per message of the File in the documented order, each under a
   definition whose field sizes add up to the record length *)
Theorem encode_grammar f be bs f' :
  wf_file f = true -> wf_header (f_header f) = true ->
  encode f be = EOk (bs, f') -> N.of_nat (List.length bs) < 4294967296 ->
  exists recs, grammar bs = Some recs /\ Forall2 (rec_of be) (file_msgs f) recs.
Proof.
  intros Hwf Hh Henc Hlen. destruct (encode_recs f be bs f' Hwf Hh Henc Hlen) as (recs & Hg & F).
  exists recs. split; [exact Hg|]. clear Hg. induction F as [|m r ms rs Hr F IH]; constructor; [exact (rec_menc_of _ _ _ Hr)|exact IH].
Qed.
