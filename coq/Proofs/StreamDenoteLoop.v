(* Stream-level decode = denote: the record loop.
   decode_denote_records: for every record list the reference semantics accepts (any length, any
   interleaving of the 16 local types, both byte orders, redefinitions), running the decoder's record
   loop on the abstract interpreter over the serialised records ends with success having consumed
   exactly those bytes, in a state related to the denotation by the invariant.
   record_consumes is one record: the header byte, then a definition (Rel_def) or a data message
   (data_message_ok) whose message goes to File.add (Filed_add). *)
From Coq Require Import NArith ZArith List Bool Lia Arith.
From Coq Require Import ZifyN ZifyNat ZifyBool.
From FitV Require Import Proofs.Util Proofs.BytesUtil Model.Values Model.Bytes Model.Base Model.Profile Model.Reflect Model.IO
  Model.Route Model.Components Model.Decode Spec.FitSyntax Spec.RouteSpec Proofs.RouteProofs Proofs.DecodeLemmas Gen.Consts
  Proofs.StreamDenoteBase Proofs.StreamDenoteDefs Proofs.StreamDenoteDef Proofs.StreamDenoteData
  Proofs.StreamDenoteRecord.
Import ListNotations.
Local Open Scope N_scope.
Ltac Zify.zify_post_hook ::= Z.div_mod_to_equations.

(* a data record under the full invariant: the message parse_data_message returns, if any, goes to File.add *)
Lemma data_record_ok o pre fb gb ft s ss b (compressed : bool) l offo pay dev ss' :
  Inv o pre fb gb ft s ss ->
  local_of b compressed = l ->
  header_offset b compressed offo -> all_bytes pay = true ->
  denote_data ss l offo pay dev = Some ss' ->
  exists s', consumes (bind (parse_data_message o b compressed) tail_k) (pay ++ dev) s tt s' /\ Inv o pre fb gb ft s' ss'.
Proof.
  intros HI Hloc Hoff Hbytes Hden. apply Inv_iff in HI. destruct HI as [HR HF].
  destruct (data_message_ok o s ss b compressed l offo pay dev ss' HR Hloc Hoff Hbytes Hden) as (om & s1 & Hrun & HR1 & Hfr & Hm).
  rewrite <- (app_nil_r (pay ++ dev)). destruct om as [m|]; cbn [tail_k].
  - destruct (Filed_add pre fb gb ft s ss s1 ss' m HF Hfr Hm) as (f' & g' & Hadd & HF').
    exists (with_file s1 f' g'). split; [exact (consumes_bind _ _ _ _ _ _ _ _ _ Hrun Hadd)|].
    apply Inv_iff. split; [|exact HF']. apply (Rel_upd o s1 ss' _ _ HR1); [reflexivity..|exact (rel_c _ _ _ HR1)].
  - exists s1. split; [exact (consumes_bind _ tail_k _ _ _ _ _ _ _ Hrun (consumes_ret tt s1))|].
    apply Inv_iff. split; [exact HR1|]. rewrite app_nil_r in Hm. destruct HF as (H1 & H2 & H3), Hfr as (_ & Ef & Eg).
    unfold Filed. now rewrite Hm, Ef, Eg.
Qed.

Lemma record_consumes o pre fb gb ft s ss r ss' :
  Inv o pre fb gb ft s ss -> rec_wf r = true -> denote_record ss r = Some ss' ->
  exists s', consumes (parse_record o) (ser_record r) s tt s' /\ Inv o pre fb gb ft s' ss'.
Proof.
  intros HI Hwf Hden.
  destruct r as [l be gmn fds devflag devs|l pay dev|l off pay dev]; cbn [denote_record] in Hden.
  2, 3: unfold rec_wf in Hwf; apply andb_prop in Hwf; destruct Hwf as [Hbytes Hextra].
  - destruct (def_accepted _ _ _ _ _ _ _ _ Hwf Hden) as (El & Hg & Eg & Ec & Hcan & ->).
    eexists. split; [exact (parse_def_ok o l be gmn fds devflag devs s El Hg Eg Ec)|].
    apply Inv_iff in HI. destruct HI as [HR HF]. apply Inv_iff. split; [now apply Rel_def|exact HF].
  - assert (Hl16 : l < 16).
    { unfold denote_data in Hden. destruct (lookup_def (ss_env ss) l) as [d|] eqn:El; [|discriminate].
      exact (inv_env16 _ _ _ _ _ _ _ HI l d El). }
    apply payload_bytes in Hbytes.
    destruct (data_record_ok o pre fb gb ft s ss l false l None pay dev ss' HI
                (data_header_local l Hl16) eq_refl Hbytes Hden) as (s' & Hrun & HI').
    exists s'. split; [exact (dispatch_data o l _ s tt s' Hl16 Hrun)|exact HI'].
  - destruct (4 <=? l) eqn:El4; [discriminate|]. apply N.leb_gt in El4. apply N.ltb_lt in Hextra.
    apply payload_bytes in Hbytes.
    destruct (comp_header_facts l off El4 Hextra) as (_ & Hloc & Hoff).
    destruct (data_record_ok o pre fb gb ft s ss (comp_header l off) true l (Some off) pay dev ss' HI
                Hloc (conj eq_refl (conj Hoff Hextra)) Hbytes Hden) as (s' & Hrun & HI').
    exists s'. split; [exact (dispatch_comp o l off _ s tt s' El4 Hextra Hrun)|exact HI'].
Qed.

Theorem record_step : forall o pre fb gb ft s ss r ss' tl t n lim,
  Inv o pre fb gb ft s ss -> rec_wf r = true -> denote_record ss r = Some ss' ->
  (n + List.length (ser_record r) <= lim)%nat ->
  exists s',
    run_a (parse_record o) (ast_at (ser_record r) tl t n lim) s =
      ROk tt (ast_at [] tl t (n + List.length (ser_record r)) lim) s' /\
    Inv o pre fb gb ft s' ss'.
Proof.
  intros o pre fb gb ft s ss r ss' tl t n lim HI Hwf Hden Hlim.
  destruct (record_consumes o pre fb gb ft s ss r ss' HI Hwf Hden) as (s' & Hrun & HI').
  exists s'. split; [exact (consumes_run _ _ _ _ _ Hrun tl t n lim Hlim)|exact HI'].
Qed.

Lemma ser_record_nonempty r : (1 <= List.length (ser_record r))%nat.
Proof. destruct r; cbn [ser_record List.length app]; lia. Qed.

(* the loop completes the list and goes on with the remaining fuel (out of fuel: the same panic on both sides) *)
Lemma records_then : forall rs o pre fb gb ft s0 ss0 ss1 tl t n lim,
  Inv o pre fb gb ft s0 ss0 ->
  stream_wf rs = true -> denote_from ss0 rs = Some ss1 ->
  (n + List.length (ser_records rs) <= lim)%nat ->
  exists s1, Inv o pre fb gb ft s1 ss1 /\
    forall fuel,
      run_a (decode_file_data o fuel) (ast_at (ser_records rs) tl t n lim) s0 =
      run_a (decode_file_data o (fuel - List.length rs)) (mk_ast tl t (n + List.length (ser_records rs)) lim) s1.
Proof.
  induction rs as [|r rest IH]; intros o pre fb gb ft s0 ss0 ss1 tl t n lim HI Hwf Hden Hlim.
  - cbn [denote_from] in Hden. inversion Hden; subst ss1. exists s0. split; [exact HI|]. intros fuel.
    cbn [ser_records flat_map List.length]. rewrite Nat.sub_0_r, Nat.add_0_r. reflexivity.
  - cbn [stream_wf forallb] in Hwf. apply andb_prop in Hwf. destruct Hwf as [Hwf1 Hwf].
    cbn [denote_from] in Hden. destruct (denote_record ss0 r) as [ssm|] eqn:Edr; [|discriminate].
    change (ser_records (r :: rest)) with (ser_record r ++ ser_records rest) in *.
    rewrite app_length in Hlim. pose proof (ser_record_nonempty r) as Hne.
    destruct (record_step o pre fb gb ft s0 ss0 r ssm (ser_records rest ++ tl) t n lim HI Hwf1 Edr ltac:(lia))
      as (sm & Hrun & HIm).
    destruct (IH o pre fb gb ft sm ssm ss1 tl t (n + List.length (ser_record r))%nat lim HIm Hwf Hden ltac:(lia))
      as (s1 & HI1 & Heq).
    exists s1. split; [exact HI1|]. intros fuel. destruct fuel as [|f]; [reflexivity|].
    cbn [decode_file_data]. rewrite run_more.
    replace (Nat.ltb n lim) with true by (symmetry; apply Nat.ltb_lt; lia).
    rewrite run_bind. rewrite ast_at_app. rewrite Hrun. cbn [rbind]. rewrite ast_at_nil_app.
    rewrite Heq. cbn [List.length Nat.sub]. rewrite app_length, Nat.add_assoc. reflexivity.
Qed.

(* at the limit the loop stops *)
Theorem decode_denote_records : forall rs o pre fb gb ft s0 ss0 ss1 tl t n lim fuel,
  Inv o pre fb gb ft s0 ss0 ->
  stream_wf rs = true -> denote_from ss0 rs = Some ss1 ->
  (n + List.length (ser_records rs) = lim)%nat -> (List.length rs < fuel)%nat ->
  exists s1,
    run_a (decode_file_data o fuel) (ast_at (ser_records rs) tl t n lim) s0 = ROk tt (ast_at [] tl t lim lim) s1 /\
    Inv o pre fb gb ft s1 ss1.
Proof.
  intros rs o pre fb gb ft s0 ss0 ss1 tl t n lim fuel HI Hwf Hden Hlim Hfuel.
  destruct (records_then rs o pre fb gb ft s0 ss0 ss1 tl t n lim HI Hwf Hden ltac:(lia)) as (s1 & HI1 & Heq).
  exists s1. split; [|exact HI1]. rewrite Heq, Hlim.
  destruct (fuel - List.length rs)%nat as [|f] eqn:Ef; [lia|].
  cbn [decode_file_data run_a a_n a_limit]. rewrite Nat.ltb_irrefl. reflexivity.
Qed.

Print Assumptions decode_denote_records.
