(* C03 -- Messages are routed, in order, to the typed container of the file's type.
   The routing table is the one observed on the current source by probing the
   real File.add and container add methods with every known message type for every file
   type (Gen/RoutingData.v); "held by" is read off the container struct types. *)
From Coq Require Import NArith ZArith List Bool String.
From FitV Require Import Model.Values Model.Components Model.Route Spec.RouteSpec Proofs.RouteProofs
  Gen.RoutingData.
Import ListNotations.
Local Open Scope N_scope.

Theorem C03_routing_wf : routing_wf = true.
Proof. unfold routing_wf. now rewrite ft_routing_ok_true, init_ok_true, accessors_ok_true. Qed.
Print Assumptions C03_routing_wf.

(* for every valid file type and EVERY sequence of messages: each slot holds exactly the messages of the type
   it holds, in stream order (single-valued slots: the last one), expanded as C18 prescribes *)
Theorem C03_route_spec : forall ft, In ft valid_file_types -> forall ms f0 g0 f g,
  f_inited f0 = Some ft -> List.length (f_slots f0) = List.length (slots_of ft) ->
  adds f0 g0 ms = AddOk f g ->
  exists sm, stored_seq ft g0 ms = Some sm /\
    forall i name multi held, nth_error (slots_of ft) i = Some (name, multi, held) ->
      nth i (f_slots f) [] = slot_contents multi held (nth i (f_slots f0) []) sm.
Proof. exact route_spec. Qed.
Print Assumptions C03_route_spec.

(* message types the file type does not hold are dropped without effect on the others, wherever they occur *)
Theorem C03_dropped_no_effect : forall ft, In ft valid_file_types -> forall ms1 ms2 f g m,
  f_inited f = Some ft -> find_slot ft (m_num m) = None ->
  (forall f' g', adds f g ms1 = AddOk f' g' -> f_inited f' = Some ft) ->
  adds f g (ms1 ++ m :: ms2) = adds f g (ms1 ++ ms2).
Proof.
  intros ft Hft ms1 ms2 f g m Hi Hs _. revert f g Hi. induction ms1 as [|a ms1 IH]; intros f g Hi; simpl.
  - now rewrite (dropped_no_effect ft Hft f g m Hi Hs).
  - destruct (file_add f g a) as [f1 g1|w] eqn:Ea; [|reflexivity].
    destruct (file_add_step ft f g a f1 g1 Hft Hi Ea) as (_ & _ & Hi1 & _). now apply IH.
Qed.
Print Assumptions C03_dropped_no_effect.

(* adding never panics on an initialised file *)
Theorem C03_add_no_panic : forall ft, In ft valid_file_types -> forall f g m,
  f_inited f = Some ft -> exists f' g', file_add f g m = AddOk f' g' /\ f_inited f' = Some ft /\
                                       List.length (f_slots f') = List.length (f_slots f).
Proof. exact add_no_panic. Qed.

(* all 256 file-type values: init succeeds exactly for the 17 valid types (invalid 0xFF, unknown values and the
   manufacturer range are rejected) *)
Theorem C03_init_exact : forall f, file_type f < 256 ->
  (exists f', file_init f = Some f') <-> In (file_type f) valid_file_types.
Proof. exact init_exact. Qed.
Print Assumptions C03_init_exact.

(* exactly the accessor matching the file type returns the container *)
Theorem C03_accessor_exact : forall f accessor ret ft cname slots,
  In (accessor, ret) accessors -> NoDup (map fst accessors) ->
  file_type f = ft -> ft_entry ft = Some (true, cname, slots) ->
  accessor_ok f accessor = String.eqb cname ret.
Proof. exact accessor_exact. Qed.
Theorem C03_accessors_observed : accessors_ok = true.
Proof. exact accessors_ok_true. Qed.

(* non-vacuity: an activity file (type 4) holds record messages (20) in a multi-valued slot *)
Example C03_example : In 4 valid_file_types /\ exists i, find_slot 4 20 = Some (i, true).
Proof. split; [vm_compute; tauto|eexists; vm_compute; reflexivity]. Qed.
