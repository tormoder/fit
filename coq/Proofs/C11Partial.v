(* C11 partial_files and (for C10) file_id agreement.  Where the input ends inside a record of a file of the
   domain of Decode_denote, Decode returns an error and a File that [holds] exactly the records [completed] before
   the cut: on the abstract interpreter ([prologue_trunc] inside the two file_id records, [data_prog_cut] anywhere
   in the data section), on decode_a ([decode_a_partial_file]) and on any reader ([Decode_cut_at], and
   [decode_cut_in_header] before the data section).  The stream theory (StreamDenote*.v: decode = denote with the
   invariant Inv; StreamDenoteFailDecode.data_prog_counts_on_failure for the record that does not complete after
   the file_id records, which C16 shares) is composed with the
   framing theory (C10Frame.v: decode_a, and decode_of_a to reach any reader).  The statements about the entry
   points, the whole-entry cut statement for DecodeHeaderAndFileID among them, are proved in Props/C11.v. *)
From Coq Require Import NArith ZArith List Bool Lia Arith.
From FitV Require Import Proofs.Util Model.Values Model.Bytes Model.Base Model.Profile Model.Reflect Model.Crc Model.IO
  Model.Header Model.Route Model.Components Model.Decode Spec.FitSyntax Spec.RouteSpec Proofs.RouteProofs
  Proofs.DecodeLemmas Gen.Consts Proofs.IOSim Proofs.DecodeFrame
  Proofs.StreamDenoteBase Proofs.StreamDenoteDefs Proofs.StreamDenoteDef Proofs.StreamDenoteData
  Proofs.StreamDenoteRecord Proofs.StreamDenoteLoop Proofs.StreamDenoteLift Proofs.StreamDenoteMain
  Proofs.StreamDenoteFrame Proofs.StreamDenoteFail Proofs.StreamDenoteFailDecode Proofs.StreamDenoteDecode
  Proofs.C10IO Proofs.C10Frame Proofs.C11Cut.
Import ListNotations.
Local Open Scope N_scope.

Lemma finalize_slots o s : f_slots (finalize_unknown o s) = f_slots (ds_file s) /\
  f_inited (finalize_unknown o s) = f_inited (ds_file s) /\ f_header (finalize_unknown o s) = f_header (ds_file s).
Proof. unfold finalize_unknown. cbn [f_slots f_inited f_header]. repeat split. Qed.

(* what a File and the accumulators returned with an error hold when the records crs, and no more, were complete:
   no message and no container (the File as created from the header: FileId is the zero value) while fewer than the
   two file_id records are; otherwise exactly the routed messages of crs, slot for slot *)
Definition holds (h : header) (g : gstate) (crs : list record) (file' : file) (g' : gstate) : Prop :=
  f_header file' = h /\
  ((List.length crs < 2)%nat -> f_slots file' = f_slots (new_file h) /\ f_inited file' = None /\ g' = g) /\
  ((2 <= List.length crs)%nat ->
   exists ssd f g1, denote crs = Some ssd /\ route_msgs h g (ss_msgs ssd) = Some (f, g1) /\
                    f_slots file' = f_slots f /\ f_inited file' = f_inited f /\ g' = g1).

Lemma holds_routed o h g crs ssd sf : (2 <= List.length crs)%nat -> denote crs = Some ssd ->
  route_msgs h g (ss_msgs ssd) = Some (ds_file sf, ds_g sf) -> holds h g crs (finalize_unknown o sf) (ds_g sf).
Proof.
  intros Hc Hd Hr. destruct (finalize_slots o sf) as (S1 & S2 & S3).
  split; [rewrite S3; exact (route_msgs_header _ _ _ _ _ Hr)|]. split; [intros; lia|].
  intros _. exists ssd, (ds_file sf), (ds_g sf). repeat split; assumption.
Qed.

Lemma file_id_two rs : starts_with_file_id rs = true -> (2 <= List.length rs)%nat.
Proof. destruct rs as [|[] [|[] ?]]; try discriminate. cbn [List.length]. lia. Qed.

Lemma prologue_trunc o fid fuel h g inp more s1 t lim :
  consumes (parse_file_id_msg o) (inp ++ more) (init_dstate (new_file h) g) tt s1 -> more <> [] ->
  exists e x sf, run_a (data_prog o fid fuel) (mk_ast inp t 0 lim) (init_dstate (new_file h) g) = RIOErr e x sf /\
                 forall crs, (List.length crs < 2)%nat -> holds h g crs (finalize_unknown o sf) (ds_g sf).
Proof.
  intros Hc Hmore.
  destruct (consumes_cut _ _ _ _ _ Hc inp more t 0%nat lim eq_refl Hmore) as (e & x & sf & Hrun).
  pose proof (on_err_file_id (fg (new_file h) g) o (fg_slots _ _) (fg_counts _ _) (mk_ast inp t 0 lim) (init_dstate (new_file h) g)
                (conj eq_refl eq_refl)) as Hfile.
  rewrite Hrun in Hfile. destruct Hfile as [F1 F2].
  exists e, x, sf. split; [unfold data_prog; rewrite run_bind, Hrun; reflexivity|]. intros crs Hcrs.
  destruct (finalize_slots o sf) as (S1 & S2 & S3). rewrite F1 in S1, S2, S3.
  split; [exact S3|]. split; [intros _; auto|intros; lia].
Qed.

(* partial_files on the abstract interpreter: a stream of the domain of Decode_denote; the input ends (cleanly, or by
   a read fault: the terminal condition is arbitrary) inside its record r, after the records crs -- anywhere in the
   data section, the file_id records included; only the bytes read need lie below the limit.  The buffered phase ends
   in an I/O error, in a state whose File holds crs. *)
Theorem data_prog_cut : forall o h g t lim crs r later cut rem ss f2 g1,
  starts_with_file_id (crs ++ r :: later) = true -> stream_wf (crs ++ r :: later) = true ->
  denote (crs ++ r :: later) = Some ss ->
  start_file h g (hd dummy_msg (ss_msgs ss)) = Some (f2, g1) ->
  ser_record r = cut ++ rem -> rem <> [] ->
  (List.length (ser_records crs ++ cut) < lim)%nat ->
  exists e x sf,
    run_a (data_prog o false (S lim)) (mk_ast (ser_records crs ++ cut) t 0 lim) (init_dstate (new_file h) g) = RIOErr e x sf /\
    holds h g crs (finalize_unknown o sf) (ds_g sf).
Proof.
  intros o h g t lim crs r later cut rem ss f2 g1 Hshape Hwf Hden Hstart Hser Hrem Hlim.
  destruct (data_prog_prologue o h g _ ss f2 g1 Hshape Hwf Hden Hstart)
    as (r1 & r2 & rest & ssb & s1 & ft & Hrs & Hwfr & Eb & Hrest & Hcons & Hinit & HIb).
  destruct crs as [|c1 [|c2 crest]]; cbn [app] in Hrs.
  - (* inside the file_id definition *)
    injection Hrs as -> _. rewrite Hser, <- app_assoc in Hcons.
    destruct (prologue_trunc o false (S lim) h g cut (rem ++ ser_record r2) s1 t lim Hcons) as (e & x & sf & Hrun & Hh).
    { destruct rem; [contradiction|discriminate]. }
    exists e, x, sf. split; [exact Hrun|apply Hh; cbn; lia].
  - (* inside the file_id data record *)
    injection Hrs as -> -> _. cbn [ser_records flat_map]. rewrite app_nil_r. rewrite Hser, app_assoc in Hcons.
    destruct (prologue_trunc o false (S lim) h g (ser_record r1 ++ cut) rem s1 t lim Hcons Hrem) as (e & x & sf & Hrun & Hh).
    exists e, x, sf. split; [exact Hrun|apply Hh; cbn; lia].
  - (* after them: the record loop on the File the prologue and File.init leave *)
    injection Hrs as -> -> <-.
    destruct (denote_from_split (r1 :: r2 :: crest) r later ss_init ss Hwf Hden) as (ssd & ss2 & Hwfc & Hd & Hwfr' & Hdr).
    (* the first message of the completed records is that of the whole stream *)
    pose proof Hd as Hdc. change (r1 :: r2 :: crest) with ([r1; r2] ++ crest) in Hdc. rewrite denote_from_app, Eb in Hdc.
    destruct (inv_msgs _ _ _ _ _ _ _ HIb) as (ms & Hms & _). destruct (denote_from_msgs _ _ _ Hdc) as [ms' Hms'].
    destruct (data_prog_counts_on_failure o h g (r1 :: r2 :: crest) r cut rem ssd ss2 f2 g1 t lim)
      as (e & x & sf & Hrun & _ & Hroute); try assumption; [rewrite Hms', Hms; exact Hstart|].
    exists e, x, sf. split; [exact Hrun|]. apply (holds_routed o h g _ ssd sf); [cbn; lia|exact Hd|exact Hroute].
Qed.

(* the same in the form the stream theory uses *)
Lemma decode_a_partial_file :
  forall o g t h l be fds (devflag : bool) (devs : list (N * N * N)) pay dev rest r cut rem ss1 ss2 f2 g1,
  let rs := RDef l be c_MesgNumFileId fds devflag devs :: RData l pay dev :: rest in
  header_wf h ->
  (List.length (ser_records rs ++ cut) < N.to_nat (h_dsize h))%nat ->
  stream_wf rs = true -> denote rs = Some ss1 ->
  start_file h g (hd dummy_msg (ss_msgs ss1)) = Some (f2, g1) ->
  rec_wf r = true -> denote_record ss1 r = Some ss2 ->
  ser_record r = cut ++ rem -> rem <> [] ->
  exists e file' u q f g',
    decode_a o MFull g (hdr_bytes h ++ ser_records rs ++ cut) t = TDone (mk_ares (Some (EIO e)) h (Some file') u g' q true) /\
    route_msgs h g (ss_msgs ss1) = Some (f, g') /\
    f_slots file' = f_slots f /\ f_inited file' = f_inited f /\ f_header file' = h.
Proof.
  intros o g t h l be fds devflag devs pay dev rest r cut rem ss1 ss2 f2 g1 rs Hwfh Hlim Hwf Hden Hstart Hwfr Hdr Hser Hrem.
  destruct (data_prog_counts_on_failure o h g rs r cut rem ss1 ss2 f2 g1 t _ ltac:(cbn; now rewrite !N.eqb_refl)
              Hwf Hden Hstart Hwfr Hdr Hser Hrem Hlim) as (e & x & sf & Hrun & _ & Hroute).
  destruct (decode_a_ioerr o false g h _ t e x sf Hwfh Hrun) as [u Ha]. destruct (finalize_slots o sf) as (S1 & S2 & S3).
  exists e, (finalize_unknown o sf), u, (ds_quirks sf), (ds_file sf), (ds_g sf). repeat split; try assumption.
  rewrite S3. exact (route_msgs_header _ _ _ _ _ Hroute).
Qed.

Theorem decode_cut_in_header : forall o md g rd fuel h body k,
  header_wf h -> (k < N.to_nat (h_size h))%nat -> rd_data rd = firstn k (hdr_bytes h ++ body) -> wf rd fuel ->
  exists res e, decode o md g rd fuel = TDone res /\ dr_err res = Some e /\ dr_file res = None /\ dr_g res = g /\
                (e = EReadSizeEOF -> k = 0%nat /\ rd_term rd = TEOF).
Proof.
  intros o md g rd fuel h body k Hwfh Hk Hd Hf.
  destruct (hdr_a_cut _ TEOF _ _ _ (hdr_a_wf h body TEOF Hwfh) k (rd_term rd) Hk) as (e & h' & crc' & u' & E' & Heof).
  assert (Ha : decode_a o md g (rd_data rd) (rd_term rd) = TDone (mk_ares (Some e) h' None u' g [] true)).
  { rewrite Hd. unfold decode_a. rewrite E'. reflexivity. }
  destruct (decode_of_a o md g rd fuel _ Hf Ha) as (res & Hres & [E1 E2 E3 E4 _ _ _ _ _]). cbn in E1, E2, E3, E4.
  exists res, e. repeat split; try assumption. - apply Heof; assumption. - apply Heof; assumption.
Qed.

(* the records that lie completely within the first n bytes of the data section *)
Fixpoint completed (n : nat) (rs : list record) : list record :=
  match rs with
  | [] => []
  | r :: rest =>
      if Nat.leb (List.length (ser_record r)) n then r :: completed (n - List.length (ser_record r)) rest else []
  end.

Lemma completed_spec : forall rs n, (n < List.length (ser_records rs))%nat ->
  exists r later cut rem, rs = completed n rs ++ r :: later /\
    firstn n (ser_records rs) = ser_records (completed n rs) ++ cut /\ ser_record r = cut ++ rem /\ rem <> [].
Proof.
  induction rs as [|r0 rest IH]; intros n Hn; [cbn in Hn; lia|].
  change (ser_records (r0 :: rest)) with (ser_record r0 ++ ser_records rest) in *. rewrite app_length in Hn.
  cbn [completed]. destruct (Nat.leb_spec (List.length (ser_record r0)) n) as [L|L].
  - destruct (IH (n - List.length (ser_record r0))%nat ltac:(lia)) as (r & later & cut & rem & E1 & E2 & E3 & E4).
    exists r, later, cut, rem. split; [cbn [app]; now rewrite <- E1|]. split; [|split; assumption].
    change (ser_records (r0 :: completed (n - List.length (ser_record r0)) rest))
      with (ser_record r0 ++ ser_records (completed (n - List.length (ser_record r0)) rest)).
    rewrite firstn_app, firstn_all2 by lia. rewrite E2. now rewrite app_assoc.
  - exists r0, rest, (firstn n (ser_record r0)), (skipn n (ser_record r0)). cbn [app ser_records flat_map].
    split; [reflexivity|]. split; [|split].
    + rewrite firstn_app. replace (n - List.length (ser_record r0))%nat with 0%nat by lia. cbn [firstn]. now rewrite app_nil_r.
    + symmetry. apply firstn_skipn.
    + apply skipn_not_nil. lia.
Qed.

Lemma completed_all : forall rs n, (List.length (ser_records rs) <= n)%nat -> completed n rs = rs.
Proof.
  induction rs as [|r rest IH]; intros n Hn; [reflexivity|].
  change (ser_records (r :: rest)) with (ser_record r ++ ser_records rest) in Hn. rewrite app_length in Hn.
  cbn [completed]. destruct (Nat.leb_spec (List.length (ser_record r)) n); [|lia]. rewrite IH by lia. reflexivity.
Qed.

(* every byte offset past the header: a file of the domain of Decode_denote, followed by anything, cut n bytes
   after its header, n below the end of the checksum; the reader holds these bytes and then ends (clean EOF or
   read fault, any chunking).  Decode returns an error and a File that holds [completed n rs], the records
   complete before the offset; the error is an I/O error inside the data section and the checksum read error
   inside the checksum, where every record was decoded. *)
Theorem Decode_cut_at : forall o g rd fuel h rs ss f2 g1 tail n,
  header_wf h -> h_dsize h = N.of_nat (List.length (ser_records rs)) ->
  starts_with_file_id rs = true -> stream_wf rs = true -> denote rs = Some ss ->
  start_file h g (hd dummy_msg (ss_msgs ss)) = Some (f2, g1) ->
  (n < List.length (ser_records rs) + 2)%nat ->
  rd_data rd = hdr_bytes h ++ firstn n (ser_records rs ++ tail) -> wf rd fuel ->
  exists res e file',
    entry_Decode o g rd fuel = TDone res /\ dr_err res = Some e /\ dr_hdr res = h /\ dr_file res = Some file' /\
    holds h g (completed n rs) file' (dr_g res) /\
    ((n < List.length (ser_records rs))%nat -> exists e', e = EIO e') /\
    ((List.length (ser_records rs) <= n)%nat -> e = EFileCRCRead).
Proof.
  intros o g rd fuel h rs ss f2 g1 tail n Hwfh Hsz Hshape Hwf Hden Hstart Hn Hd Hf.
  assert (HL : N.to_nat (h_dsize h) = List.length (ser_records rs)) by (rewrite Hsz; apply Nat2N.id).
  enough (exists e file' u g' q,
            decode_a o MFull g (rd_data rd) (rd_term rd) = TDone (mk_ares (Some e) h (Some file') u g' q true) /\
            holds h g (completed n rs) file' g' /\
            ((n < List.length (ser_records rs))%nat -> exists e', e = EIO e') /\
            ((List.length (ser_records rs) <= n)%nat -> e = EFileCRCRead)) as (e & file' & u & g' & q & Ha & Hh & He).
  { destruct (decode_of_a o MFull g rd fuel _ Hf Ha) as (res & Hres & [E1 E2 E3 E4 _ _ _ _ _]). cbn in E1, E2, E3, E4.
    exists res, e, file'. rewrite E4. repeat (split; [assumption|]). exact He. }
  rewrite Hd, firstn_app. destruct (Nat.lt_ge_cases n (List.length (ser_records rs))) as [Hlt|Hge].
  - (* the data section *)
    replace (n - List.length (ser_records rs))%nat with 0%nat by lia. cbn [firstn]. rewrite app_nil_r.
    destruct (completed_spec rs n Hlt) as (r & later & cut & rem & Ers & Efirst & Eser & Hrem).
    rewrite Ers in Hshape, Hwf, Hden.
    destruct (data_prog_cut o h g (rd_term rd) (N.to_nat (h_dsize h)) (completed n rs) r later cut rem ss f2 g1
                Hshape Hwf Hden Hstart Eser Hrem) as (e & x & sf & Hrun & Hh).
    { rewrite <- Efirst, firstn_length. lia. }
    destruct (decode_a_ioerr o false g h _ (rd_term rd) e x sf Hwfh Hrun) as [u Ha].
    rewrite <- Efirst in Ha. exists (EIO e), (finalize_unknown o sf), u, (ds_g sf), (ds_quirks sf).
    split; [exact Ha|]. split; [exact Hh|]. split; [intros _; eexists; reflexivity|intros; lia].
  - (* the checksum: all records were decoded *)
    rewrite firstn_all2 by exact Hge. set (c := firstn (n - List.length (ser_records rs)) tail).
    assert (Hc : (List.length c < 2)%nat) by (unfold c; rewrite firstn_length; lia).
    destruct (decode_denote_abstract o h g rs ss f2 g1 c (rd_term rd) Hshape Hwf Hden Hstart)
      as (s1 & f & g' & Hrun & Hroute & Hfile & Hg & _). subst f g'.
    exists EFileCRCRead, (finalize_unknown o (with_file s1 (ds_file s1) (ds_g s1))). do 3 eexists. split; [|split].
    + rewrite (decode_a_wf_hdr _ _ _ _ _ _ Hwfh). unfold body_a, buffered_a. cbv beta iota zeta.
      rewrite HL, Hrun. cbn [a_n a_limit a_rest]. rewrite Nat.eqb_refl. cbn [negb].
      unfold crc_tail. rewrite (crc_a_short c _ _ _ Hc). cbn [fst snd]. reflexivity.
    + rewrite (completed_all rs n Hge).
      exact (holds_routed o h g rs ss (with_file s1 (ds_file s1) (ds_g s1)) (file_id_two rs Hshape) Hden Hroute).
    + split; [intros; lia|reflexivity].
Qed.

Lemma slot0_is_file_id :
  forallb (fun ft => match nth_error (slots_of ft) 0 with
                     | Some (_, false, held) => held =? c_MesgNumFileId
                     | _ => false
                     end) valid_file_types = true.
Proof. vm_compute. reflexivity. Qed.

Definition no_file_id (ms : list msg) : bool := forallb (fun m => negb (m_num m =? c_MesgNumFileId)) ms.

(* adding messages other than file_id to an initialised File leaves the FileId slot alone *)
Lemma adds_slot0 ft : In ft valid_file_types -> forall ms f0 g0 f g,
  f_inited f0 = Some ft -> adds f0 g0 ms = AddOk f g -> no_file_id ms = true ->
  nth 0 (f_slots f) [] = nth 0 (f_slots f0) [].
Proof.
  intros Hft. pose proof slot0_is_file_id as H0. rewrite forallb_forall in H0. specialize (H0 ft Hft).
  induction ms as [|m r IH]; intros f0 g0 f g Hi Ha Hn; cbn [adds] in Ha; [inversion Ha; reflexivity|].
  cbn [no_file_id forallb] in Hn. apply andb_prop in Hn. destruct Hn as [Hm Hn]. apply negb_true_iff, N.eqb_neq in Hm.
  rewrite (file_add_inited ft f0 g0 m Hft Hi) in Ha.
  destruct (find_slot ft (m_num m)) as [[i multi]|] eqn:Es.
  - destruct (stored ft g0 m) as [[m' g1]|]; [|discriminate].
    rewrite (IH _ _ _ _ (Hi : f_inited (with_slots f0 _) = Some ft) Ha Hn). cbn [with_slots f_slots].
    apply nth_set_nth_neq. intros ->.
    apply (proj1 (find_slot_iff ft (m_num m) 0 multi Hft)) in Es. destruct Es as [name Hs]. rewrite Hs in H0.
    destruct multi; [discriminate|]. apply N.eqb_eq in H0. congruence.
  - rewrite (IH _ _ _ _ (Hi : f_inited (with_slots f0 _) = Some ft) Ha Hn). reflexivity.
Qed.

Lemma adds_slot0_start h g m f2 g1 ms f g' : start_file h g m = Some (f2, g1) ->
  adds f2 g1 ms = AddOk f g' -> no_file_id ms = true -> nth 0 (f_slots f) [] = nth 0 (f_slots f2) [].
Proof.
  unfold start_file. destruct (file_add (new_file h) g m) as [fa ga|]; [|discriminate].
  destruct (file_init fa) as [fb|] eqn:Ei; [|discriminate]. intros H; injection H as <- <-.
  destruct (file_init_valid _ _ Ei) as [Hft Hin]. exact (adds_slot0 _ Hft ms fb ga f g' Hin).
Qed.

Lemma file_init_slot0 f f' : file_init f = Some f' ->
  nth 0 (f_slots f') [] = nth 0 (f_slots f) [] /\ f_header f' = f_header f.
Proof.
  intros [_ ->]%file_init_some. split; [|reflexivity]. cbn [f_slots]. destruct (f_slots f) as [|a l]; [|reflexivity].
  destruct (_ - _)%nat; reflexivity.
Qed.

(* DecodeHeaderAndFileID on a complete file of the domain of Decode_denote (followed by anything): success, the
   header of the file, and a File whose FileId slot is the FileId slot of the File the reference semantics starts
   from (File.add of the file_id message, then File.init) *)
Lemma fileid_only_ok o h g rs ss1 f2 g1 tl t :
  header_wf h -> h_dsize h = N.of_nat (List.length (ser_records rs)) ->
  starts_with_file_id rs = true -> stream_wf rs = true -> denote rs = Some ss1 ->
  start_file h g (hd dummy_msg (ss_msgs ss1)) = Some (f2, g1) ->
  exists a fF, decode_a o MFileIdOnly g (hdr_bytes h ++ ser_records rs ++ tl) t = TDone a /\ ar_err a = None /\
               ar_hdr a = h /\ ar_file a = Some fF /\ nth 0 (f_slots fF) [] = nth 0 (f_slots f2) [] /\
               f_header fF = h.
Proof.
  intros Hwfh Hsz Hshape Hwf Hden Hstart.
  destruct (data_prog_prologue o h g rs ss1 f2 g1 Hshape Hwf Hden Hstart)
    as (r1 & r2 & rest & ssb & s1 & _ & -> & _ & _ & _ & Hrun & Hinit & _).
  assert (HL : N.to_nat (h_dsize h) = List.length (ser_records (r1 :: r2 :: rest))) by (rewrite Hsz; apply Nat2N.id).
  change (ser_records (r1 :: r2 :: rest)) with (ser_record r1 ++ ser_record r2 ++ ser_records rest) in *.
  rewrite !app_length in HL.
  apply consumes_run with (tl := ser_records rest ++ tl) (t := t) (n := 0%nat) (lim := N.to_nat (h_dsize h)) in Hrun;
    [|rewrite app_length; lia].
  destruct (file_init_slot0 _ _ Hinit) as [Hslot Hhdr].
  exists (mk_ares None h (Some (finalize_unknown o s1))
            (N.to_nat (h_size h) + N.to_nat (h_dsize h))
            (ds_g s1) (ds_quirks s1) false), (finalize_unknown o s1).
  destruct (finalize_slots o s1) as (S1 & _ & S3).
  split.
  { rewrite (decode_a_wf_hdr _ _ _ _ _ _ Hwfh). unfold body_a, buffered_a. cbv beta iota zeta.
    unfold data_prog. rewrite run_bind.
    replace ((ser_record r1 ++ ser_record r2 ++ ser_records rest) ++ tl) with ((ser_record r1 ++ ser_record r2) ++ ser_records rest ++ tl)
      by (now rewrite <- !app_assoc).
    fold (ast_at (ser_record r1 ++ ser_record r2) (ser_records rest ++ tl) t 0 (N.to_nat (h_dsize h))).
    rewrite Hrun, app_length. cbn [rbind run_a]. reflexivity. }
  fields. repeat split; try reflexivity.
  - rewrite S1. symmetry. exact Hslot.
  - rewrite S3, <- Hhdr.
    exact (route_msgs_header h g [hd dummy_msg (ss_msgs ss1)] f2 g1 ltac:(unfold route_msgs; now rewrite Hstart)).
Qed.

(* fileid_agree: on a file of the domain of Decode_denote whose only file_id message is the leading one, read through
   any two readers, DecodeHeaderAndFileID and Decode report the same header and the same FileId message *)
Theorem fileid_agree : forall o g rdD fuelD rdF fuelF h rs ss1 f2 g1 extraD extraF,
  header_wf h -> h_dsize h = N.of_nat (List.length (ser_records rs)) ->
  starts_with_file_id rs = true -> stream_wf rs = true -> denote rs = Some ss1 ->
  start_file h g (hd dummy_msg (ss_msgs ss1)) = Some (f2, g1) ->
  no_file_id (List.tl (ss_msgs ss1)) = true ->
  rd_data rdD = fit_file h rs ++ extraD -> wf rdD fuelD ->
  rd_data rdF = fit_file h rs ++ extraF -> wf rdF fuelF ->
  exists rD rF fD fF,
    entry_Decode o g rdD fuelD = TDone rD /\ entry_DecodeHeaderAndFileID g rdF fuelF = TDone rF /\
    dr_err rD = None /\ dr_err rF = None /\ dr_hdr rD = h /\ dr_hdr rF = h /\
    dr_file rD = Some fD /\ dr_file rF = Some fF /\
    nth 0 (f_slots fF) [] = nth 0 (f_slots fD) [] /\ f_header fF = f_header fD.
Proof.
  intros o g rdD fuelD rdF fuelF h rs ss1 f2 g1 extraD extraF Hwfh Hsz Hs Hwf Hden Hstart Hno HdD HfD HdF HfF.
  destruct (Decode_denote o g rdD fuelD h rs ss1 f2 g1 extraD Hwfh Hsz Hs Hwf Hden Hstart HdD HfD)
    as (rd' & file' & f & g' & q & HD & Hroute & Hslots & _ & Hhdr & _).
  destruct (fileid_only_ok no_opts h g rs ss1 f2 g1 (put_le16 (file_crc h (ser_records rs)) ++ extraF) (rd_term rdF)
              Hwfh Hsz Hs Hwf Hden Hstart) as (a & fF & Ha & A1 & A2 & A3 & A4 & A5).
  assert (HdF' : rd_data rdF = hdr_bytes h ++ ser_records rs ++ put_le16 (file_crc h (ser_records rs)) ++ extraF).
  { rewrite HdF. unfold fit_file, frame_bytes. now rewrite <- !app_assoc. }
  rewrite <- HdF' in Ha.
  destruct (decode_of_a no_opts MFileIdOnly g rdF fuelF a HfF Ha) as (rF & HF & [E1 E2 E3 _ _ _ _ _ _]).
  exists (mk_dres None h (Some file') rd' g' q), rF, file', fF.
  split; [exact HD|]. split; [exact HF|]. cbn [dr_err dr_hdr dr_file].
  split; [reflexivity|]. split; [congruence|]. split; [reflexivity|]. split; [congruence|].
  split; [reflexivity|]. split; [congruence|]. split; [|congruence].
  rewrite A4, Hslots.
  (* the FileId slot of the routed File *)
  unfold route_msgs in Hroute. destruct (ss_msgs ss1) as [|m0 ms] eqn:Em; [discriminate|]. cbn [hd List.tl] in *.
  rewrite Hstart in Hroute. destruct (adds f2 g1 ms) as [fx gx|] eqn:Ea; [|discriminate]. injection Hroute as <- <-.
  symmetry. exact (adds_slot0_start _ _ _ _ _ ms _ _ Hstart Ea Hno).
Qed.

(* the witness of Props.C10.C10_fileid_agree_refuted_without_side_condition, on which the two entry points report
   different file_id messages: a 12-byte header, the file_id definition (one field: type), a file_id data record
   of type 4 (activity) and a second file_id data record of type 2 (settings) *)
Definition two_fid_body : list N :=
  [12; 16; 100; 0; 13; 0; 0; 0; 46; 70; 73; 84; 0x40; 0; 0; 0; 0; 1; 0; 1; 0; 0; 4; 0; 2].
Definition two_fid_file : list N := two_fid_body ++ put_le16 (checksum two_fid_body).

Definition slot0_of (x : tout dres) : option (list msg) :=
  match x with
  | TDone r => match dr_err r, dr_file r with None, Some f => Some (nth 0 (f_slots f) []) | _, _ => None end
  | _ => None
  end.
