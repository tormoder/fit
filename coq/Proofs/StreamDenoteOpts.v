(* Decode options only add information (C16).

   The decoder run under any two option sets [o] and [o'] produces the same
   outcome on every input -- arbitrary bytes, every chunk schedule, every fault --
   up to the unknown-field / unknown-message counters: the instance of
   Proofs/DecodeSim.v in which the counters are not compared, so that the options
   may differ, and the File and the accumulators are equal.  The two programs are
   not syntactically aligned (one side does Get/Put where the other does Ret tt),
   which is why [C08Sim.isim], the relation on programs that DecodeSim.v works with,
   carries the current pair of decoder states. *)
From Coq Require Import NArith ZArith List Bool Lia Arith.
From FitV Require Import Model.Values Model.Bytes Model.Base Model.Profile Model.Reflect Model.Crc Model.IO
  Model.Header Model.Components Model.Route Model.Decode Gen.Consts.
From FitV Require Import Proofs.DecodeBuffered Proofs.C08Sim Proofs.DecodeSim.
Import ListNotations.
Local Open Scope N_scope.

Definition eqv (s s' : dstate) : Prop :=
  ds_defs s = ds_defs s' /\ ds_ts s = ds_ts s' /\ ds_lastoff s = ds_lastoff s' /\
  ds_file s = ds_file s' /\ ds_g s = ds_g s' /\ ds_quirks s = ds_quirks s' /\ ds_hasts s = ds_hasts s'.

Lemma eqv_refl s : eqv s s.
Proof. repeat split. Qed.

(* a write to a counter is not seen *)
Lemma eqv_unkf_r s s' u : eqv s s' -> eqv s (with_unkf s' u).
Proof. intro H. exact H. Qed.
Lemma eqv_unkm_r s s' u : eqv s s' -> eqv s (with_unkm s' u).
Proof. intro H. exact H. Qed.

(* [psim] is [C08Sim.isim eqv eq] ([psim_iff]), not the lock-step [C08Sim.psim]; [rsim] is
   [C08Sim.rsim eqv eq], by conversion *)
Inductive psim {A : Type} : dstate -> dstate -> prog dstate err A -> prog dstate err A -> Prop :=
| ps_ret s s' a : eqv s s' -> psim s s' (Ret a) (Ret a)
| ps_fail s s' e : eqv s s' -> psim s s' (Fail e) (Fail e)
| ps_panic s s' w : psim s s' (Panic w) (Panic w)
| ps_rb s s' k k' : eqv s s' -> (forall b, psim s s' (k b) (k' b)) -> psim s s' (ReadByte k) (ReadByte k')
| ps_rf s s' n k k' : eqv s s' -> (forall l, psim s s' (k l) (k' l)) -> psim s s' (ReadFull n k) (ReadFull n k')
| ps_more s s' k k' : (forall b, psim s s' (k b) (k' b)) -> psim s s' (More k) (More k')
| ps_get_l s s' k q : psim s s' (k s) q -> psim s s' (Get k) q
| ps_get_r s s' p k : psim s s' p (k s') -> psim s s' p (Get k)
| ps_put_l s s' s2 k q : psim s2 s' k q -> psim s s' (Put s2 k) q
| ps_put_r s s' s2 p k : psim s s2 p k -> psim s s' p (Put s2 k).

Definition rsim {X A : Type} (r r' : result X dstate err A) : Prop :=
  match r, r' with
  | ROk a x s, ROk a' x' s' => a = a' /\ x = x' /\ eqv s s'
  | RFail e x s, RFail e' x' s' => e = e' /\ x = x' /\ eqv s s'
  | RIOErr e x s, RIOErr e' x' s' => e = e' /\ x = x' /\ eqv s s'
  | RPanic w, RPanic w' => w = w'
  | ROutOfFuel, ROutOfFuel => True
  | _, _ => False
  end.

Lemma psim_iff {A} s s' (p q : P A) : psim s s' p q <-> isim eqv eq s s' p q.
Proof. split; induction 1; subst; constructor; auto. Qed.

Lemma psim_read_byte s s' : eqv s s' -> psim s s' read_byte read_byte.
Proof. intro He. apply psim_iff. exact (esim_byte eqv _ _ (esim_ret eqv) s s' He). Qed.

Definition feq (f : file) (g : gstate) (f' : file) (g' : gstate) : Prop := f = f' /\ g = g'.

Lemma feq_ok : sink_ok feq.
Proof.
  split; [|split].
  - intros f g f' g' m [<- <-]. destruct (file_add f g m); cbn; auto. split; reflexivity.
  - intros f g f' g' [<- <-]. destruct (file_init f); [split; reflexivity|exact I].
  - intros f g f' g' c [<- <-]. split; reflexivity.
Qed.

Lemma eqv_prel s s' : eqv s s' <-> prel False feq s s'.
Proof.
  unfold eqv, feq. split.
  - intros (? & ? & ? & ? & ? & ? & ?). constructor; tauto.
  - intros [? ? ? ? ? _ [? ?]]. tauto.
Qed.

Lemma esim_opts {A} (p q : P A) : esim (prel False feq) p q -> forall s s', eqv s s' ->
  (forall x, rsim (run_a p x s) (run_a q x s')) /\ (forall c, rsim (run_c p c s) (run_c q c s')).
Proof.
  intros H s s' He. apply eqv_prel in He.
  split; intro x; apply (rsim_impl _ eqv _ _ _ (fun a b => proj2 (eqv_prel a b)));
    [apply run_a_isim|apply run_c_isim]; apply H, He.
Qed.

Theorem record_opts_invisible_abstract : forall o x s s', eqv s s' ->
  rsim (run_a (parse_record o) x s) (run_a (parse_record no_opts) x s').
Proof. intros o x s s' He. exact (proj1 (esim_opts _ _ (es_record _ _ o no_opts (False_ind _) feq_ok) s s' He) x). Qed.

Theorem record_opts_invisible_buffered : forall o c s s', eqv s s' ->
  rsim (run_c (parse_record o) c s) (run_c (parse_record no_opts) c s').
Proof. intros o c s s' He. exact (proj2 (esim_opts _ _ (es_record _ _ o no_opts (False_ind _) feq_ok) s s' He) c). Qed.

Theorem records_opts_invisible_buffered : forall o fuel c s s', eqv s s' ->
  rsim (run_c (decode_file_data o fuel) c s) (run_c (decode_file_data no_opts fuel) c s').
Proof. intros o fuel c s s' He. exact (proj2 (esim_opts _ _ (es_records _ _ o no_opts fuel (False_ind _) feq_ok) s s' He) c). Qed.

Theorem opts_invisible_abstract : forall o fid fuel x s s', eqv s s' ->
  rsim (run_a (data_prog o fid fuel) x s) (run_a (data_prog no_opts fid fuel) x s').
Proof. intros o fid fuel x s s' He. exact (proj1 (esim_opts _ _ (decoder_sim _ _ o no_opts fid fuel (False_ind _) feq_ok) s s' He) x). Qed.

Theorem opts_invisible_buffered : forall o fid fuel c s s', eqv s s' ->
  rsim (run_c (data_prog o fid fuel) c s) (run_c (data_prog no_opts fid fuel) c s').
Proof. intros o fid fuel c s s' He. exact (proj2 (esim_opts _ _ (decoder_sim _ _ o no_opts fid fuel (False_ind _) feq_ok) s s' He) c). Qed.

Definition strip_unknown (f : file) : file :=
  mk_file (f_header f) (f_crc f) (f_slots f) (f_inited f) None None.

Definition project (r : tout dres) : tout (option err * header * option file * reader * gstate * list N) :=
  match r with
  | TDone d => TDone (dr_err d, dr_hdr d, option_map strip_unknown (dr_file d), dr_rd d, dr_g d, dr_quirks d)
  | TPanic w => TPanic w
  | TOutOfFuel => TOutOfFuel
  end.

(* messages, error, header, bytes consumed (rd_pos of the reader), accumulators and quirk
   tags are the same for all 8 option sets, on every input *)
Theorem opts_invisible2 : forall o o' md g rd fuel,
  project (decode o md g rd fuel) = project (decode o' md g rd fuel).
Proof.
  intros o o' md g rd fuel.
  assert (Ts : forall s s' e h r, prel False feq s s' ->
            project (TDone (mk_dres e h (Some (finalize_unknown o s)) r (ds_g s) (ds_quirks s))) =
            project (TDone (mk_dres e h (Some (finalize_unknown o' s')) r (ds_g s') (ds_quirks s')))).
  { intros s s' e h r He. destruct (pr_sink He) as [Hf Hg]. unfold project, strip_unknown, finalize_unknown.
    cbn [dr_err dr_hdr dr_file dr_rd dr_g dr_quirks option_map f_header f_crc f_slots f_inited].
    rewrite Hf, Hg, (pr_quirks He). reflexivity. }
  pose proof (decode_sim False feq (fun r r' => project (TDone r) = project (TDone r')) o o' md g g rd fuel
                (False_ind _) feq_ok (fun f => conj eq_refl eq_refl) (fun e h f r => eq_refl) Ts) as H.
  destruct (decode o md g rd fuel), (decode o' md g rd fuel); try contradiction; [exact H|subst; reflexivity|reflexivity].
Qed.

Theorem opts_invisible : forall o md g rd fuel,
  project (decode o md g rd fuel) = project (decode no_opts md g rd fuel).
Proof. intros o md g rd fuel. apply opts_invisible2. Qed.

Corollary opts_invisible_Decode : forall o g rd fuel,
  project (entry_Decode o g rd fuel) = project (entry_Decode no_opts g rd fuel).
Proof. intros o g rd fuel. apply opts_invisible. Qed.

Definition project_chain (r : tout Decode.cres) : tout (option err * list file * reader * gstate * list N) :=
  match r with
  | TDone c => TDone (cr_err c, map strip_unknown (cr_files c), cr_rd c, cr_g c, cr_quirks c)
  | TPanic w => TPanic w
  | TOutOfFuel => TOutOfFuel
  end.

Lemma chained_opts_invisible_gen o : forall files g rd fuel i acc acc' q,
  map strip_unknown acc = map strip_unknown acc' ->
  project_chain (decode_chained o g rd fuel i files acc q) =
  project_chain (decode_chained no_opts g rd fuel i files acc' q).
Proof.
  induction files as [|k IH]; intros g rd fuel i acc acc' q Hacc; cbn [decode_chained]; [reflexivity|].
  pose proof (opts_invisible o MFull g rd fuel) as Hp.
  destruct (decode o MFull g rd fuel) as [[e h f rd1 g1 q1]|w|],
           (decode no_opts MFull g rd fuel) as [[e' h' f' rd1' g1' q1']|w'|];
    cbn [project] in Hp; try discriminate; [|injection Hp as ->; reflexivity|reflexivity].
  cbn [dr_err dr_hdr dr_file dr_rd dr_g dr_quirks] in *. injection Hp as <- <- Hf <- <- <-.
  assert (Hacc2 : map strip_unknown (match f with Some f0 => acc ++ [f0] | None => acc end) =
                  map strip_unknown (match f' with Some f0 => acc' ++ [f0] | None => acc' end)).
  { destruct f, f'; try discriminate; [|exact Hacc].
    cbn [option_map] in Hf. rewrite !map_app, Hacc. cbn [map]. congruence. }
  destruct e as [e|]; [|apply IH; exact Hacc2].
  (* the chain stops: with the files so far at a clean end of input, else with this file added *)
  destruct e, i; cbn [project_chain cr_err cr_files cr_rd cr_g cr_quirks]; rewrite ?Hacc, ?Hacc2; reflexivity.
Qed.

Example opts_invisible_example :
  rsim (run_a (data_prog (mk_dopts true true true) false 8) (mk_ast [0x40; 0; 0; 0; 0; 0] TEOF 0 6)
               (init_dstate (new_file zero_header) g_init))
       (run_a (data_prog no_opts false 8) (mk_ast [0x40; 0; 0; 0; 0; 0] TEOF 0 6)
               (init_dstate (new_file zero_header) g_init)).
Proof. apply opts_invisible_abstract. apply eqv_refl. Qed.

(* the relation is not vacuous: on a definition + data message of an unknown global
   message number the counters do differ, everything else (here: bytes consumed) agrees *)
Example opts_counters_differ :
  let x0 := mk_ast [0x40; 0; 0; 0x34; 0xFF; 1; 0; 1; 2; 0x00; 5] TEOF 0 11 in
  let s0 := init_dstate (new_file zero_header) g_init in
  match run_a (decode_file_data (mk_dopts false true true) 3) x0 s0,
        run_a (decode_file_data no_opts 3) x0 s0 with
  | ROk _ x s, ROk _ x' s' => Some (ds_unkm s, ds_unkm s', a_n x, a_n x')
  | _, _ => None
  end = Some ([(0xFF34, 1)], [], 11%nat, 11%nat).
Proof. vm_compute. reflexivity. Qed.

Print Assumptions opts_invisible_abstract.
Print Assumptions opts_invisible_buffered.
Print Assumptions opts_invisible2.
Print Assumptions opts_invisible.
