(* Stream-level decode = denote: concrete streams.
   - [ok_stream]: the hypotheses of decode_denote are satisfiable by a stream that exercises an explicit
     timestamp, a compressed-timestamp record, a redefinition of a local type and a local_date_time field;
   - the three streams that exhibit the library's two C12 time defects (fixed: ac9b0b0, 2f21531), on which the
     repaired decoder agrees with the reference semantics; the witness that the reserved-bits condition is needed. *)
From Coq Require Import NArith ZArith List Bool.
From FitV Require Import Model.Values Model.Bytes Model.Base Model.Profile Model.Reflect Model.IO
  Model.Header Model.Route Model.Components Model.Decode Spec.FitSyntax Spec.RouteSpec Gen.Consts
  Proofs.StreamDenoteDefs Proofs.StreamDenoteLift Proofs.StreamDenoteMain.
Import ListNotations.
Local Open Scope N_scope.

Definition w_fileid_def := RDef 0 false 0 [mk_sfdef 0 1 0] false [].          (* file_id: type (enum) *)
Definition w_fileid := RData 0 [4] [].                                          (* type = activity *)
Definition w_def_local := RDef 1 false 34 [mk_sfdef 5 4 134] false [].          (* activity: local_timestamp *)
Definition w_def_ts := RDef 1 false 34 [mk_sfdef 253 4 134] false [].           (* activity: timestamp *)
Definition w_def_timer := RDef 2 false 34 [mk_sfdef 0 4 134] false [].          (* activity: total_timer_time *)

Definition ok_stream : list record :=
  [w_fileid_def; w_fileid; w_def_ts; w_def_timer; RData 1 (put_le32 1000000000) []; RComp 2 3 [1; 0; 0; 0] [];
   w_def_local; RData 1 (put_le32 1000003600) []].

(* a local timestamp before any reference, then a compressed-timestamp record *)
Definition w_local_first : list record :=
  [w_fileid_def; w_fileid; w_def_local; RData 1 (put_le32 1000000000) []; RComp 1 3 (put_le32 1000000000) []].
(* an explicit timestamp 0, then a compressed-timestamp record *)
Definition w_ts_zero : list record :=
  [w_fileid_def; w_fileid; w_def_ts; w_def_timer; RData 1 (put_le32 0) []; RComp 2 3 [1; 0; 0; 0] []].
(* a compressed step that wraps the 32-bit reference to exactly 0, then another compressed record *)
Definition w_wrap_zero : list record :=
  [w_fileid_def; w_fileid; w_def_ts; w_def_timer; RData 1 (put_le32 0xFFFFFFFE) []; RComp 2 0 [1; 0; 0; 0] [];
   RComp 2 5 [1; 0; 0; 0] []].

Definition w_hdr : header := mk_header 12 16 2215 0 fit_dtype 0.

Definition model_run (rs : list record) : result ast dstate err unit :=
  run_a (data_prog no_opts false (S (List.length (ser_records rs))))
        (mk_ast (ser_records rs) TEOF 0 (List.length (ser_records rs))) (init_dstate (new_file w_hdr) g_init).

Definition spec_slots (rs : list record) : option (list (list msg)) :=
  match denote rs with
  | Some ss => match route_msgs w_hdr g_init (ss_msgs ss) with Some (f, _) => Some (f_slots f) | None => None end
  | None => None
  end.
Definition model_slots (rs : list record) : option (list (list msg)) :=
  match model_run rs with ROk _ _ s => Some (f_slots (ds_file s)) | _ => None end.
Fixpoint msgs_eqb (a b : list msg) : bool :=
  match a, b with
  | [], [] => true
  | x :: a', y :: b' => (m_num x =? m_num y) && goval_eqb (VList (m_fields x)) (VList (m_fields y)) && msgs_eqb a' b'
  | _, _ => false
  end.
Fixpoint slots_eqb (a b : list (list msg)) : bool :=
  match a, b with
  | [], [] => true
  | x :: a', y :: b' => msgs_eqb x y && slots_eqb a' b'
  | _, _ => false
  end.
Definition agree (rs : list record) : bool :=
  match spec_slots rs, model_slots rs with Some a, Some b => slots_eqb a b | _, _ => false end.

(* the hypotheses of decode_denote hold for ok_stream (and its conclusion, recomputed) *)
Example ok_stream_in_domain :
  starts_with_file_id ok_stream = true /\ stream_wf ok_stream = true /\
  (exists ss f2 g1, denote ok_stream = Some ss /\ start_file w_hdr g_init (hd dummy_msg (ss_msgs ss)) = Some (f2, g1)) /\
  agree ok_stream = true.
Proof.
  split; [vm_compute; reflexivity|]. split; [vm_compute; reflexivity|].
  split; [|vm_compute; reflexivity].
  apply starts_computed. vm_compute. discriminate.
Qed.

(* The three streams below exhibit the library's two C12 time defects (fixed: ac9b0b0, 2f21531). The repaired decoder
   agrees with the reference semantics on them: they are ordinary members of the domain of decode_denote. *)
Example local_first_agrees :
  stream_wf w_local_first = true /\ starts_with_file_id w_local_first = true /\ agree w_local_first = true.
Proof. repeat split; vm_compute; reflexivity. Qed.
Example ts_zero_agrees :
  stream_wf w_ts_zero = true /\ starts_with_file_id w_ts_zero = true /\ agree w_ts_zero = true.
Proof. repeat split; vm_compute; reflexivity. Qed.
Example wrap_zero_agrees :
  stream_wf w_wrap_zero = true /\ starts_with_file_id w_wrap_zero = true /\ agree w_wrap_zero = true.
Proof. repeat split; vm_compute; reflexivity. Qed.

(* the reserved bits 5-6 of a base-type byte: types.Base.Known ignores them (so does [compat]) and the validator admits
   the definition, but parseFitField switches on the whole byte and rejects the data record: the side condition
   [canon_bt] inside [stream_wf] is needed *)
Definition w_reserved : list record :=
  [w_fileid_def; w_fileid; RDef 1 false 34 [mk_sfdef 6 1 0x22] false []; RData 1 [7] []].
