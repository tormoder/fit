(* C06 at stream level, first piece (encode_is_serialize): the bytes Encode writes are the framed
   serialisation of the record list [file_recs] (Spec/EncLayout.v), and that list is laid out as [lay]
   describes: definition + data record per message of a pointer slot, one definition + one data record per
   message for a slice slot.  The walk over the encoder that shows it is C05Grammar.encode_slots_lay_recs (C05
   rests on the same lemma); here: the records are well formed (stream_wf), the list starts with file_id, and
   the frame around it (wire_header). *)
From Coq Require Import NArith ZArith List Bool Lia String.
From Coq Require Import ZifyN ZifyNat ZifyBool.
From FitV Require Proofs.ProfileProofs.
From FitV Require Import Model.Values Model.Bytes Model.Base Model.Profile Model.Crc Model.Header
  Model.Components Model.Route Model.Encode Spec.CrcSpec Spec.FitSyntax Spec.Grammar Spec.RoundTrip
  Proofs.Util Proofs.BytesUtil Proofs.CrcProofs Proofs.EncodeProofs Proofs.C05Grammar Proofs.C06Defs Proofs.StreamDenoteDefs Proofs.StreamDenoteMain Proofs.StreamDenoteFrame Proofs.StreamDenoteDecode
  Gen.Consts Gen.ProfileData Gen.RoutingData.
Import ListNotations.
Local Open Scope N_scope.
Ltac Zify.zify_post_hook ::= Z.div_mod_to_equations.

Lemma rdef_wf be m fields parts : menc be m fields parts -> is_bytes (ser_record (rdef_of be (m_num m) fields)) ->
  rec_wf (rdef_of be (m_num m) fields) = true.
Proof.
  intros (Hfp & _ & _ & Hcov) Hb. unfold rec_wf. rewrite (is_bytes_all_bytes _ Hb). unfold rdef_of.
  replace (m_num m <? 65536) with true by (symmetry; apply N.ltb_lt, (covers_num_lt _ _ Hcov)). cbn [andb].
  rewrite forallb_map_comp. apply forallb_forall. intros pf Hin. rewrite Forall_forall in Hfp.
  destruct (from_profile_ok0 _ _ (Hfp pf Hin)) as (md & _ & Hok). apply N.eqb_eq, (e0_base _ _ Hok).
Qed.

Lemma rdata_wf parts : is_bytes (ser_record (rdata_of parts)) -> rec_wf (rdata_of parts) = true.
Proof. intros Hb. unfold rec_wf. rewrite (is_bytes_all_bytes _ Hb). reflexivity. Qed.

(* record by record, so that the bytes need not be taken apart along the layout *)
Lemma lay_rec_wf be ms rs : lay be ms rs ->
  Forall (fun r => is_bytes (ser_record r) -> rec_wf r = true) rs.
Proof.
  induction 1 as [|mn fields group partss ms rs Hne Hg HF IH] using lay_groups; constructor.
  - destruct HF as [|m0 p0 gr ps0 Hm0 _]; [congruence|]. inversion Hg as [|? ? <- _]. exact (rdef_wf _ _ _ _ Hm0).
  - apply Forall_app. split; [|exact IH]. apply Forall_map, Forall_forall. intros p _. apply rdata_wf.
Qed.

Lemma lay_stream_wf be ms rs : lay be ms rs -> is_bytes (ser_records rs) -> stream_wf rs = true.
Proof.
  intros H Hb. apply Forall_flat_map in Hb. pose proof (lay_rec_wf _ _ _ H) as Hw. rewrite Forall_forall in Hb, Hw.
  apply forallb_forall. intros r Hin. exact (Hw r Hin (Hb r Hin)).
Qed.

Lemma lay_starts be m0 rest rs : lay be (m0 :: rest) rs -> m_num m0 = c_MesgNumFileId ->
  starts_with_file_id rs = true.
Proof.
  intros H Hn. remember (m0 :: rest) as ms0 eqn:E. revert E.
  induction H as [|mn fields group partss ms rs Hne Hg HF _] using lay_groups; intros E; [discriminate|].
  destruct HF as [|g0 p0 gr ps0 _ _]; [congruence|]. injection E as <- _. inversion Hg as [|? ? <- _].
  unfold starts_with_file_id, rdef_of. cbn [map app]. unfold rdata_of. now rewrite Hn.
Qed.

(* the header on the wire: the File's header with the data size written; its CRC field is the one
   Encode computed (14-byte header) or absent (12-byte header) *)
Definition wire_header (hf : header) (dsz : N) : header :=
  mk_header (h_size hf) (h_proto hf) (h_profile hf) dsz fit_dtype
            (if h_size hf =? 14 then checksum (hdr12 (h_size hf) (h_proto hf) (h_profile hf) dsz) else 0).

Lemma wire_header_bytes12 hf dsz : header_bytes12 (wire_header hf dsz) = hdr12 (h_size hf) (h_proto hf) (h_profile hf) dsz.
Proof. apply header_bytes12_eq. reflexivity. Qed.

Lemma wire_header_bytes hf dsz :
  let b12 := hdr12 (h_size hf) (h_proto hf) (h_profile hf) dsz in
  hdr_bytes (wire_header hf dsz) = b12 ++ (if h_size hf =? 14 then put_le16 (checksum b12) else []).
Proof.
  unfold hdr_bytes. rewrite wire_header_bytes12. unfold wire_header. cbn [h_size h_crc]. change c_headerSizeCRC with 14.
  destruct (h_size hf =? 14); [reflexivity|now rewrite app_nil_r].
Qed.

Lemma wire_header_wf hf dsz : wf_header hf = true -> proto_ok (h_proto hf) = true -> h_profile hf < 65536 -> dsz < 4294967296 ->
  header_wf (wire_header hf dsz).
Proof.
  intros Hwf Hpo Hpr Hd. unfold wf_header in Hwf. apply andb_true_iff in Hwf as [Hwf _]. apply andb_true_iff in Hwf as [Hsz Hp].
  apply N.ltb_lt in Hp. unfold header_wf. rewrite wire_header_bytes12. unfold wire_header. cbn [h_size h_proto h_profile h_dsize h_dtype h_crc].
  apply orb_true_iff in Hsz as [E|E]; apply N.eqb_eq in E; rewrite E.
  - split; [right; reflexivity|]. repeat split; try assumption; try reflexivity. intros C. discriminate C.
  - split; [left; reflexivity|]. repeat split; try assumption; try reflexivity. + intros C. discriminate C. + intros _. right. reflexivity.
Qed.

(* encode_is_serialize with the record list named: it is [file_recs] *)
Theorem encode_is_serialize_recs f be bs f' :
  wf_file f = true -> wf_header (f_header f) = true ->
  proto_ok (h_proto (f_header f)) = true -> h_profile (f_header f) < 65536 ->
  encode f be = EOk (bs, f') -> N.of_nat (List.length bs) < 4294967296 ->
  let rs := file_recs f be in
  let h := wire_header (f_header f) (N.of_nat (List.length (ser_records rs))) in
  bs = fit_file h rs /\ header_wf h /\ h_dsize h = N.of_nat (List.length (ser_records rs)) /\
  lay be (file_msgs f) rs /\ stream_wf rs = true /\ starts_with_file_id rs = true.
Proof.
  intros Hwf Hh Hpo Hpr Henc Hlen.
  destruct (encode_layout f be bs f' Hh Henc Hlen) as (data & Hdata & Hdb & Hdl & Hrest).
  cbv zeta in Hrest. destruct Hrest as (Hbs & _).
  destruct (wf_file_inv f Hwf) as (cn & descs & m0 & sr & _ & Efe & Hsw & Es & Hn0).
  unfold enc_data in Hdata. unfold file_recs. rewrite Efe in Hdata |- *.
  destruct (encode_slots_lay_recs be descs 0 (f_slots f) Hsw _ Hdata) as (Hlay & ->).
  cbv zeta. set (rs := slots_recs be 0 descs (f_slots f)) in *.
  split; [|split; [|split; [|split; [|split]]]].
  - unfold fit_file, frame_bytes, file_crc. rewrite wire_header_bytes. exact Hbs.
  - now apply wire_header_wf.
  - reflexivity.
  - now rewrite file_msgs_visible.
  - exact (lay_stream_wf be _ rs Hlay Hdb).
  - rewrite Es in Hlay. exact (lay_starts be m0 _ rs Hlay Hn0).
Qed.

Theorem encode_is_serialize f be bs f' :
  wf_file f = true -> wf_header (f_header f) = true ->
  proto_ok (h_proto (f_header f)) = true -> h_profile (f_header f) < 65536 ->
  encode f be = EOk (bs, f') -> N.of_nat (List.length bs) < 4294967296 ->
  exists rs, let h := wire_header (f_header f) (N.of_nat (List.length (ser_records rs))) in
    bs = fit_file h rs /\ header_wf h /\ h_dsize h = N.of_nat (List.length (ser_records rs)) /\
    lay be (file_msgs f) rs /\ stream_wf rs = true /\ starts_with_file_id rs = true.
Proof. intros Hwf Hh Hpo Hpr Henc Hlen. exists (file_recs f be). now apply (encode_is_serialize_recs f be bs f'). Qed.
