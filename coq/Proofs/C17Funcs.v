(* Semantic tie of the C17 coordinate and time models to the current latlng.go and time.go: Gen/C17Funcs.v is the two
   source files translated function by function on every check (harness/gen_c17funcs.go); the lemmas below prove that
   every translated function computes, on EVERY argument, what the hand-written models Model/LatLng.v and
   Model/FitTime.v (the ones the C17 theorems are about) compute: latlng_translated for the coordinate half,
   time_translated (go_timeBase_is, go_IsBaseTime_is, go_decodeDateTime_is, go_encodeTime_is) for the time half.
   The proofs do not depend on the shape of the source: integer tests are decided by case analysis
   on the comparisons + lia, float tests by case analysis on the IEEE comparison results -- a behaviour-preserving
   rewrite (merged or reordered tests, helper functions, constants given names) keeps them, a changed bound, operator,
   sentinel, factor or format argument breaks them. *)
From Coq Require Import ZArith Bool String Lia.
From Flocq Require Import Core IEEE754.BinarySingleNaN IEEE754.Binary IEEE754.Bits.
From FitV Require Import Model.LatLng Model.FitTime Gen.C17Funcs.
Local Open Scope Z_scope.

Lemma lat_min_val : lat_min = -1073741824. Proof. reflexivity. Qed.
Lemma lat_max_val : lat_max = 1073741823. Proof. reflexivity. Qed.

(* every definition of the translated file (hint database go_src, filled by the translator: helper functions the
   source introduces are seen through as well) and of the model that the case analysis has to see through *)
Ltac open_defs :=
  repeat autounfold with go_src in *;
  cbv beta delta [new_latitude new_latitude_invalid lat_invalid lat_semis lat_semicircles
                  new_longitude new_longitude_invalid lng_invalid lng_semis lng_semicircles
                  new_latitude_degrees new_longitude_degrees lat_degrees lng_degrees lat_string lng_string
                  sint32_invalid string_invalid is_i32 min_int32 max_int32
                  deg_to_semi semi_to_deg go_pow_small pow_2_31] in *;
  rewrite ?lat_min_val, ?lat_max_val in *.

Ltac int_cases :=
  repeat match goal with
  | |- context [Z.eqb ?a ?b] => destruct (Z.eqb_spec a b)
  | |- context [Z.ltb ?a ?b] => destruct (Z.ltb_spec a b)
  | |- context [Z.leb ?a ?b] => destruct (Z.leb_spec a b)
  | |- context [Z.gtb ?a ?b] => destruct (Z.gtb_spec a b)
  | |- context [Z.geb ?a ?b] => destruct (Z.geb_spec a b)
  end.

Lemma b64_compare_swap x y :
  b64_compare y x = match b64_compare x y with Some c => Some (CompOpp c) | None => None end.
Proof. apply Bcompare_swap. Qed.

(* comparisons written with the constant on the left are turned round first, so that `180 <= d` and `d >= 180`
   are analysed as one comparison *)
Ltac float_cases :=
  cbv beta delta [b64_ge b64_le b64_lt b64_gt b64_eq];
  repeat match goal with
  | |- context [b64_compare (b64_of_Z ?c) ?d] =>
      lazymatch d with b64_of_Z _ => fail | _ => rewrite (b64_compare_swap d (b64_of_Z c)) end
  end;
  repeat match goal with
  | |- context [b64_compare ?a ?b] => let c := fresh "c" in destruct (b64_compare a b) as [c|]; [destruct c|]
  end.

(* the integer tests first: they close the functions on int32 alone; the float tests are analysed in what is left *)
Ltac decide_eq := intros; open_defs; int_cases; try reflexivity; try lia; float_cases; cbn [orb andb negb]; reflexivity.

Lemma go_degToSemiFactor_is : go_var_degToSemiFactor = deg_to_semi. Proof. reflexivity. Qed.
Lemma go_semiToDegFactor_is : go_var_semiToDegFactor = semi_to_deg. Proof. reflexivity. Qed.
Lemma go_format_float_lib x : go_format_float x 102 5 32 = format_f5_32 x. Proof. reflexivity. Qed.

Lemma go_NewLatitude_is s : is_i32 s -> go_NewLatitude s = lat_semicircles (new_latitude s).
Proof. decide_eq. Qed.
Lemma go_NewLatitudeInvalid_is : go_NewLatitudeInvalid = lat_semicircles new_latitude_invalid.
Proof. decide_eq. Qed.
Lemma go_Latitude_Semicircles_is s : is_i32 s -> go_Latitude_Semicircles s = lat_semis (mk_lat s).
Proof. decide_eq. Qed.
Lemma go_Latitude_Invalid_is s : is_i32 s -> go_Latitude_Invalid s = lat_invalid (mk_lat s).
Proof. decide_eq. Qed.
Lemma go_NewLongitude_is s : is_i32 s -> go_NewLongitude s = lng_semicircles (new_longitude s).
Proof. decide_eq. Qed.
Lemma go_NewLongitudeInvalid_is : go_NewLongitudeInvalid = lng_semicircles new_longitude_invalid.
Proof. decide_eq. Qed.
Lemma go_Longitude_Semicircles_is s : is_i32 s -> go_Longitude_Semicircles s = lng_semis (mk_lng s).
Proof. decide_eq. Qed.
Lemma go_Longitude_Invalid_is s : is_i32 s -> go_Longitude_Invalid s = lng_invalid (mk_lng s).
Proof. decide_eq. Qed.

(* functions with float64 arguments or results: all arguments (NaN and infinities included) *)
Lemma go_NewLatitudeDegrees_is d : go_NewLatitudeDegrees d = lat_semicircles (new_latitude_degrees d).
Proof. decide_eq. Qed.
Lemma go_NewLongitudeDegrees_is d : go_NewLongitudeDegrees d = lng_semicircles (new_longitude_degrees d).
Proof. decide_eq. Qed.
Lemma go_Latitude_Degrees_is s : is_i32 s -> go_Latitude_Degrees s = lat_degrees (mk_lat s).
Proof. decide_eq. Qed.
Lemma go_Longitude_Degrees_is s : is_i32 s -> go_Longitude_Degrees s = lng_degrees (mk_lng s).
Proof. decide_eq. Qed.
Lemma go_Latitude_String_is s : is_i32 s -> go_Latitude_String s = lat_string (mk_lat s).
Proof. intros H. unfold go_Latitude_String, lat_string. rewrite ?(go_Latitude_Degrees_is s H), ?go_format_float_lib. decide_eq. Qed.
Lemma go_Longitude_String_is s : is_i32 s -> go_Longitude_String s = lng_string (mk_lng s).
Proof. intros H. unfold go_Longitude_String, lng_string. rewrite ?(go_Longitude_Degrees_is s H), ?go_format_float_lib. decide_eq. Qed.

(* time.go: IsBaseTime, decodeDateTime, encodeTime on every argument.  The package variable timeBase
   (time.Date on constants) is evaluated to the model's time_base; operands of the wrapped int64 product may come in
   either order *)
Ltac time_eq :=
  intros; repeat autounfold with go_src;
  repeat match goal with
  | |- context [go_time_date ?y ?m ?d ?h ?mi ?s ?ns ?l] =>
      let v := eval vm_compute in (go_time_date y m d h mi s ns l) in
      change (go_time_date y m d h mi s ns l) with v
  end;
  cbv beta zeta delta [is_base_time decode_date_time encode_time time_base second];
  first [ reflexivity | repeat (f_equal; try lia) ].

Lemma go_timeBase_is : go_var_timeBase = time_base.
Proof. vm_compute. reflexivity. Qed.
Lemma go_IsBaseTime_is t : go_IsBaseTime t = is_base_time t.
Proof. time_eq. Qed.
Lemma go_decodeDateTime_is dt : go_decodeDateTime dt = decode_date_time dt.
Proof. time_eq. Qed.
Lemma go_encodeTime_is t : go_encodeTime t = encode_time t.
Proof. time_eq. Qed.

Lemma time_translated :
  go_var_timeBase = time_base /\ (forall t, go_IsBaseTime t = is_base_time t) /\
  (forall dt, go_decodeDateTime dt = decode_date_time dt) /\ (forall t, go_encodeTime t = encode_time t).
Proof. exact (conj go_timeBase_is (conj go_IsBaseTime_is (conj go_decodeDateTime_is go_encodeTime_is))). Qed.

Lemma latlng_translated :
  (forall s, is_i32 s -> go_NewLatitude s = lat_semicircles (new_latitude s) /\
                         go_Latitude_Semicircles s = lat_semis (mk_lat s) /\
                         go_Latitude_Invalid s = lat_invalid (mk_lat s) /\
                         go_Latitude_Degrees s = lat_degrees (mk_lat s) /\
                         go_Latitude_String s = lat_string (mk_lat s) /\
                         go_NewLongitude s = lng_semicircles (new_longitude s) /\
                         go_Longitude_Semicircles s = lng_semis (mk_lng s) /\
                         go_Longitude_Invalid s = lng_invalid (mk_lng s) /\
                         go_Longitude_Degrees s = lng_degrees (mk_lng s) /\
                         go_Longitude_String s = lng_string (mk_lng s)) /\
  (forall d, go_NewLatitudeDegrees d = lat_semicircles (new_latitude_degrees d) /\
             go_NewLongitudeDegrees d = lng_semicircles (new_longitude_degrees d)) /\
  go_NewLatitudeInvalid = lat_semicircles new_latitude_invalid /\
  go_NewLongitudeInvalid = lng_semicircles new_longitude_invalid.
Proof.
  (* no [repeat split]: [split] also applies to an equation (eq has one constructor) and then asks the kernel to
     convert its two sides *)
  split; [|split; [|split]].
  - intros s H.
    exact (conj (go_NewLatitude_is s H) (conj (go_Latitude_Semicircles_is s H) (conj (go_Latitude_Invalid_is s H)
          (conj (go_Latitude_Degrees_is s H) (conj (go_Latitude_String_is s H) (conj (go_NewLongitude_is s H)
          (conj (go_Longitude_Semicircles_is s H) (conj (go_Longitude_Invalid_is s H)
          (conj (go_Longitude_Degrees_is s H) (go_Longitude_String_is s H)))))))))).
  - intros d. exact (conj (go_NewLatitudeDegrees_is d) (go_NewLongitudeDegrees_is d)).
  - exact go_NewLatitudeInvalid_is.
  - exact go_NewLongitudeInvalid_is.
Qed.
