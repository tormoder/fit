(* C07: the compressed_speed_distance array length defect (known finding csd_array_length), as a witness on
   the models: RecordMsg.expandComponents expands the array only when it has exactly 3 bytes; a definition may
   give field 8 another size; Encode pads or cuts the array to the 3 bytes of the profile; the next Decode
   expands it.  Speed and Distance of that record differ between generation 1 and generation 2. *)
From Coq Require Import NArith ZArith List Bool String.
From FitV Require Import Model.Values Model.Bytes Model.Base Model.Profile Model.Header Model.IO Model.Components Model.Route
  Model.Encode Model.Decode Spec.FitSyntax Spec.RoundTrip Proofs.StreamDenoteFrame Proofs.StreamDenoteDecode.
Import ListNotations.
Local Open Scope N_scope.

(* file_id (activity), then a record whose definition gives compressed_speed_distance (field 8, byte) the
   bytes [pay] *)
Definition csd_stream (pay : list N) : list record :=
  [RDef 0 false 0 [mk_sfdef 0 1 0] false []; RData 0 [4] [];
   RDef 0 false 20 [mk_sfdef 8 (N.of_nat (List.length pay)) 13] false []; RData 0 pay []].
Definition csd_hdr (pay : list N) : header :=
  mk_header 12 16 2215 (N.of_nat (List.length (ser_records (csd_stream pay)))) fit_dtype 0.
Definition csd_reader (pay : list N) : reader := mk_reader (fit_file (csd_hdr pay) (csd_stream pay)) [] TEOF false 0.

Definition decode_file (rd : reader) (fuel : nat) : option file :=
  match entry_Decode no_opts g_init rd fuel with
  | TDone r => match dr_err r with None => dr_file r | Some _ => None end
  | _ => None
  end.
Definition first_record (f : file) : option msg :=
  match filter (fun m => m_num m =? 20) (List.concat (f_slots f)) with m :: _ => Some m | [] => None end.
(* generation 1 = Decode of the stream; generation 2 = Decode of Encode of generation 1; both from g_init *)
Definition gens (pay : list N) : option (file * file) :=
  match decode_file (csd_reader pay) 200 with
  | Some f1 =>
      match encode f1 false with
      | EOk (bs, _) => match decode_file (mk_reader bs [] TEOF false 0) 400 with Some f2 => Some (f1, f2) | None => None end
      | _ => None
      end
  | None => None
  end.

(* what the two generations hold for the record: (array, Speed, Distance) *)
Definition csd_obs (pay : list N) : option (goval * goval * goval * (goval * goval * goval) * bool) :=
  match gens pay with
  | Some (f1, f2) =>
      match first_record f1, first_record f2 with
      | Some m1, Some m2 =>
          Some (fld m1 "CompressedSpeedDistance", fld m1 "Speed", fld m1 "Distance",
                (fld m2 "CompressedSpeedDistance", fld m2 "Speed", fld m2 "Distance"), content_eq7 f1 f2)
      | _, _ => None
      end
  | None => None
  end.
