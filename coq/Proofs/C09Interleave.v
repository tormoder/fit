(* C09: concurrent calls over the interleaving semantics of Model/Shared.v. *)
From Coq Require Import NArith ZArith List Bool Lia.
From FitV Require Import Model.Values Model.IO Model.Header Model.Components Model.Route Model.Decode Model.Shared
  Proofs.Util Proofs.C08Route Proofs.C08History.
Import ListNotations.
Local Open Scope N_scope.

Definition done_thread (c : call) : thread := mk_thread [] g_init (Some (fresh c)).
Definition tinv (c : call) (t : thread) : Prop := t = spawn c \/ t = done_thread c.

Lemma exec_quiet c t g i : no_accumulated_source c -> tinv c t ->
  fst (exec_step t g) = done_thread c /\ snd (exec_step t g) = g /\ step_event i t = [].
Proof.
  intros H [->| ->].
  - apply no_accumulated_sourceb_spec in H. unfold spawn, call_steps, exec_step, step_event. rewrite H. cbn. repeat split.
  - unfold done_thread, exec_step, step_event. cbn. repeat split.
Qed.

Lemma F2_nth_error {A B} (P : A -> B -> Prop) l1 l2 : Forall2 P l1 l2 ->
  forall i, orel P (nth_error l1 i) (nth_error l2 i).
Proof. induction 1; intros [|i]; cbn; auto. Qed.

(* while every call is free of accumulated sources, no step touches the shared
   accumulators, no access event is recorded, and a thread that has run has
   returned the result of the fresh call *)
Lemma interleave_quiet cs : Forall no_accumulated_source cs ->
  forall sched ts g tr, Forall2 tinv cs ts ->
  let x := interleave sched ts g tr in
  Forall2 tinv cs (fst (fst x)) /\ snd (fst x) = g /\ snd x = tr /\
  (forall i c, nth_error cs i = Some c -> (In i sched \/ nth_error ts i = Some (done_thread c)) ->
     nth_error (fst (fst x)) i = Some (done_thread c)).
Proof.
  intros Hcs. rewrite Forall_forall in Hcs.
  induction sched as [|i rest IH]; intros ts g tr HI; cbn [interleave].
  - cbn [fst snd]. repeat split; try assumption. intros i c Hc [[]|H]. exact H.
  - pose proof (F2_nth_error _ _ _ HI i) as Hi.
    destruct (nth_error ts i) as [t|] eqn:Ht, (nth_error cs i) as [c|] eqn:Hc; try contradiction.
    + (* thread i executes c: it ends up done, whatever it was *)
      destruct (exec_quiet c t g i (Hcs c (nth_error_In _ _ Hc)) Hi) as (E1 & E2 & E3). rewrite E1, E2, E3, app_nil_r.
      destruct (IH (upd i (done_thread c) ts) g tr (F2_set_nth_r _ _ _ _ _ _ HI Hc (or_intror eq_refl))) as (A & B & C & D).
      refine (conj A (conj B (conj C (fun j c' Hc' Hj => D j c' Hc' _)))).
      destruct (Nat.eq_dec i j) as [<-|Hne].
      * right. rewrite Hc in Hc'. injection Hc' as <-. apply (nth_error_set_nth_same _ ts i), nth_error_Some. congruence.
      * rewrite (nth_error_set_nth_other _ ts j i) by congruence.
        destruct Hj as [[Hj|Hj]|Hj]; [contradiction|left; exact Hj|right; exact Hj].
    +
      destruct (IH ts g tr HI) as (A & B & C & D).
      refine (conj A (conj B (conj C (fun j c' Hc' Hj => D j c' Hc' _)))).
      destruct Hj as [[<-|Hj]|Hj]; [congruence|left; exact Hj|right; exact Hj].
Qed.

Lemma spawn_inv cs : Forall2 tinv cs (map spawn cs).
Proof. induction cs; constructor; [left; reflexivity|assumption]. Qed.

(* noninterference: if no call has an accumulated source then, for every
   schedule, every call that has returned returned what it returns run alone
   (from the same accumulators, which is also what a fresh process returns),
   no conflicting access pair exists, the accumulators are unchanged, and
   every call that was scheduled at least once has returned *)
Theorem noninterference cs : Forall no_accumulated_source cs -> forall sched g, gwf g ->
  let x := run_concurrent sched cs g in
  (forall i o, nth_error (results x) i = Some (Some o) ->
     exists c, nth_error cs i = Some c /\ o = fst (run_call g c) /\ o = fresh c) /\
  races (trace x) = [] /\ trace x = [] /\ snd (fst x) = g /\
  (forall i, In i sched -> (i < List.length cs)%nat -> exists o, nth_error (results x) i = Some (Some o)).
Proof.
  intros H sched g W.
  destruct (interleave_quiet cs H sched (map spawn cs) g [] (spawn_inv cs)) as (A & B & C & D).
  cbv zeta. unfold run_concurrent, results, trace.
  split; [|split; [rewrite C; reflexivity|split; [exact C|split; [exact B|]]]].
  - intros i o Hn. rewrite nth_error_map in Hn. pose proof (F2_nth_error _ _ _ A i) as Hi.
    destruct (nth_error (fst (fst (interleave sched (map spawn cs) g []))) i) as [t|]; [|discriminate Hn].
    destruct (nth_error cs i) as [c|] eqn:Hc; [|contradiction]. destruct Hi as [->| ->]; [discriminate Hn|].
    injection Hn as <-. exists c. split; [reflexivity|]. split; [|reflexivity].
    rewrite Forall_forall in H. rewrite (call_untouched c g W (H c (nth_error_In _ _ Hc))). reflexivity.
  - intros i Hi Hl. destruct (nth_error cs i) as [c|] eqn:Hc; [|apply nth_error_None in Hc; lia].
    exists (fresh c). rewrite nth_error_map. rewrite (D i c Hc (or_introl Hi)). reflexivity.
Qed.

Definition res_distances (r : option (option obs)) : list N :=
  match r with Some (Some o) => record_distances o | _ => [] end.

(* two concurrent decodes of csd_call: thread 1 loads the accumulators after
   thread 0 has stored them: a conflicting pair, and thread 1's Distances differ
   from those it returns alone *)
Theorem race_refuted : exists c0 c1 sched,
  let x := run_concurrent sched [c0; c1] g_init in
  races (trace x) <> [] /\ all_returned x = true /\
  nth_error (results x) 1 <> Some (Some (fresh c1)) /\
  no_accumulated_sourceb c0 = false /\ no_accumulated_sourceb c1 = false.
Proof.
  exists csd_call, csd_call, [0; 0; 1; 1]%nat. cbv zeta.
  split; [|split; [|split; [|split]]].
  - assert (E : List.length (races (trace (run_concurrent [0; 0; 1; 1]%nat [csd_call; csd_call] g_init))) = 3%nat)
      by (vm_compute; reflexivity).
    intro H. rewrite H in E. discriminate E.
  - vm_compute. reflexivity.
  - intro H. apply (f_equal res_distances) in H.
    assert (E1 : res_distances (nth_error (results (run_concurrent [0; 0; 1; 1]%nat [csd_call; csd_call] g_init)) 1) = [4146; 4196])
      by (vm_compute; reflexivity).
    assert (E2 : res_distances (Some (Some (fresh csd_call))) = [50; 100]) by exact (proj2 csd_fresh_distances).
    rewrite E1, E2 in H. discriminate H.
  - vm_compute. reflexivity.
  - vm_compute. reflexivity.
Qed.

(* a race need not show in any result: both threads load before either stores
   (a lost update), or the accumulator is one whose value never moves (cycles) *)
Theorem race_without_result_difference : exists c sched,
  let x := run_concurrent sched [c; c] g_init in
  List.length (races (trace x)) = 3%nat /\
  map res_distances (map Some (results x)) = [res_distances (Some (Some (fresh c))); res_distances (Some (Some (fresh c)))] /\
  no_distance_sourceb c = true /\ no_accumulated_sourceb c = false.
Proof.
  exists cycles_call, [0; 1; 0; 1]%nat. cbv zeta. split; [|split; [|split]]; vm_compute; reflexivity.
Qed.
