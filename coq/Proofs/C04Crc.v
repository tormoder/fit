(* C04 (a): CRC algebra for byte strings of any length.  The checksum fold is XOR-linear: crc_linear_from in
   (state, message), crc_linear for the checksum, which starts from state 0.  So the residue of a corrupted frame
   with residue 0 is the checksum of the error string alone (burst_detected), and a non-zero error pattern confined
   to 16 contiguous stream bits, least significant bit first, has a non-zero checksum whatever the length of the
   string (burst16_nonzero, from the closed form update_err_bytes of CrcProofs.v).  In the opposite bit numbering CRC-16/ARC itself misses the error string 01 C1 C0
   (burst16_msbfirst_refuted). *)
From Coq Require Import NArith List Lia Bool Arith.
From FitV Require Import Gen.CrcTable Model.Crc Spec.CrcSpec Spec.Burst Proofs.Util Proofs.CrcProofs.
Import ListNotations.
Local Open Scope N_scope.

Lemma xorl_length : forall a e, length (xorl a e) = length a.
Proof. induction a as [|x a IH]; intros [|y e]; cbn; try reflexivity. now rewrite IH. Qed.

Lemma xorl_nil_r : forall a, xorl a [] = a.
Proof. destruct a; reflexivity. Qed.

Theorem crc_linear_from : forall a b c1 c2, length a = length b ->
  update (N.lxor c1 c2) (xorl a b) = N.lxor (update c1 a) (update c2 b).
Proof.
  unfold update. induction a as [|x a IH]; intros [|y b] c1 c2 Hl; cbn in Hl; try discriminate.
  - reflexivity.
  - cbn [xorl fold_left]. rewrite update_byte_linear. apply IH. lia.
Qed.

Theorem crc_linear : forall a b, length a = length b ->
  checksum (xorl a b) = N.lxor (checksum a) (checksum b).
Proof. intros a b H. unfold checksum. rewrite <- (crc_linear_from a b 0 0 H). reflexivity. Qed.

Theorem zero_step_injective : forall c1 c2, c1 < 65536 -> c2 < 65536 ->
  update_byte c1 0 = update_byte c2 0 -> c1 = c2.
Proof.
  intros c1 c2 H1 H2 E. rewrite !update_is_arc, !arc_step_sh, !N.lxor_0_r in E by (assumption || reflexivity).
  apply N.lxor_eq, (sh_kernel 8); [now apply lxor_lt16|].
  rewrite lin_sh, E. apply N.lxor_nilpotent.
Qed.

Lemma update_zeros_0 : forall k, update 0 (repeat 0 k) = 0.
Proof. unfold update. induction k as [|k IH]; cbn; [reflexivity|exact IH]. Qed.

Lemma err_bytes_length : forall n v, length (err_bytes n v) = n.
Proof. induction n as [|n IH]; intros v; cbn; [reflexivity|now rewrite IH]. Qed.

Lemma err_bytes_lt : forall n v, Forall (fun b => b < 256) (err_bytes n v).
Proof.
  induction n as [|n IH]; intros v; cbn; constructor; [apply (land_ones_lt v 8)|apply IH].
Qed.

(* the numbering: stream bit j (bit j mod 8 of byte j div 8) of the string is bit j of the number *)
Lemma err_bytes_bit : forall n v j, (j < 8 * n)%nat ->
  N.testbit (nth (Nat.div j 8) (err_bytes n v) 0) (N.of_nat (Nat.modulo j 8)) = N.testbit v (N.of_nat j).
Proof.
  induction n as [|n IH]; intros v j Hj; [lia|].
  destruct (Nat.ltb_spec j 8) as [L|L].
  - rewrite Nat.div_small, Nat.mod_small by assumption. cbn [err_bytes nth].
    change 255 with (N.ones 8). rewrite N.land_spec, N.ones_spec_low by lia. apply andb_true_r.
  - replace j with (8 + (j - 8))%nat at 1 2 by lia.
    replace (8 + (j - 8))%nat with ((j - 8) + 1 * 8)%nat by lia.
    rewrite Nat.div_add, Nat.mod_add by discriminate.
    replace ((j - 8) / 8 + 1)%nat with (S ((j - 8) / 8)) by lia. cbn [err_bytes nth].
    rewrite IH by lia. rewrite N.shiftr_spec by apply N.le_0_l. f_equal. lia.
Qed.

Lemma err_bytes_0 : forall n, err_bytes n 0 = repeat 0 n.
Proof. induction n as [|n IH]; cbn; [reflexivity|]. now rewrite IH. Qed.

(* the first off steps bring the pattern down to the low end unchanged, and no later step of a
   non-zero 16-bit register gives zero *)
Theorem burst16_nonzero : forall n off p, burst16 n off p -> checksum (burst n off p) <> 0.
Proof.
  intros n off p [Hp Hfit] E. unfold checksum, burst in E.
  assert (Hoff : off <= 8 * N.of_nat n).
  { apply N.lt_le_incl, (N.pow_lt_mono_r_iff 2); [reflexivity|].
    eapply N.le_lt_trans; [|exact Hfit]. rewrite N.shiftl_mul_pow2. nia. }
  rewrite update_err_bytes, N.lxor_0_l in E by (reflexivity || assumption).
  replace (8 * N.of_nat n) with (8 * N.of_nat n - off + off) in E by lia.
  rewrite sh_add, sh_shiftl in E. apply sh_kernel in E; lia.
Qed.

Theorem burst_detected : forall frame off p,
  checksum frame = 0 -> burst16 (length frame) off p ->
  checksum (xorl frame (burst (length frame) off p)) <> 0.
Proof.
  intros frame off p H0 Hb. rewrite crc_linear by (unfold burst; now rewrite err_bytes_length).
  rewrite H0, N.lxor_0_l. now apply burst16_nonzero.
Qed.

(* the corrupted string differs from the original (the error is not the zero string) *)
Lemma burst_nonzero_string : forall n off p, burst16 n off p -> burst n off p <> repeat 0 n.
Proof.
  intros n off p Hb E. apply (burst16_nonzero n off p Hb). rewrite E. apply update_zeros_0.
Qed.

Lemma xorl_zeros : forall a m, xorl a (repeat 0 m) = a.
Proof.
  induction a as [|x a IH]; intros [|m]; cbn; try reflexivity. now rewrite N.lxor_0_r, IH.
Qed.

Lemma xorl_short : forall a e, (length e <= length a)%nat ->
  xorl a e = xorl a (e ++ repeat 0 (length a - length e)).
Proof.
  induction a as [|x a IH]; intros [|y e] Hl.
  - reflexivity.
  - cbn in Hl. lia.
  - cbn [app]. now rewrite xorl_zeros.
  - cbn [xorl app length Nat.sub]. f_equal. apply IH. cbn in Hl. lia.
Qed.

(* zero bytes only step the register *)
Lemma update_zeros k c : c < 65536 -> update c (repeat 0 k) = sh (8 * N.of_nat k) c.
Proof. intros Hc. now rewrite <- err_bytes_0, update_err_bytes, N.lxor_0_r by (assumption || apply pow2_pos). Qed.

(* byte-aligned corollary: an error confined to two adjacent whole bytes (the same in both bit numberings);
   the zero bytes before it leave the register at 0, those after it only step it *)
Theorem two_byte_error_detected : forall frame k x y,
  checksum frame = 0 -> (k + 2 <= length frame)%nat -> x < 256 -> y < 256 -> (x <> 0 \/ y <> 0) ->
  checksum (xorl frame (repeat 0 k ++ [x; y])) <> 0.
Proof.
  intros frame k x y H0 Hk Hx Hy Hxy.
  rewrite xorl_short, crc_linear, H0, N.lxor_0_l by (rewrite ?app_length, ?repeat_length; cbn; lia).
  unfold checksum. rewrite !update_app, update_zeros_0.
  replace [x; y] with (err_bytes 2 (x + 256 * y)).
  - assert (Hv : x + 256 * y < 65536) by lia.
    rewrite (update_err_bytes 2 0 _ eq_refl Hv), N.lxor_0_l, update_zeros by now apply sh_lt.
    intros E. apply sh_kernel, sh_kernel in E; [lia|assumption|now apply sh_lt].
  - cbn [err_bytes]. change 255 with (N.ones 8). rewrite !N.land_ones, N.shiftr_div_pow2. change (2 ^ 8) with 256.
    now rewrite (N.mul_comm 256 y), N.mod_add, N.div_add, (N.div_small x), !N.mod_small by (assumption || discriminate).
Qed.

Lemma xorl_is_bytes : forall a e, is_bytes a -> is_bytes e -> is_bytes (xorl a e).
Proof.
  induction a as [|x a IH]; intros [|y e] Ha He; cbn; try assumption.
  inversion Ha; inversion He; subst. constructor; [|now apply IH].
  change 256 with (2 ^ 8). now apply lxor_lt_pow2.
Qed.

(* the error string 01 C1 C0 occupies stream bits 7..17 in MSB-first numbering (an 11-bit run:
   it is the big-endian number 0x707 * 2^6) and CRC-16/ARC maps it to 0: no implementation of
   the FIT checksum can detect it.  A fact about the checksum, not about this library. *)
Theorem burst16_msbfirst_refuted : exists n sh p,
  0 < p < 65536 /\ N.shiftl p sh < 2 ^ (8 * N.of_nat n) /\
  burst_msb n sh p = [0x01; 0xC1; 0xC0] /\ checksum (burst_msb n sh p) = 0 /\ arc (burst_msb n sh p) = 0.
Proof. exists 3%nat, 6, 0x707. repeat split; vm_compute; reflexivity. Qed.
