(* C06: field-level codec round trips: what the decoder's field parsers read from the bytes the encoder's
   field writers wrote.  Each goes through the reference reading of the bytes (Spec/FitSyntax.v: wire_unsigned,
   wire_signed, split_every, upto_nul): the encoder's bytes read back as the value that was written (here;
   C06Denote.v uses these facts as they are), and the decoder's parsers agree with the reference reading on
   any bytes (Proofs/StreamDenoteField.v, Proofs/StreamDenoteArith.v). *)
From Coq Require Import NArith ZArith List Bool Lia String.
From Coq Require Import ZifyN ZifyNat ZifyBool.
From FitV Require Import Model.Values Model.Bytes Model.Base Model.Profile Model.Reflect Model.Encode Model.Decode
  Spec.FitSyntax Spec.ProfileWf Spec.Grammar Spec.RoundTrip Proofs.Util Proofs.BytesUtil Proofs.ProfileProofs Proofs.EncodeProofs
  Proofs.C05Grammar Proofs.C05Wire Proofs.C07Fixpoint Proofs.StreamDenoteArith Proofs.StreamDenoteField Gen.ProfileData Gen.Consts.
Import ListNotations.
Local Open Scope N_scope.
Ltac Zify.zify_post_hook ::= Z.div_mod_to_equations.

Lemma get_val_put_int be n x : get_val be (put_int be n x) = x mod 256 ^ N.of_nat n.
Proof. unfold get_val, put_int. destruct be; [rewrite be_val_rev|]; apply le_val_le_bytes. Qed.

Lemma get_val_put_whole be bits x : 8 * N.of_nat (nbytes bits) = bits -> x < 2 ^ bits ->
  get_val be (put_int be (nbytes bits) x) = x.
Proof.
  intros Hw Hx. rewrite get_val_put_int. change 256 with (2 ^ 8). rewrite <- N.pow_mul_r, Hw. now apply N.mod_small.
Qed.

Lemma get_val_put_int4 be x : x < 4294967296 -> get_val be (put_int be 4 x) = x.
Proof. exact (get_val_put_whole be 32 x eq_refl). Qed.

(* the 32-bit word the decoder reads for the time / coordinate kinds *)
Lemma u32_put_int be sg x : x < 4294967296 -> get32 be (extend4 be sg (put_int be 4 x)) = x.
Proof. intros H. rewrite extend4_whole, get32_val by apply put_int_length. now apply get_val_put_int4. Qed.

Lemma wrap_u_id bits x : x < 2 ^ bits -> wrap_u bits x = x.
Proof. exact (wrap_u_small bits x). Qed.

Lemma wire_signed_put be bits z : 0 < bits -> 8 * N.of_nat (nbytes bits) = bits ->
  (- Z.of_N (2 ^ (bits - 1)) <= z <= Z.of_N (2 ^ (bits - 1)) - 1)%Z ->
  wire_signed be (put_int be (nbytes bits) (of_signed bits z)) = z.
Proof.
  intros Hb Hw Hz. unfold wire_signed.
  rewrite put_int_length, Hw, (get_val_put_whole be bits _ Hw (of_signed_lt bits z)). apply wrap_s_small; [exact Hb|lia].
Qed.

Lemma wire_signed_put32 be z : (-2147483648 <= z <= 2147483647)%Z -> wire_signed be (put_int be 4 (of_signed 32 z)) = z.
Proof. exact (wire_signed_put be 32 z eq_refl eq_refl). Qed.

Definition enc_elem (be : bool) (ty : gotype) (v : goval) : list N :=
  match ty, v with
  | TU bits, VU n => put_int be (nbytes bits) (n mod 2 ^ bits)
  | TI bits, VI z => put_int be (nbytes bits) (of_signed bits z)
  | _, _ => []
  end.

Definition int_ty (ty : gotype) : Prop :=
  match ty with TU bits | TI bits => 0 < bits /\ 8 * N.of_nat (nbytes bits) = bits | _ => False end.

Definition ty_bytes (ty : gotype) : N := match ty with TU b | TI b => b / 8 | _ => 0 end.

Lemma z_in_iff lo hi z : z_in lo hi z = true <-> (lo <= z <= hi)%Z.
Proof. unfold z_in. rewrite andb_true_iff, !Z.leb_le. tauto. Qed.

Lemma bw_enc_elem be ty x : int_ty ty -> val_has_type ty x = true -> bw be ty x = EOk (enc_elem be ty x).
Proof.
  intros Hi Hx. destruct ty; try contradiction; destruct x; try discriminate Hx; reflexivity.
Qed.

Lemma enc_elem_len be ty x : int_ty ty -> val_has_type ty x = true ->
  List.length (enc_elem be ty x) = N.to_nat (ty_bytes ty).
Proof.
  intros Hi Hx. destruct ty; try contradiction; destruct x; try discriminate Hx; apply put_int_length.
Qed.

Lemma int_ty_bytes_pos ty : int_ty ty -> (0 < N.to_nat (ty_bytes ty))%nat.
Proof. destruct ty; try contradiction; intros [Hb Hw]; unfold nbytes in Hw; cbn [ty_bytes]; lia. Qed.

Lemma elem_rt be ty sg x : int_ty ty -> val_has_type ty x = true ->
  embed ty sg (wire_unsigned be (enc_elem be ty x)) (wire_signed be (enc_elem be ty x)) = x.
Proof.
  intros Hi Hx. destruct ty; try contradiction; destruct Hi as [Hb Hw]; destruct x; try discriminate Hx;
    cbn [val_has_type] in Hx; cbn [enc_elem embed]; f_equal.
  - apply N.ltb_lt in Hx. rewrite N.mod_small by exact Hx. now apply get_val_put_whole.
  - apply z_in_iff in Hx. now apply wire_signed_put.
Qed.

(* the Go type for which encode then decode is the identity, per base type byte;
   the tests are in the order of parse_fit_field *)
Definition codec_ty (bt : N) : option gotype :=
  if is_u8like bt then Some (TU 8)
  else if bt =? base_sint8 then Some (TI 8)
  else if bt =? base_sint16 then Some (TI 16)
  else if (bt =? base_uint16) || (bt =? base_uint16z) then Some (TU 16)
  else if bt =? base_sint32 then Some (TI 32)
  else if (bt =? base_uint32) || (bt =? base_uint32z) then Some (TU 32)
  else None.

Lemma codec_ty_cases (P : N -> gotype -> Prop) :
  P 0 (TU 8) -> P 1 (TI 8) -> P 2 (TU 8) -> P 10 (TU 8) -> P 13 (TU 8) -> P 131 (TI 16) -> P 132 (TU 16) ->
  P 133 (TI 32) -> P 134 (TU 32) -> P 139 (TU 16) -> P 140 (TU 32) ->
  forall bt ty, codec_ty bt = Some ty -> P bt ty.
Proof.
  intros until ty. intros Hc. unfold codec_ty, is_u8like in Hc.
  repeat match type of Hc with
  | context[?a =? ?b] => destruct (N.eqb_spec a b) as [->|_]; [injection Hc as <-; assumption|]
  end.
  discriminate Hc.
Qed.

Lemma codec_ty_int bt ty : codec_ty bt = Some ty -> int_ty ty.
Proof. revert bt ty. apply codec_ty_cases; split; reflexivity. Qed.

(* what the base tables say about each of them: to the encoder (Invalid(), its Go type and size) and to the
   decoder (the Go type parseFitField stores, sign, canonical base type byte) *)
Lemma codec_facts_ok bt ty : codec_ty bt = Some ty ->
  b_known bt = Some true /\ (bt =? base_string) = false /\ invalid_type bt = Some ty /\
  b_size bt = Some (ty_bytes ty) /\ (exists iv, b_invalid bt = Some iv /\ val_has_type ty iv = true) /\
  gotype_of_base bt = ty /\ N.land bt 0x60 = 0 /\ In bt storable_list /\ scalar_facts bt bt (ty_bytes ty).
Proof.
  revert bt ty. apply codec_ty_cases.
  (* per base type: split proves the equations by evaluating the table entries; left are the invalid value
     (found in its table), membership in storable_list, and scalar_facts (three more table entries) *)
  all: repeat split;
    [eexists; split; reflexivity | cbn [In storable_list]; tauto | do 3 eexists; repeat split; discriminate].
Qed.

Lemma rt_scalar : forall be pf fd ty v bs,
  (fit_kind (pf_t pf) =? kind_native) = true -> (fit_base (pf_t pf) =? base_string) = false ->
  codec_ty (fd_btype fd) = Some ty -> val_has_type ty v = true ->
  encode_value be pf ty v = EOk bs -> parse_fit_field be fd bs ty = FSet v.
Proof.
  intros be pf fd ty v bs Hk Hs Hc Hv He. pose proof (encode_value_bytes _ _ _ _ _ He) as Hb.
  pose proof (codec_ty_int _ _ Hc) as Hi.
  rewrite (encode_value_native be pf ty v Hk), Hs, (bw_enc_elem be ty v Hi Hv) in He. injection He as <-.
  destruct (codec_facts_ok _ _ Hc) as (Hkn & Hns & _ & _ & _ & Hgt & Hcan & Hin & Hsf). apply N.eqb_neq in Hns.
  (* the decoder reads what the reference semantics reads: parse_fit_field looks at fd_btype only *)
  pose proof (scalar_agree be 0 _ _ _ _ Hkn Hcan Hin Hns Hsf (enc_elem_len be ty v Hi Hv) (is_bytes_all_bytes _ Hb)) as A.
  rewrite Hgt in A. etransitivity; [exact A|]. f_equal. now apply elem_rt.
Qed.

Definition opt_ty_eqb (a b : option gotype) : bool :=
  match a, b with Some x, Some y => gotype_eqb x y | None, None => true | _, _ => false end.

Lemma opt_ty_eqb_eq a b : opt_ty_eqb a b = true -> a = b.
Proof.
  destruct a, b; cbn [opt_ty_eqb]; intros H; try discriminate H; try reflexivity.
  f_equal. apply gotype_eqb_eq, H.
Qed.

Definition expected_ty (t : N) : option gotype :=
  let k := fit_kind t in
  if fit_array t then
    if fit_base t =? base_string then Some (TSlice TStr)
    else match codec_ty (fit_base t) with Some ty => Some (TSlice ty) | None => None end
  else if (k =? kind_timeutc) || (k =? kind_timelocal) then Some TTime
  else if k =? kind_lat then Some TLat
  else if k =? kind_lng then Some TLng
  else if k =? kind_native then
    if fit_base t =? base_string then Some TStr else codec_ty (fit_base t)
  else None.

Definition entry_typed (gmn : N) (e : N * pfield) : bool :=
  let pf := snd e in
  opt_ty_eqb (expected_ty (pf_t pf)) (field_type gmn (pf_sindex pf)) && (pf_num pf =? fst e) && (pf_length pf <? 256).

Lemma profile_types_ok_b :
  forallb (fun m => forallb (entry_typed (md_num m)) (md_entries m)) messages = true.
Proof. vm_compute; reflexivity. Qed.

Lemma profile_types_ok : forall m num pf, In m messages -> In (num, pf) (md_entries m) ->
  expected_ty (pf_t pf) = field_type (md_num m) (pf_sindex pf) /\ pf_num pf = num /\ pf_length pf < 256.
Proof.
  intros m num pf Hm He.
  pose proof profile_types_ok_b as H. rewrite forallb_forall in H. specialize (H m Hm).
  rewrite forallb_forall in H. specialize (H (num, pf) He). unfold entry_typed in H. cbn [snd fst] in H.
  rewrite !andb_true_iff in H. destruct H as [[H1 H2] H3].
  split; [apply opt_ty_eqb_eq, H1|]. split; [apply N.eqb_eq, H2|apply N.ltb_lt, H3].
Qed.

Lemma expected_ty_scalar t : (fit_kind t =? kind_native) = true -> fit_array t = false ->
  (fit_base t =? base_string) = false -> expected_ty t = codec_ty (fit_base t).
Proof. intros Hk Ha Hs. unfold expected_ty. cbv zeta. apply N.eqb_eq in Hk. now rewrite Ha, Hs, Hk. Qed.

Lemma get_field_expected_ty gmn fdn pf : get_field gmn fdn = Some pf ->
  expected_ty (pf_t pf) = field_type gmn (pf_sindex pf) /\ pf_num pf = fdn /\ pf_length pf < 256.
Proof.
  intros Hg. destruct (get_field_inv _ _ _ Hg) as (m & Hf & He). destruct (find_msg_in _ _ Hf) as [Hm <-].
  exact (profile_types_ok m fdn pf Hm He).
Qed.

Lemma get_field_codec_ty gmn fdn pf : get_field gmn fdn = Some pf ->
  (fit_kind (pf_t pf) =? kind_native) = true -> fit_array (pf_t pf) = false ->
  (fit_base (pf_t pf) =? base_string) = false ->
  codec_ty (fit_base (pf_t pf)) = field_type gmn (pf_sindex pf).
Proof.
  intros Hg Hk Ha Hs. rewrite <- (expected_ty_scalar _ Hk Ha Hs). apply (get_field_expected_ty _ _ _ Hg).
Qed.

Lemma utf8_fuel_zeros : forall k f, (k <= f)%nat -> utf8_valid_fuel f (repeat 0 k) = true.
Proof. induction k as [|k IH]; intros [|f] H; try reflexivity; [lia|]. apply IH. lia. Qed.

Lemma utf8_fuel_pad k : forall f s f', utf8_valid_fuel f s = true -> (f + k <= f')%nat ->
  utf8_valid_fuel f' (s ++ repeat 0 k) = true.
Proof.
  induction f as [|f IH]; intros s f' H Hle.
  - destruct s; [|discriminate H]. apply utf8_fuel_zeros. lia.
  - destruct s as [|b r]; [apply utf8_fuel_zeros; lia|].
    destruct f' as [|f']; [lia|]. assert (Hle' : (f + k <= f')%nat) by lia.
    cbn [app]. cbn [utf8_valid_fuel] in *.
    destruct (b <? 128); [now apply IH|].
    (* a leading byte: its continuation bytes are tested as they were, and the rest has less fuel *)
    destruct (in_rng 194 223 b); [destruct r as [|c1 r']|
      destruct (in_rng 224 239 b); [destruct r as [|c1 [|c2 r']]|
        destruct (in_rng 240 244 b); [destruct r as [|c1 [|c2 [|c3 r']]]|]]]; try discriminate H.
    all: apply andb_true_iff in H as [H1 H2]; cbn [app]; rewrite H1; now apply IH.
Qed.

Lemma utf8_valid_pad s k : utf8_valid s = true -> utf8_valid (s ++ repeat 0 k) = true.
Proof.
  unfold utf8_valid. intros H. apply (utf8_fuel_pad k _ s _ H). rewrite app_length, repeat_length. lia.
Qed.

Lemma encode_string_fits s size : utf8_valid s = true -> N.of_nat (List.length s) + 1 <= size ->
  encode_string s size = EOk (s ++ repeat 0 (N.to_nat size - List.length s)).
Proof.
  intros Hu Hl. unfold encode_string.
  destruct (N.eqb_spec size 0) as [E|_]; [lia|].
  replace (Nat.min (List.length s) (N.to_nat size - 1)) with (List.length s) by lia.
  rewrite firstn_all. rewrite (utf8_valid_pad s _ Hu). reflexivity.
Qed.

Lemma upto_nul_pad : forall s k, forallb (fun b => (0 <? b) && (b <? 256)) s = true -> upto_nul (s ++ repeat 0 (S k)) = s.
Proof.
  induction s as [|a s IH]; intros k H; [reflexivity|].
  cbn [forallb] in H. apply andb_true_iff in H as [Ha H]. apply andb_true_iff in Ha as [Ha _]. apply N.ltb_lt in Ha.
  cbn [app upto_nul]. destruct (N.eqb_spec a 0) as [E|_]; [lia|]. f_equal. now apply IH.
Qed.

Lemma rt_string : forall be fd s size,
  forallb (fun b => (0 <? b) && (b <? 256)) s = true -> utf8_valid s = true ->
  N.of_nat (List.length s) + 1 <= size -> fd_btype fd = base_string ->
  encode_string s size = EOk (s ++ repeat 0 (N.to_nat size - List.length s)) /\
  parse_fit_field be fd (s ++ repeat 0 (N.to_nat size - List.length s)) TStr =
    match s with [] => FKeep | _ => FSet (VStr s) end.
Proof.
  intros be fd s size Hnz Hu Hl Hbt. split; [apply encode_string_fits; assumption|].
  change (parse_fit_field be fd ?b TStr) with (parse_fit_field be (mk_fdef 0 0 (fd_btype fd)) b TStr).
  rewrite Hbt, string_agree.
  destruct (N.to_nat size - List.length s)%nat as [|k] eqn:Hk; [lia|].
  rewrite (upto_nul_pad s k Hnz). destruct s; reflexivity.
Qed.

(* the field-level form: through encode_value on a string field of the profile *)
Lemma rt_string_field : forall be pf fd s bs,
  (fit_kind (pf_t pf) =? kind_native) = true -> (fit_base (pf_t pf) =? base_string) = true ->
  forallb (fun b => (0 <? b) && (b <? 256)) s = true -> utf8_valid s = true ->
  N.of_nat (List.length s) + 1 <= pf_length pf -> fd_btype fd = base_string ->
  encode_value be pf TStr (VStr s) = EOk bs ->
  parse_fit_field be fd bs TStr = match s with [] => FKeep | _ => FSet (VStr s) end.
Proof.
  intros be pf fd s bs Hk Hs Hnz Hu Hl Hbt He.
  destruct (rt_string be fd s (pf_length pf) Hnz Hu Hl Hbt) as [H1 H2].
  rewrite (encode_value_native be pf _ _ Hk), Hs, H1 in He. injection He as <-. exact H2.
Qed.

(* the five tests on the kind of a profile type, decided together: it is one of the five kinds, or none *)
Inductive kind_spec (k : N) : bool -> bool -> bool -> bool -> bool -> Prop :=
| ks_native : k = kind_native -> kind_spec k true false false false false
| ks_timeutc : k = kind_timeutc -> kind_spec k false true false false false
| ks_timelocal : k = kind_timelocal -> kind_spec k false false true false false
| ks_lat : k = kind_lat -> kind_spec k false false false true false
| ks_lng : k = kind_lng -> kind_spec k false false false false true
| ks_other : kind_spec k false false false false false.

Lemma kind_specP k :
  kind_spec k (k =? kind_native) (k =? kind_timeutc) (k =? kind_timelocal) (k =? kind_lat) (k =? kind_lng).
Proof.
  destruct (N.eqb_spec k kind_native) as [->|_]; [now constructor|].
  destruct (N.eqb_spec k kind_timeutc) as [->|_]; [now constructor|].
  destruct (N.eqb_spec k kind_timelocal) as [->|_]; [now constructor|].
  destruct (N.eqb_spec k kind_lat) as [->|_]; [now constructor|].
  destruct (N.eqb_spec k kind_lng) as [->|_]; now constructor.
Qed.

Lemma encode_time_id s : (0 <= s <= 4294967294)%Z -> encode_time s 0 = Z.to_N s.
Proof. intros H. rewrite encode_time_whole by lia. f_equal. apply Z.mod_small. lia. Qed.

Definition zone_off (zone : option Z) : Z := match zone with Some o => o | None => 0%Z end.

Lemma encode_time_local_id s zone : (-8589934592 <= s <= 8589934592)%Z ->
  (0 <= s + zone_off zone <= 4294967294)%Z ->
  encode_time_local s 0 zone = Z.to_N (s + zone_off zone).
Proof.
  intros Hs H. unfold encode_time_local. fold (zone_off zone). rewrite encode_time_whole by lia.
  f_equal. rewrite Z2N.id by (apply Z.mod_pos_bound; reflexivity).
  rewrite Zplus_mod_idemp_l. apply Z.mod_small. lia.
Qed.

(* without the bound on s the subtraction saturates at the int64 limits *)
Lemma encode_time_local_saturates :
  encode_time_local 10000000000 0 (Some (-9999999995)%Z) <> Z.to_N (10000000000 + -9999999995).
Proof. vm_compute. discriminate. Qed.

Lemma parse_time_stamp_utc st s num : (0 <= s <= 4294967294)%Z ->
  fst (parse_time_stamp st (Z.to_N s) kind_timeutc num) = Some (VTime s 0 None).
Proof.
  intros H. unfold parse_time_stamp.
  destruct (N.eqb_spec (Z.to_N s) 4294967295) as [E|_]; [lia|].
  change (kind_timeutc =? kind_timeutc) with true. cbv iota. cbn [fst].
  unfold decode_date_time. rewrite Z2N.id by lia. reflexivity.
Qed.

Lemma norm_field_local pf s n zone : fit_kind (pf_t pf) = kind_timelocal -> fit_array (pf_t pf) = false ->
  norm_field pf (VTime s n zone) = VTime (s + zone_off zone) n None.
Proof.
  intros Hk Ha. unfold norm_field. rewrite Ha, Hk. reflexivity.
Qed.

Lemma norm_field_utc pf s n zone : fit_kind (pf_t pf) = kind_timeutc -> fit_array (pf_t pf) = false ->
  norm_field pf (VTime s n zone) = VTime s n None.
Proof.
  intros Hk Ha. unfold norm_field. rewrite Ha, Hk. reflexivity.
Qed.

(* whatever the decoder's reference time is, the wall clock reading is the one put in *)
Lemma parse_time_stamp_local st s zone num pf : (0 <= s + zone_off zone <= 4294967294)%Z ->
  fit_kind (pf_t pf) = kind_timelocal -> fit_array (pf_t pf) = false ->
  exists v', fst (parse_time_stamp st (Z.to_N (s + zone_off zone)) kind_timelocal num) = Some v' /\
             norm_field pf v' = norm_field pf (VTime s 0 zone).
Proof.
  intros H Hk Ha. unfold parse_time_stamp.
  destruct (N.eqb_spec (Z.to_N (s + zone_off zone)) 4294967295) as [E|_]; [lia|].
  change (kind_timelocal =? kind_timeutc) with false. cbv iota.
  rewrite (norm_field_local pf s 0 zone Hk Ha).
  destruct (negb (ds_hasts st) || (ds_ts st <? c_systemTimeMarker)); cbn [fst]; eexists; (split; [reflexivity|]);
    rewrite (norm_field_local pf _ _ _ Hk Ha); cbn [zone_off]; f_equal; lia.
Qed.

Lemma s32_put_int be sg z : (-2147483648 <= z <= 2147483647)%Z ->
  to_signed 32 (get32 be (extend4 be sg (put_int be 4 (of_signed 32 z)))) = z.
Proof.
  intros H. rewrite (u32_put_int be sg _ (of_signed_lt 32 z)). apply (wrap_s_small 32); [reflexivity|].
  change (Z.of_N (2 ^ (32 - 1))) with 2147483648%Z. lia.
Qed.

(* the elements of an array have the element type (C07Reencode.all_typed is another thing: the slots of a File hold typed messages) *)
Definition all_typed (ty : gotype) (l : list goval) : Prop := forall x, In x l -> val_has_type ty x = true.

Lemma econcat_bw be ty : int_ty ty -> forall l, all_typed ty l ->
  econcat (map (bw be ty) l) = EOk (List.concat (map (enc_elem be ty) l)).
Proof.
  intros Hi. induction l as [|x r IH]; intros Hl; [reflexivity|].
  cbn [map econcat List.concat].
  rewrite (bw_enc_elem be ty x Hi) by (apply Hl; left; reflexivity).
  rewrite IH by (intros y Hy; apply Hl; right; exact Hy). reflexivity.
Qed.

Lemma write_field_array_int be pf ty iv l bs :
  fit_array (pf_t pf) = true -> (fit_kind (pf_t pf) =? kind_native) = true ->
  codec_ty (fit_base (pf_t pf)) = Some ty -> b_invalid (fit_base (pf_t pf)) = Some iv ->
  N.of_nat (List.length l) <= pf_length pf -> pf_length pf < 256 -> all_typed ty l ->
  write_field be pf (TSlice ty) (VList l) = EOk bs ->
  let L := l ++ repeat iv (N.to_nat (pf_length pf) - List.length l) in
  all_typed ty L /\ bs = List.concat (map (enc_elem be ty) L).
Proof.
  intros Ha Hk Hc Hiv Hl Hp Ht Hw L.
  destruct (codec_facts_ok _ _ Hc) as (Hkn & Hs & Hit & _ & (iv' & Hiv' & Htiv) & _).
  rewrite Hiv in Hiv'. injection Hiv' as <-.
  assert (HL : all_typed ty L).
  { intros x Hx. apply in_app_or in Hx as [Hx|Hx]; [now apply Ht|]. apply repeat_spec in Hx. now subst x. }
  split; [exact HL|].
  unfold write_field in Hw. rewrite Ha, Hs, Hkn, Hiv, Hit in Hw. cbn [negb] in Hw. cbv iota zeta beta in Hw.
  rewrite (N.mod_small (N.of_nat (List.length l)) 256) in Hw by lia.
  destruct (N.ltb_spec (pf_length pf) (N.of_nat (List.length l))) as [E|_]; [lia|].
  rewrite Nat2N.id, firstn_all in Hw. cbn [elem_type] in Hw.
  assert (Hn : forall x, encode_value be pf ty x = bw be ty x) by (intros x; now rewrite (encode_value_native be pf ty x Hk), Hs).
  assert (E : econcat (map (bw be ty) L) = EOk bs).
  { rewrite <- Hw. unfold L. rewrite (map_ext _ _ Hn), map_app, map_repeat', Hn.
    replace (N.to_nat (pf_length pf) - List.length l)%nat with (N.to_nat (pf_length pf - N.of_nat (List.length l))) by lia.
    now destruct (N.to_nat _). }
  rewrite (econcat_bw be ty (codec_ty_int _ _ Hc) _ HL) in E. now injection E.
Qed.

Lemma enc_list_rt be ty sg l : int_ty ty -> all_typed ty l ->
  let buf := List.concat (map (enc_elem be ty) l) in
  List.length buf = (List.length l * N.to_nat (ty_bytes ty))%nat /\
  map (fun e => embed ty sg (wire_unsigned be e) (wire_signed be e))
      (split_every (N.to_nat (ty_bytes ty)) (List.length buf) buf) = l.
Proof.
  intros Hi Hl buf.
  assert (Hall : Forall (fun q => List.length q = N.to_nat (ty_bytes ty)) (map (enc_elem be ty) l)).
  { apply Forall_map, Forall_forall. intros x Hx. apply enc_elem_len; [exact Hi|now apply Hl]. }
  pose proof (concat_length_eq _ _ Hall) as Hlen. rewrite map_length in Hlen. fold buf in Hlen.
  split; [exact Hlen|]. pose proof (int_ty_bytes_pos _ Hi) as Hpos. unfold buf at 2.
  (* split_every is the function Grammar.chunk *)
  change split_every with chunk. rewrite chunk_concat; [|exact Hpos|exact Hall|rewrite map_length; nia].
  rewrite map_map. transitivity (map (fun x => x) l); [apply map_ext_in|apply map_id].
  intros x Hx. apply elem_rt; [exact Hi|now apply Hl].
Qed.

Lemma rt_array : forall be pf fd ty iv l bs,
  fit_array (pf_t pf) = true -> (fit_kind (pf_t pf) =? kind_native) = true ->
  codec_ty (fit_base (pf_t pf)) = Some ty -> fd_btype fd = fit_base (pf_t pf) ->
  b_invalid (fit_base (pf_t pf)) = Some iv ->
  N.of_nat (List.length l) <= pf_length pf -> pf_length pf < 256 -> all_typed ty l ->
  write_field be pf (TSlice ty) (VList l) = EOk bs ->
  parse_fit_field_array be fd bs (TSlice ty) =
    FSet (VList (l ++ repeat iv (N.to_nat (pf_length pf) - List.length l))).
Proof.
  intros be pf fd ty iv l bs Ha Hk Hc Hfd Hiv Hlen Hp Hl He. pose proof (write_field_bytes _ _ _ _ _ He) as Hb.
  destruct (write_field_array_int be pf ty iv l bs Ha Hk Hc Hiv Hlen Hp Hl He) as [HL ->].
  destruct (codec_facts_ok _ _ Hc) as (_ & Hns & _ & Hbs & _ & Hgt & _ & Hin & _). apply N.eqb_neq in Hns.
  set (L := l ++ repeat iv (N.to_nat (pf_length pf) - List.length l)) in *.
  pose proof (codec_ty_int _ _ Hc) as Hi.
  destruct (enc_list_rt be ty (match b_signed (fit_base (pf_t pf)) with Some s => s | None => false end) L Hi HL) as [Elen Ert].
  assert (Hmod : N.of_nat (List.length (List.concat (map (enc_elem be ty) L))) mod ty_bytes ty = 0).
  { rewrite Elen, Nat2N.inj_mul, N2Nat.id. apply N.mod_mul. pose proof (int_ty_bytes_pos _ Hi). lia. }
  (* parse_fit_field_array looks at fd_btype only *)
  pose proof (array_agree be 0 _ _ _ _ Hin Hns Hbs Hmod (eq_sym (Nat2N.id _)) (is_bytes_all_bytes _ Hb)) as A.
  rewrite Hgt, Ert, <- Hfd in A. exact A.
Qed.

(* trailing invalid padding disappears under the comparator *)
Lemma strip_trailing_pad bt iv : is_inv bt iv = true -> forall k, strip_trailing bt (repeat iv k) = [].
Proof.
  intros Hi. induction k as [|k IH]; [reflexivity|]. cbn [repeat strip_trailing]. rewrite IH, Hi. reflexivity.
Qed.

Lemma strip_trailing_app_pad bt iv k : is_inv bt iv = true ->
  forall l, strip_trailing bt (l ++ repeat iv k) = strip_trailing bt l.
Proof.
  intros Hi. induction l as [|x r IH]; [apply strip_trailing_pad, Hi|].
  cbn [app strip_trailing]. rewrite IH. reflexivity.
Qed.

Lemma norm_field_array_pad pf iv l k : fit_array (pf_t pf) = true -> (fit_base (pf_t pf) =? base_string) = false ->
  is_inv (fit_base (pf_t pf)) iv = true ->
  norm_field pf (VList (l ++ repeat iv k)) = norm_field pf (VList l).
Proof.
  intros Ha Hs Hi. unfold norm_field. rewrite Ha, Hs. cbn [elems].
  rewrite (strip_trailing_app_pad _ iv k Hi l). reflexivity.
Qed.

Lemma codec_is_inv bt iv : b_invalid bt = Some iv -> is_inv bt iv = true.
Proof. intros Hiv. unfold is_inv. rewrite Hiv. apply goval_eqb_refl. Qed.
