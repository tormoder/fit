(* C09 -- Concurrent use on independent inputs is race-free and equals sequential use.

   PARTIAL.  Model/Shared.v gives calls an interleaving semantics: a thread executes one call as a sequence of
   atomic steps over (its private state, the shared package-level accumulators); a schedule picks the thread
   that moves next.  A call that reaches no accumulating expansion is one private step (justified by
   C09_call_untouched: from ANY accumulator state such a call returns the fresh result and leaves the state as
   it was; the simulation behind it, Proofs/C08Decode.v, shows this at every intermediate decoder state); a call
   that reaches one loads and later stores the accumulators without synchronisation.  Nothing in the library
   orders two calls (no sync-typed package-level variable is used on these paths, C09_no_sync_global_used), so
   two accesses of different threads to a common accumulator, one of them a store, are a data race.

   FULL STATEMENT (refuted, known finding accum_race): for all calls on independent inputs and all schedules,
   races = [] and every call returns what it returns alone.  Proved under the exact side condition that no call
   reaches an accumulating expansion (compressed_speed_distance, cycles, compressed_accumulated_power in a
   record message); C09_race_refuted gives two decodes with a conflicting pair and a differing result,
   C09_race_without_result_difference a race that no result shows (cycles: mask 0).

   NOT modelled, hence not proved: the Go runtime and scheduler, the Go memory model, the race detector, the
   internals of the standard library (reflect, time, encoding/binary, sort), independence of the readers and
   writers passed in.  The race-detector run of the harness (c09) is a test, not a proof. *)
From Coq Require Import NArith List Bool String.
From FitV Require Import Model.IO Model.Header Model.Components Model.Route Model.Decode Model.Shared
  Gen.SharedState Proofs.C08History Proofs.C08Shared Proofs.C09Interleave.
Import ListNotations.

Theorem C09_noninterference : forall cs, Forall no_accumulated_source cs -> forall sched g, gwf g ->
  let x := run_concurrent sched cs g in
  (forall i o, nth_error (results x) i = Some (Some o) ->
     exists c, nth_error cs i = Some c /\ o = fst (run_call g c) /\ o = fresh c) /\
  races (trace x) = [] /\ trace x = [] /\ snd (fst x) = g /\
  (forall i, In i sched -> (i < List.length cs)%nat -> exists o, nth_error (results x) i = Some (Some o)).
Proof. exact noninterference. Qed.
Print Assumptions C09_noninterference.

(* the adequacy of the one-private-step abstraction *)
Theorem C09_call_untouched : forall c g, gwf g -> no_accumulated_source c -> run_call g c = (fresh c, g).
Proof. exact call_untouched. Qed.
Print Assumptions C09_call_untouched.

Theorem C09_race_refuted : exists c0 c1 sched,
  let x := run_concurrent sched [c0; c1] g_init in
  races (trace x) <> [] /\ all_returned x = true /\
  nth_error (results x) 1 <> Some (Some (fresh c1)) /\
  no_accumulated_sourceb c0 = false /\ no_accumulated_sourceb c1 = false.
Proof. exact race_refuted. Qed.
Print Assumptions C09_race_refuted.

Theorem C09_race_without_result_difference : exists c sched,
  let x := run_concurrent sched [c; c] g_init in
  List.length (races (trace x)) = 3%nat /\
  map res_distances (map Some (results x)) = [res_distances (Some (Some (fresh c))); res_distances (Some (Some (fresh c)))] /\
  no_distance_sourceb c = true /\ no_accumulated_sourceb c = false.
Proof. exact race_without_result_difference. Qed.

(* translator obligations shared with C08 *)
Theorem C09_written_globals_are_gstate : written_globals = map snd gstate_variables.
Proof. exact written_globals_are_gstate. Qed.
Theorem C09_no_sync_global_used : sync_globals_used = [].
Proof. exact no_sync_global_used. Qed.

Theorem C09_side_condition_decidable : forall c, no_accumulated_sourceb c = true <-> no_accumulated_source c.
Proof. exact no_accumulated_sourceb_spec. Qed.
(* the hypothesis of noninterference is satisfiable by calls that decode record messages *)
Example C09_example :
  Forall no_accumulated_source [plain_call; plain_call; CEncode (new_file zero_header) false] /\
  all_returned (run_concurrent [2; 0; 1; 1; 0]%nat [plain_call; plain_call; CEncode (new_file zero_header) false] g_init) = true.
Proof.
  split.
  - constructor; [|constructor; [|constructor; [|constructor]]]; apply no_accumulated_sourceb_spec;
      [apply plain_call_ok..|reflexivity].
  - vm_compute. reflexivity.
Qed.
