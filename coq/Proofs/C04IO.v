(* C04: the fuel hypothesis of the statements of Props/C04.v.  [measure rd < fuel] is [wf rd fuel] of
   Proofs/C10IO.v by conversion (the proofs pass the one for the other as it stands); Go's io.ReadFull and io.CopyN
   over the reader oracle are characterised there. *)
From Coq Require Import List.
From FitV Require Import Model.IO Proofs.C10IO.

Definition measure (r : reader) : nat := length (rd_data r) + length (rd_sched r).
