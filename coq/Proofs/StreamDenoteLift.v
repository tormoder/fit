(* Stream-level decode = denote: the whole buffered phase of decode.
   data_prog = file_id definition + file_id data record (parse_file_id_msg), File.init, record loop.
   On the serialisation of any record list the reference semantics accepts, whose first two records are
   the file_id definition and message and whose file type the library has a container for, the abstract
   interpreter ends with success at the end of the data, the File holding exactly the messages of
   [denote], added in stream order.
   The two file_id records are decoded by the lemmas for ordinary records (Rel_def, data_message_ok): before
   File.init only the File half of the invariant is missing, and start_file supplies it. *)
From Coq Require Import NArith ZArith List Bool Lia Arith.
From Coq Require Import ZifyN ZifyNat ZifyBool.
From FitV Require Import Proofs.Util Proofs.BytesUtil Model.Values Model.Bytes Model.Base Model.Profile Model.Reflect Model.IO
  Model.Header Model.Route Model.Components Model.Decode Spec.FitSyntax Spec.RouteSpec Spec.ProfileWf Proofs.ProfileProofs
  Proofs.RouteProofs Proofs.DecodeLemmas Gen.Consts Gen.RoutingData
  Proofs.StreamDenoteBase Proofs.StreamDenoteDefs Proofs.StreamDenoteDef Proofs.StreamDenoteData
  Proofs.StreamDenoteRecord Proofs.StreamDenoteLoop.
Import ListNotations.
Local Open Scope N_scope.
Ltac Zify.zify_post_hook ::= Z.div_mod_to_equations.

Lemma denote_record_msgs s r s' : denote_record s r = Some s' -> exists ms, ss_msgs s' = ss_msgs s ++ ms.
Proof.
  intros E. destruct (denote_record_frame s s r s' (fun _ _ => eq_refl) eq_refl E) as (_ & _ & _ & _ & _ & (ms & H & _) & _).
  now exists ms.
Qed.

Lemma denote_from_msgs : forall rs s s', denote_from s rs = Some s' -> exists ms, ss_msgs s' = ss_msgs s ++ ms.
Proof.
  intros rs s s' H. apply (denote_from_inv (fun a => exists ms, ss_msgs a = ss_msgs s ++ ms) (fun _ => true)) with (3 := H).
  - intros r a b _ E [m1 H1]. destruct (denote_record_msgs _ _ _ E) as [m2 H2]. exists (m1 ++ m2). now rewrite H2, H1, app_assoc.
  - now apply forallb_forall.
  - exists []. now rewrite app_nil_r.
Qed.

(* the first message of the stream starts the File: File.add before init (the FileId field), then init *)
Definition start_file (h : header) (g : gstate) (m0 : msg) : option (file * gstate) :=
  match file_add (new_file h) g m0 with
  | AddOk f1 g1 => match file_init f1 with Some f2 => Some (f2, g1) | None => None end
  | AddPanic _ => None
  end.

(* for a concrete stream the two existence hypotheses of the stream theorems are one evaluation *)
Lemma starts_computed h g rs :
  match denote rs with Some ss => start_file h g (hd dummy_msg (ss_msgs ss)) | None => None end <> None ->
  exists ss f2 g1, denote rs = Some ss /\ start_file h g (hd dummy_msg (ss_msgs ss)) = Some (f2, g1).
Proof.
  destruct (denote rs) as [ss|]; [|intros H; now elim H].
  destruct (start_file h g _) as [[f2 g1]|] eqn:E; [|intros H; now elim H]. intros _. now exists ss, f2, g1.
Qed.

(* the two records of the prologue, one after the other; the second appends the file_id message *)
Lemma split_prologue l be fds (devflag : bool) (devs : list (N * N * N)) pay dev rest ss1 :
  let r1 := RDef l be c_MesgNumFileId fds devflag devs in
  let r2 := RData l pay dev in
  denote (r1 :: r2 :: rest) = Some ss1 ->
  exists ssb, denote_from ss_init [r1; r2] = Some ssb /\ denote_from ssb rest = Some ss1 /\
              hd dummy_msg (ss_msgs ss1) = hd dummy_msg (ss_msgs ssb).
Proof.
  intros r1 r2 Hden. unfold denote in Hden.
  change (r1 :: r2 :: rest) with ([r1; r2] ++ rest) in Hden.
  rewrite denote_from_app in Hden. destruct (denote_from ss_init [r1; r2]) as [ssb|] eqn:Eb; [|discriminate].
  destruct (denote_from_msgs _ _ _ Hden) as [ms Hms]. exists ssb. repeat split; try assumption.
  cbn [denote_from] in Eb. destruct (denote_record ss_init r1) as [ssa|] eqn:E1; [|discriminate].
  destruct (denote_record ssa r2) as [ssb'|] eqn:E2; [|discriminate]. injection Eb as ->.
  subst r1 r2. cbn [denote_record] in E1. destruct (_ || _) in E1; [discriminate|]. injection E1 as <-.
  destruct (known_data_msg _ _ _ _ _ _ _ E2 ltac:(cbn [ss_env]; rewrite lookup_def_cons, N.eqb_refl; reflexivity) known_fileid)
    as (m & Hm & _).
  rewrite Hms, Hm. reflexivity.
Qed.

Lemma prologue_consumes o h g l be fds (devflag : bool) (devs : list (N * N * N)) pay dev ssb f2 g1 :
  rec_wf (RDef l be c_MesgNumFileId fds devflag devs) = true -> rec_wf (RData l pay dev) = true ->
  denote_from ss_init [RDef l be c_MesgNumFileId fds devflag devs; RData l pay dev] = Some ssb ->
  start_file h g (hd dummy_msg (ss_msgs ssb)) = Some (f2, g1) ->
  exists s1 ft,
    consumes (parse_file_id_msg o)
      (ser_record (RDef l be c_MesgNumFileId fds devflag devs) ++ ser_record (RData l pay dev))
      (init_dstate (new_file h) g) tt s1 /\
    file_init (ds_file s1) = Some f2 /\
    Inv o [hd dummy_msg (ss_msgs ssb)] f2 g1 ft (with_file s1 f2 (ds_g s1)) ssb.
Proof.
  intros Hwf1 Hwf2 Hden Hstart. cbn [denote_from] in Hden.
  destruct (denote_record ss_init _) as [ssa|] eqn:E1; [|discriminate].
  destruct (denote_record ssa _) as [ssb'|] eqn:E2; [|discriminate]. injection Hden as ->.
  (* the definition record: Rel from the initial state *)
  destruct (def_accepted _ _ _ _ _ _ _ _ Hwf1 E1) as (El & Hg & Hinv & Ec & Hcan & ->).
  pose proof (Rel_def o _ _ l be _ fds devflag devs (Rel_init o (new_file h) g) El Ec Hcan) as HRa.
  set (dm := mk_defmsg l be c_MesgNumFileId (map to_fdef fds) (if devflag then devs else [])) in *.
  set (sa := with_defs (init_dstate (new_file h) g) _) in *.
  (* the data record *)
  unfold rec_wf in Hwf2. apply andb_prop in Hwf2. destruct Hwf2 as [Hbytes _]. cbn [ser_record] in Hbytes.
  cbn [denote_record] in E2.
  destruct (data_message_ok o sa _ l false l None pay dev ssb HRa (data_header_local l El) eq_refl (payload_bytes _ _ _ Hbytes) E2)
    as (om & s1 & Hrun & HR1 & (_ & Ef & Eg) & Hm).
  destruct (known_data_msg _ _ _ _ _ _ _ E2 ltac:(cbn [ss_env]; rewrite lookup_def_cons, N.eqb_refl; reflexivity) known_fileid)
    as (m & Hm' & Hnum).
  rewrite Hm' in Hm. apply app_inv_head in Hm. destruct om as [m'|]; [|discriminate]. injection Hm as <-.
  cbn [ss_msgs ss_init app sd_gmn] in Hm', Hnum. rewrite Hm' in Hstart |- *. cbn [hd] in Hstart |- *.
  unfold start_file in Hstart.
  destruct (file_add (new_file h) g m) as [f1 g1'|w] eqn:Eadd; [|discriminate].
  destruct (file_init f1) as [f2'|] eqn:Einit; [|discriminate]. injection Hstart as -> ->.
  destruct (file_init_valid _ _ Einit) as [Hft Hinited].
  exists (with_file s1 f1 g1), (file_type f1). split; [|split; [exact Einit|]].
  - destruct (def_header_facts l devflag El) as (_ & Hh2 & Hh3 & Hh4).
    rewrite ser_record_def. cbn [ser_record]. unfold parse_file_id_msg. rewrite <- app_comm_cons. apply consumes_rbyte.
    rewrite Hh2, N.eqb_refl. cbn [negb].
    eapply consumes_bind; [exact (parse_definition_message_ok _ l be _ fds devflag devs _ Hh3 Hh4 Hg Hinv Ec)|].
    cbn [dm_gmn]. rewrite N.eqb_refl. cbn [negb].
    unfold set_def, get_st, put_st. cbn [bind dm_local]. apply consumes_get, consumes_put. fold dm sa.
    apply consumes_rbyte. rewrite N.land_0_r. change (0 =? c_mesgHeaderMask) with true. cbn [negb].
    rewrite <- (app_nil_r (pay ++ dev)). eapply consumes_bind; [exact Hrun|].
    cbv beta iota. rewrite Hnum, N.eqb_refl.
    unfold add_msg, get_st, put_st. cbn [bind]. apply consumes_get. rewrite Ef, Eg.
    change (ds_file sa) with (new_file h). change (ds_g sa) with g. rewrite Eadd. apply consumes_put, consumes_ret.
  - apply Inv_iff. split; [apply (Rel_upd o s1 ssb _ _ HR1); [reflexivity..|exact (rel_c _ _ _ HR1)]|].
    split; [exact Hft|]. split; [exact Hinited|]. exists []. split; [now rewrite Hm'|reflexivity].
Qed.

Lemma data_prog_run o fuel l s s1 f inp t lim :
  consumes (parse_file_id_msg o) l s tt s1 -> file_init (ds_file s1) = Some f -> (List.length l <= lim)%nat ->
  run_a (data_prog o false fuel) (mk_ast (l ++ inp) t 0 lim) s =
  run_a (decode_file_data o fuel) (mk_ast inp t (List.length l) lim) (with_file s1 f (ds_g s1)).
Proof.
  intros Hc Hi Hl. unfold data_prog. rewrite run_bind. fold (ast_at l inp t 0 lim). rewrite (consumes_run _ _ _ _ _ Hc inp t 0%nat lim Hl).
  cbn [rbind]. rewrite run_bind. unfold do_init, get_st, put_st. cbn [bind run_a]. rewrite Hi. reflexivity.
Qed.
