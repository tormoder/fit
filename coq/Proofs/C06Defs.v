(* C06 at stream level: the vocabulary shared by the pieces of the proof.
   - [sfdef_of]: the field definition writeDefMesg writes for a profile entry;
   - [menc]: message m was written under the definition [fields], field by field [parts];
   - [lay]: the record list Encode lays out for a list of messages (definition + data record per message of
     a pointer slot; one definition + one data record per message for a slice slot; local type 0 throughout);
   - [msg_norm_eq]: equality of messages up to the comparison C06 prescribes (norm_msg). *)
From Coq Require Import NArith ZArith List Bool String.
From FitV Require Import Model.Values Model.Bytes Model.Base Model.Profile Model.Components Model.Route Model.Encode
  Spec.FitSyntax Spec.Grammar Spec.RoundTrip Proofs.EncodeProofs.
From FitV Require Export Spec.EncLayout.
Import ListNotations.
Local Open Scope N_scope.

(* the definition mentions every struct field of m that is set: a field that is not mentioned is unset *)
Definition covers (m : msg) (fields : list pfield) : Prop :=
  exists inv, mesg_all_invalid (m_num m) = Some inv /\ List.length (m_fields m) = List.length (m_fields inv) /\
    forall i v iv, nth_error (m_fields m) i = Some v -> nth_error (m_fields inv) i = Some iv ->
      unset v iv = true \/ exists pf, get_field_by_sindex (m_num m) i = Some pf /\ In (pf_num pf) (map pf_num fields).

Definition menc (be : bool) (m : msg) (fields : list pfield) (parts : list (list N)) : Prop :=
  Forall (from_profile (m_num m)) fields /\ NoDup (map pf_num fields) /\
  Forall2 (fun pf p => field_out be m pf = EOk p) fields parts /\ covers m fields.

Inductive lay (be : bool) : list msg -> list record -> Prop :=
| lay_nil : lay be [] []
| lay_unit : forall m fields parts ms rs, menc be m fields parts -> lay be ms rs ->
    lay be (m :: ms) (rdef_of be (m_num m) fields :: rdata_of parts :: rs)
| lay_slice : forall mn fields group partss ms rs, group <> [] -> Forall (fun m => m_num m = mn) group ->
    Forall2 (fun m parts => menc be m fields parts) group partss -> lay be ms rs ->
    lay be (group ++ ms) (rdef_of be mn fields :: map rdata_of partss ++ rs).

Definition msg_norm_eq (m m' : msg) : Prop := m_num m' = m_num m /\ norm_msg m' = norm_msg m.
