(* C19: the row -> (struct field, lookup entry) mapping of the fitgen model. *)
From Coq Require Import NArith List String Ascii Bool Lia.
From FitV Require Import Model.FitgenCore Spec.FitgenSpec Proofs.Util.
Import ListNotations.
Local Open Scope string_scope.
Local Open Scope N_scope.

(* side conditions under which "the row's base type / array flag" as read
   off the profile (Spec) is what the code computes.  They are decidable and
   evaluated by the harness on every enabled row of every case. *)
Definition opt_eqb (a b : option N) : bool :=
  match a, b with
  | Some x, Some y => x =? y
  | None, None => true
  | _, _ => false
  end.

(* resolution of a type cell by Go identifier in the generator's type map ... *)
Definition model_named_base (types : tmap) (tc : string) : option N :=
  match assoc (camel (type_quirk tc)) types with
  | Some b => Some b
  | None => base_from_string tc
  end.
(* ... and by profile name among the declared types *)
Definition spec_named_base (tdecl : list (string * string)) (tc : string) : option N :=
  match lookup tc tdecl with
  | Some b => lookup b fit_base_types
  | None => lookup tc fit_base_types
  end.

Definition starts_slice (s : string) : bool :=
  match s with String "["%char (String "]"%char _) => true | _ => false end.

Definition row_hyp (types : tmap) (tdecl : list (string * string)) (r : row) : bool :=
  let tc := r_type r in
  (* the array cell is not a literal 0 (the code would take [0] for "no array") *)
  negb (String.eqb (trim is_bracket (r_array r)) "0")
  && match is_coordinate (r_name r) with
     | Some _ => opt_eqb (s_base tdecl r) (Some 0x85)        (* coordinates are declared sint32 *)
     | None =>
         match is_timestamp tc with
         | Some _ => opt_eqb (s_base tdecl r) (Some 0x86)    (* date_time types are declared uint32 *)
         | None =>
             if String.eqb (camel (type_quirk tc)) "Bool"
             then String.eqb tc "bool" && negb (s_is_array r) (* bool is spelled bool; the code types a bool array as Bool *)
             else opt_eqb (model_named_base types tc) (spec_named_base tdecl tc)
                  && negb (starts_slice (camel (type_quirk tc)))
         end
     end.

Definition sheet_hyp (tsheet msheet : list row) : bool :=
  match gen_tmap tsheet with
  | Err _ => false
  | Ok types =>
      forallb (fun g => forallb (fun r => negb (s_enabled r) || row_hyp types (s_tdecl tsheet) r) (snd g)) (s_groups msheet)
  end.

Definition sheet_hyp_count (msheet : list row) : N :=
  fold_right (fun g n => N.of_nat (List.length (filter s_enabled (snd g))) + n) 0 (s_groups msheet).

Lemma nonempty_is_empty s : nonempty s = negb (is_empty s).
Proof. now destruct s. Qed.

Lemma rtrim_brackets s : is_empty (rtrim is_bracket s) = negb (has_non_bracket s).
Proof.
  induction s as [|c r IH]; simpl; [reflexivity|]. fold (is_bracket c).
  destruct (is_empty (rtrim is_bracket r)), (has_non_bracket r), (is_bracket c); try discriminate; reflexivity.
Qed.

Lemma ltrim_brackets s : has_non_bracket (ltrim is_bracket s) = has_non_bracket s.
Proof.
  induction s as [|c r IH]; simpl; [reflexivity|]. fold (is_bracket c).
  destruct (is_bracket c) eqn:E; simpl; [exact IH|]. fold (is_bracket c). now rewrite E.
Qed.

Lemma parse_array_flag cell :
  String.eqb (trim is_bracket cell) "0" = false ->
  negb (String.eqb (parse_array cell) "0") = has_non_bracket cell.
Proof.
  intros H. unfold parse_array. rewrite <- (ltrim_brackets cell), <- (negb_involutive (has_non_bracket _)), <- rtrim_brackets.
  fold (trim is_bracket cell). destruct (is_empty (trim is_bracket cell)); simpl; [reflexivity|now rewrite H].
Qed.

Definition code_ok (f b k : N) (arr : bool) : bool :=
  (fit_base f =? b) && (code_base_num f =? base_num b) && Bool.eqb (fit_array f) arr && Bool.eqb (code_array f) arr
  && (fit_kind f =? k) && Bool.eqb (starts_slice (fit_go_type f)) arr && (f <? 512).

Lemma base_tables_equal : base_table = fit_base_types.
Proof. reflexivity. Qed.

Lemma native_table_ok :
  forallb (fun nb => code_ok (fit_make_native (snd nb) true) (snd nb) K_NATIVE true
                     && code_ok (fit_make_native (snd nb) false) (snd nb) K_NATIVE false) base_table = true.
Proof. vm_compute. reflexivity. Qed.

Lemma assoc_in {A} k (l : list (string * A)) v : assoc k l = Some v -> In (k, v) l.
Proof.
  induction l as [|[k' v'] t IH]; simpl; [discriminate|].
  destruct (String.eqb k k') eqn:E.
  - intros [= ->]. apply String.eqb_eq in E. subst. now left.
  - intros H. right. auto.
Qed.

Lemma assoc_lookup {A} k (l : list (string * A)) : assoc k l = lookup k l.
Proof. reflexivity. Qed.

Lemma native_code s b arr : base_from_string s = Some b -> code_ok (fit_make_native b arr) b K_NATIVE arr = true.
Proof.
  intros H. apply assoc_in in H.
  pose proof native_table_ok as T. rewrite forallb_forall in T. specialize (T _ H). simpl in T.
  apply andb_prop in T. destruct T, arr; assumption.
Qed.

Lemma coordinate_code name k arr : is_coordinate name = Some k -> code_ok (fit_make k arr) 0x85 k arr = true.
Proof.
  unfold is_coordinate. destruct (has_suffix "_lat" name); [|destruct (has_suffix "_long" name)];
    intros [= <-]; now destruct arr.
Qed.

Lemma timestamp_code tc k arr : is_timestamp tc = Some k -> code_ok (fit_make k arr) 0x86 k arr = true.
Proof.
  unfold is_timestamp. destruct (String.eqb tc "date_time"); [|destruct (String.eqb tc "local_date_time")];
    intros [= <-]; now destruct arr.
Qed.

Lemma opt_eqb_eq a b : opt_eqb a b = true -> a = b.
Proof. destruct a, b; simpl; try discriminate; auto. intros H. apply N.eqb_eq in H. now subst. Qed.

Lemma ends_with_has_suffix suf s : ends_with suf s = has_suffix suf s.
Proof. reflexivity. Qed.

Lemma s_kind_model r :
  s_kind r = match is_coordinate (r_name r) with
             | Some k => k
             | None => match is_timestamp (r_type r) with Some k => k | None => K_NATIVE end
             end.
Proof.
  unfold s_kind, is_coordinate, is_timestamp. change (s_name r) with (r_name r). change (s_type r) with (r_type r).
  rewrite (ends_with_has_suffix "_lat"), (ends_with_has_suffix "_long").
  destruct (has_suffix "_lat" (r_name r)), (has_suffix "_long" (r_name r)),
    (String.eqb (r_type r) "date_time"), (String.eqb (r_type r) "local_date_time"); reflexivity.
Qed.

Lemma spec_named_in_table tdecl tc b : spec_named_base tdecl tc = Some b -> exists s, base_from_string s = Some b.
Proof.
  unfold spec_named_base, base_from_string. rewrite base_tables_equal.
  destruct (lookup tc tdecl) as [bs|]; intros H; eexists; rewrite assoc_lookup; exact H.
Qed.

Definition ftype_facts (tdecl : list (string * string)) (r : row) (ft : N) (tn : string) : Prop :=
  exists b, s_base tdecl r = Some b /\
    fit_base ft = b /\ code_base_num ft = base_num b /\
    fit_array ft = s_is_array r /\ code_array ft = s_is_array r /\
    fit_kind ft = s_kind r /\ starts_slice tn = s_is_array r /\ ft < 512.

Lemma code_facts tdecl r f tn b : code_ok f b (s_kind r) (s_is_array r) = true -> s_base tdecl r = Some b ->
  tn = fit_go_type f \/ starts_slice tn = s_is_array r -> ftype_facts tdecl r f tn.
Proof.
  unfold code_ok. rewrite !andb_true_iff, !Bool.eqb_true_iff, !N.eqb_eq, N.ltb_lt.
  intros H Hb Htn. exists b. intuition (subst; assumption).
Qed.

(* ftype_spec: under the side conditions, the types.Fit code and the Go type
   computed by parseType have the row's base type, array flag and kind *)
Theorem ftype_spec : forall types tdecl r ft tn,
  row_hyp types tdecl r = true ->
  parse_type types (r_name r) (parse_array (r_array r)) (r_type r) = Ok (ft, tn) ->
  ftype_facts tdecl r ft tn.
Proof.
  intros types tdecl r ft tn H P. unfold row_hyp in H.
  apply andb_prop in H. destruct H as [Ha H]. apply negb_true_iff in Ha.
  unfold parse_type in P. cbv zeta in P. rewrite (parse_array_flag _ Ha) in P.
  change (has_non_bracket (r_array r)) with (s_is_array r) in P.
  pose proof (s_kind_model r) as K.
  destruct (is_coordinate (r_name r)) as [k|] eqn:C.
  { apply opt_eqb_eq in H. injection P as <- <-.
    apply code_facts with 0x85; [rewrite K; now apply (coordinate_code (r_name r))|exact H|now left]. }
  destruct (is_timestamp (r_type r)) as [k|] eqn:T.
  { apply opt_eqb_eq in H. injection P as <- <-.
    apply code_facts with 0x86; [rewrite K; now apply (timestamp_code (r_type r))|exact H|now left]. }
  destruct (String.eqb (camel (type_quirk (r_type r))) "Bool") eqn:B.
  { apply andb_prop in H. destruct H as [Hb Hn]. apply negb_true_iff in Hn. rewrite Hn in P.
    injection P as <- <-. apply code_facts with 0; [now rewrite K, Hn| |right; apply String.eqb_eq in B; now rewrite B, Hn].
    unfold s_base. change (s_type r) with (r_type r). now rewrite Hb. }
  apply andb_prop in H. destruct H as [Hm Hs]. apply negb_true_iff in Hs. apply opt_eqb_eq in Hm.
  assert (NB : String.eqb (r_type r) "bool" = false).
  { destruct (String.eqb (r_type r) "bool") eqn:E; [|reflexivity].
    apply String.eqb_eq in E. rewrite E in B. vm_compute in B. discriminate. }
  assert (SB : s_base tdecl r = model_named_base types (r_type r)).
  { unfold s_base. change (s_type r) with (r_type r). now rewrite NB, Hm. }
  unfold model_named_base in *.
  destruct (assoc (camel (type_quirk (r_type r))) types) as [b|] eqn:A.
  - injection P as <- <-. symmetry in Hm. destruct (spec_named_in_table _ _ _ Hm) as [s Hs'].
    apply code_facts with b; [rewrite K; now apply (native_code s)|exact SB|right].
    destruct (s_is_array r); [reflexivity|exact Hs].
  - destruct (base_from_string (r_type r)) as [b|] eqn:Bs; [|discriminate].
    injection P as <- <-. apply code_facts with b; [rewrite K; now apply (native_code (r_type r))|exact SB|now left].
Qed.

(* [false], here and in every statement below, is the hrst argument: fitgen's -hrst flag (cmd/fitgen/main.go, default
   false; set, Field.transform keeps heart_rate_source_type although the row is not enabled).  With the flag set
   this equation fails, and nothing is stated for that run. *)
Lemma skip_enabled r : skip_row false r = negb (s_enabled r).
Proof.
  unfold skip_row, s_enabled. change (s_example r) with (r_example r).
  rewrite andb_false_r. simpl. rewrite andb_true_r, nonempty_is_empty.
  destruct (is_empty (r_example r)), (String.eqb (r_example r) "0"); reflexivity.
Qed.

Definition corr (tdecl : list (string * string)) (r : row) (i : N) (sf : sfield) (e : entry) : Prop :=
  fst sf = i /\ e_sindex e = i /\ e_num e = s_defnum r /\
  ftype_facts tdecl r (e_type e) (snd (snd sf)).

(* rows, struct fields and entries are in order-preserving bijection, the
   k-th triple carrying index i + k *)
Inductive bij (tdecl : list (string * string)) : N -> list row -> list sfield -> list entry -> Prop :=
| bij_nil : forall i, bij tdecl i [] [] []
| bij_cons : forall i r rs sf sfs e es,
    corr tdecl r i sf e -> bij tdecl (i + 1) rs sfs es -> bij tdecl i (r :: rs) (sf :: sfs) (e :: es).

Definition entry_of (x : N * (field * list field)) : entry :=
  mkEntry (f_defnum (fst (snd x))) (fst x) (f_ftype (fst (snd x))) (f_length (fst (snd x))).
Definition sname_of (fs : field * list field) : string * string := (f_ccname (fst fs), f_typename (fst fs)).

Lemma bij_of_transform types tdecl : forall l fs,
  transform_fields false types l = Ok fs ->
  (forall r, In r (map fst l) -> s_enabled r = true -> row_hyp types tdecl r = true) ->
  forall i, bij tdecl i (filter s_enabled (map fst l)) (number_from i (map sname_of fs)) (map entry_of (number_from i fs)).
Proof.
  induction l as [|[r subs] rest IH]; intros fs H Hyp i; simpl in H.
  - injection H as <-. constructor.
  - unfold transform_field in H. rewrite skip_enabled in H. simpl.
    destruct (s_enabled r) eqn:E; simpl in H; [|apply IH; [exact H|intros r' Hr'; apply Hyp; now right]].
    destruct (parse_type types (r_name r) (parse_array (r_array r)) (r_type r)) as [[ft tn]|e] eqn:P; simpl in H; [|discriminate].
    destruct (rmap _ subs) as [osubs|e]; simpl in H; [|discriminate].
    destruct (transform_fields false types rest) as [fs'|e]; simpl in H; [|discriminate].
    injection H as <-. constructor; [|apply IH; [reflexivity|intros r' Hr'; apply Hyp; now right]].
    repeat split. apply ftype_spec with types; [apply Hyp; [now left|exact E]|exact P].
Qed.

Lemma bij_nums tdecl : forall i rows sfs es, bij tdecl i rows sfs es -> map e_num es = map s_defnum rows.
Proof. induction 1 as [|i r rs sf sfs e es (_ & _ & Hn & _) _ IH]; simpl; [reflexivity|]. now rewrite Hn, IH. Qed.

Lemma bij_lengths tdecl : forall i rows sfs es, bij tdecl i rows sfs es ->
  List.length sfs = List.length rows /\ List.length es = List.length rows.
Proof. induction 1 as [|? ? ? ? ? ? ? _ _ [IH1 IH2]]; simpl; auto. Qed.

Definition msg_rows (pm : pmsg) : list row := map fst (pm_fields pm).

(* gen_bijection.  For one message of the workbook (header row + field rows
   with their sub-field rows), if the transformation succeeds then the
   enabled field rows, the struct fields and the lookup entries are in
   order-preserving bijection; the k-th enabled row gives struct field k and
   an entry with sindex k, the row's field number, base type and array flag
   (corr / ftype_facts); with pairwise distinct field numbers every enabled
   row has exactly one entry and a disabled row has none. *)
Theorem gen_bijection : forall types tdecl pm m,
  transform_msg false types pm = Ok m ->
  (forall r, In r (msg_rows pm) -> s_enabled r = true -> row_hyp types tdecl r = true) ->
  bij tdecl 0 (filter s_enabled (msg_rows pm)) (gen_struct m) (gen_entries m)
  /\ (NoDup (map s_defnum (msg_rows pm)) ->
        (forall r, In r (msg_rows pm) -> s_enabled r = true ->
           exists! e, In e (gen_entries m) /\ e_num e = s_defnum r)
     /\ (forall r, In r (msg_rows pm) -> s_enabled r = false ->
           forall e, In e (gen_entries m) -> e_num e <> s_defnum r)).
Proof.
  intros types tdecl pm m T Hyp. unfold transform_msg in T.
  destruct (is_empty (r_msgname (pm_header pm))); [discriminate|].
  destruct (transform_fields false types (pm_fields pm)) as [fs|e] eqn:TF; simpl in T; [|discriminate].
  injection T as <-. set (m := mkMsg _ _ fs).
  assert (B : bij tdecl 0 (filter s_enabled (msg_rows pm)) (gen_struct m) (gen_entries m))
    by apply (bij_of_transform types tdecl _ _ TF Hyp).
  split; [exact B|]. intros ND.
  pose proof (bij_nums _ _ _ _ _ B) as Nums.
  pose proof (NoDup_map_filter s_defnum s_enabled _ ND) as ND'. rewrite <- Nums in ND'.
  split.
  - intros r Hr En.
    assert (Hin : In (s_defnum r) (map s_defnum (filter s_enabled (msg_rows pm)))) by (apply in_map, filter_In; auto).
    rewrite <- Nums in Hin. apply in_map_iff in Hin as (e & Hn & He).
    exists e. split; [auto|]. intros e' [He' Hn'].
    apply (NoDup_map_inj e_num _ _ _ ND'); auto. congruence.
  - intros r Hr Dis e He Heq.
    assert (Hin : In (e_num e) (map s_defnum (filter s_enabled (msg_rows pm)))) by (rewrite <- Nums; now apply in_map).
    apply in_map_iff in Hin. destruct Hin as (r' & Hd & Hr'). apply filter_In in Hr'. destruct Hr' as [Hr' En'].
    assert (r' = r) by (apply (NoDup_map_inj s_defnum _ _ _ ND); auto; congruence).
    subst. congruence.
Qed.

Definition obs_entry_of (e : entry) : obs_entry := mkObsEntry (e_num e) (e_sindex e) (e_type e) (e_length e).
Definition slice_of (sf : sfield) : bool := starts_slice (snd (snd sf)).
Definition observe (o : msgout) : obs_msg :=
  mkObsMsg (map slice_of (o_struct o)) (map obs_entry_of (o_entries o)).

Lemma bij_rows_match tdecl : forall i rows sfs es, bij tdecl i rows sfs es ->
  rows_match tdecl i rows (map slice_of sfs) (map obs_entry_of es) = true.
Proof.
  induction 1 as [|i r rs sf sfs e es C _ IH]; simpl; [reflexivity|].
  rewrite IH, andb_true_r.
  destruct C as (H1 & H2 & H3 & (b & Hb & _ & Hcb & _ & Hca & _ & Hs & _)).
  unfold row_matches, slice_of; simpl.
  rewrite H3, String.eqb_refl, H2, N.eqb_refl, Hb, Hcb, N.eqb_refl, Hca, Hs, !Bool.eqb_reflx. reflexivity.
Qed.

Definition view (pm : pmsg) : srow * list srow := (pm_header pm, msg_rows pm).
Definition flush (cur : option (srow * list srow)) : list (srow * list srow) :=
  match cur with Some (h, fs) => [(h, rev fs)] | None => [] end.

Lemma view_close h fs : view (close_msg h fs) = (h, rev (map fst fs)).
Proof. unfold view, close_msg, msg_rows; simpl. now rewrite map_rev. Qed.

Lemma close_flush h fs x l : rbind x (fun l' => Ok (close_msg h fs :: l')) = Ok l ->
  exists l', x = Ok l' /\ map view l = (flush (Some (h, map fst fs)) ++ map view l')%list.
Proof.
  destruct x as [l'|e]; simpl; [|discriminate]. intros [= <-]. exists l'. split; [reflexivity|]. cbn [map]. now rewrite view_close.
Qed.

Lemma groups_step r rest cur :
  s_groups_go cur (r :: rest) =
  match mscan r with
  | TMsgHdr | TProfileHdr => (flush cur ++ s_groups_go (Some (r, [])) rest)%list
  | TMsgField => match cur with Some (h, fs) => s_groups_go (Some (h, r :: fs)) rest | None => s_groups_go None rest end
  | _ => s_groups_go cur rest
  end.
Proof.
  cbn [s_groups_go]. unfold mscan, is_header, is_field. rewrite !nonempty_is_empty.
  change (s_msgname r) with (r_msgname r). change (s_defnum r) with (r_defnum r).
  destruct (is_empty (r_msgname r)), (is_empty (r_defnum r)); simpl; try now destruct cur as [[h fs]|].
  destruct (is_empty (r_name r)); simpl; [|reflexivity].
  destruct (is_empty (r_type r)); simpl; [|reflexivity].
  match goal with |- context [all_empty ?x] => now destruct (all_empty x) end.
Qed.

(* between messages the spec may still hold the last group open (it closes a group only at the next
   header); inside a message both hold the same header and field rows *)
Lemma parse_groups : forall rows st l, parse_msgs_go st rows = Ok l ->
  match st with
  | PIn h fs => s_groups_go (Some (h, map fst fs)) rows = map view l
  | _ => forall cur, s_groups_go cur rows = (flush cur ++ map view l)%list
  end.
Proof.
  induction rows as [|r rest IH]; intros st l H.
  - destruct st as [| |h [|f fs]]; simpl in H; try discriminate; injection H as <-.
    + intros cur. simpl. now rewrite app_nil_r.
    + cbn [map s_groups_go]. now rewrite view_close.
  - destruct st as [| |h fs]; simpl in H; [intros cur|intros cur|]; rewrite groups_step; destruct (mscan r); try discriminate.
    + apply (IH PStart _ H).
    + apply (IH PAfterGroup _ H).
    + f_equal. apply (IH (PIn r []) _ H).
    + f_equal. apply (IH (PIn r []) _ H).
    + destruct fs as [|f fs]; [discriminate|].
      destruct (close_flush _ _ _ _ H) as (l' & P & ->). apply (IH PStart _ P).
    + destruct (close_flush _ _ _ _ H) as (l' & P & ->). apply (IH PAfterGroup _ P).
    + destruct (close_flush _ _ _ _ H) as (l' & P & ->). f_equal. apply (IH (PIn r []) _ P).
    + apply (IH (PIn h ((r, []) :: fs)) _ H).
    + destruct fs as [|[f subs] fs]; [discriminate|]. apply (IH (PIn h ((f, (subs ++ [r])%list) :: fs)) _ H).
Qed.

Lemma parse_msgs_groups msheet l : parse_msgs msheet = Ok l -> s_groups msheet = map view l.
Proof.
  unfold parse_msgs, s_groups. destruct msheet as [|r0 rest]; [discriminate|].
  destruct (mscan r0); try discriminate. intros H. simpl. now rewrite (parse_groups _ PStart _ H None).
Qed.

Lemma all_msgs_ok types tdecl : forall pms ms,
  rmap (transform_msg false types) pms = Ok ms ->
  forallb (fun g => forallb (fun r => negb (s_enabled r) || row_hyp types tdecl r) (snd g)) (map view pms) = true ->
  all2 (fun g om => s_msg_ok tdecl (snd g) om) (map view pms) (map observe (map gen_msg ms)) = true.
Proof.
  induction pms as [|pm pms IH]; intros ms R Hyp; simpl in R.
  - injection R as <-. reflexivity.
  - destruct (transform_msg false types pm) as [m|] eqn:T; [|discriminate].
    destruct (rmap _ pms) as [ms'|] eqn:R'; [|discriminate]. injection R as <-.
    simpl in Hyp. apply andb_prop in Hyp. destruct Hyp as [H1 H2].
    cbn [map all2]. rewrite (IH _ eq_refl H2), andb_true_r.
    unfold s_msg_ok, observe, gen_msg; simpl.
    apply bij_rows_match. apply (gen_bijection types tdecl pm m T).
    intros r Hr En. rewrite forallb_forall in H1. specialize (H1 r Hr). rewrite En in H1. exact H1.
Qed.

(* If the model generates outs from the two sheets and the side conditions
   hold for the enabled rows, the executable spec (the one the harness
   evaluates on fitgen's real output) accepts outs. *)
Theorem gen_sheet_spec : forall tsheet msheet outs,
  gen false tsheet msheet = Ok outs ->
  sheet_hyp tsheet msheet = true ->
  s_sheet_ok tsheet msheet (map observe outs) = true.
Proof.
  intros tsheet msheet outs G Hyp. unfold gen, gen_msgs in G. unfold sheet_hyp in Hyp.
  destruct (gen_tmap tsheet) as [types|]; simpl in G; [|discriminate].
  destruct (parse_msgs msheet) as [pms|] eqn:P; simpl in G; [|discriminate].
  destruct (rmap (transform_msg false types) pms) as [ms|] eqn:R; simpl in G; [|discriminate].
  injection G as <-. unfold s_sheet_ok. rewrite (parse_msgs_groups _ _ P) in *.
  now apply all_msgs_ok with (types := types).
Qed.

(* a small workbook; Props/C19.v evaluates the model on it *)
Definition mkrow (msg num name ty arr comps refname ex : string) : row :=
  [msg; num; name; ty; arr; comps; ""; ""; ""; ""; ""; refname; ""; ""; ""; ex].

Definition ex_tsheet : list row :=
  [ ["Type Name"; "Base Type"; "Value Name"; "Value"; "Comment"];
    ["sport"; "enum"; ""; ""; ""];
    [""; ""; "running"; "1"; ""];
    [""; ""; ""; ""; ""];
    ["date_time"; "uint32"; ""; ""; ""];
    [""; ""; "min"; "0x10000000"; ""] ].

Definition ex_msheet : list row :=
  [ mkrow "Message Name" "Field Def #" "Field Name" "Field Type" "Array" "Components" "Ref Field Name" "EXAMPLE";
    mkrow "" "" "" "ACTIVITY FILE MESSAGES" "" "" "" "";
    mkrow "record" "" "" "" "" "" "" "";
    mkrow "" "253" "timestamp" "date_time" "" "" "" "1";
    mkrow "" "0" "position_lat" "sint32" "" "" "" "1";
    mkrow "" "3" "heart_rate" "uint8" "" "" "" "";
    mkrow "" "5" "speeds" "uint16" "[N]" "" "" "2";
    mkrow "" "6" "sport" "sport" "" "" "" "1";
    mkrow "" "" "" "" "" "" "" "";
    mkrow "lap" "" "" "" "" "" "" "";
    mkrow "" "7" "name" "string" "" "" "" "16";
    mkrow "" "8" "unused" "uint8" "" "" "" "0" ].
