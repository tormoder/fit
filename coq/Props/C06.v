(* C06 -- Encode then Decode returns the values that were put in.
   Models: Model/Encode.v and Model/Decode.v.  Comparators: Spec/RoundTrip.v.
   Level proved: FIELD level, for every field kind of the representable domain, all values, both byte
   orders: what the decoder's field parsers (parseFitField, parseFitFieldArray, parseTimeStamp,
   NewLatitude/NewLongitude on the 4 extended bytes) return on the bytes the encoder's field writers
   (encodeValue, writeField) produced is the value put in, up to norm_field (trailing invalid padding of
   arrays, wall-clock reading of local times); and STREAM level (C06_roundtrip below): Decode of the bytes Encode wrote
   returns a File with content_eq6, for every well-formed in-domain File (no side condition on its times: the
   decoder's two time-rule defects of C12 are repaired, fixed: ac9b0b0, 2f21531). *)
From Coq Require Import NArith ZArith List Bool String Lia.
From FitV Require Import Model.Values Model.Bytes Model.Base Model.Profile Model.Encode Model.Decode Spec.RoundTrip
  Model.Header Model.Route Spec.FitSyntax Spec.Grammar Proofs.EncodeProofs Proofs.C06Codec Proofs.C06Defs Proofs.C06Lay
  Model.IO Model.Components Proofs.C06Denote Proofs.C06Route Proofs.C06RoundTrip
  Proofs.StreamDenoteDefs Proofs.StreamDenoteMain Proofs.StreamDenoteFrame Proofs.StreamDenoteDecode Proofs.EncExamples.
Import ListNotations.
Local Open Scope N_scope.

(* integers of every width, both byte orders *)
Theorem C06_get16_put_int : forall be x, get16 be (put_int be 2 x) = x mod 65536.
Proof. intros be x. rewrite BytesUtil.get16_val by apply put_int_length. exact (get_val_put_int be 2 x). Qed.
Theorem C06_get32_put_int : forall be x, get32 be (put_int be 4 x) = x mod 4294967296.
Proof. intros be x. rewrite BytesUtil.get32_val by apply put_int_length. exact (get_val_put_int be 4 x). Qed.

(* numeric scalars (enum, byte, uint8/z, sint8, uint16/z, sint16, uint32/z, sint32) *)
Theorem C06_rt_scalar : forall be pf fd ty v bs,
  (fit_kind (pf_t pf) =? kind_native) = true -> (fit_base (pf_t pf) =? base_string) = false ->
  codec_ty (fd_btype fd) = Some ty -> val_has_type ty v = true ->
  encode_value be pf ty v = EOk bs -> parse_fit_field be fd bs ty = FSet v.
Proof. exact rt_scalar. Qed.
Print Assumptions C06_rt_scalar.
(* the side condition on the Go type holds for every scalar numeric field of the current profile *)
Theorem C06_profile_codec_ok : forall m num pf, In m Gen.ProfileData.messages -> In (num, pf) (md_entries m) ->
  (fit_kind (pf_t pf) =? kind_native) = true -> fit_array (pf_t pf) = false ->
  (fit_base (pf_t pf) =? base_string) = false ->
  codec_ty (fit_base (pf_t pf)) = field_type (md_num m) (pf_sindex pf).
Proof.
  intros m num pf Hm He Hk Ha Hs. rewrite <- (expected_ty_scalar _ Hk Ha Hs). apply (profile_types_ok m num pf Hm He).
Qed.

(* strings: valid UTF-8 without NUL that fits with its terminator; the empty string stays unset *)
Theorem C06_rt_string : forall be (pf : pfield) fd s size,
  forallb (fun b => (0 <? b) && (b <? 256)) s = true -> utf8_valid s = true ->
  N.of_nat (List.length s) + 1 <= size -> fd_btype fd = base_string ->
  encode_string s size = EOk (s ++ repeat 0 (N.to_nat size - List.length s)) /\
  parse_fit_field be fd (s ++ repeat 0 (N.to_nat size - List.length s)) TStr =
    match s with [] => FKeep | _ => FSet (VStr s) end.
Proof. intros be pf. exact (rt_string be). Qed.

(* whole-second timestamps in range; local timestamps by wall clock, whatever the decoder's reference state *)
Theorem C06_rt_time_utc : forall be sg pf ty s zone bs st num,
  fit_kind (pf_t pf) = kind_timeutc -> (0 <= s <= 4294967294)%Z ->
  encode_value be pf ty (VTime s 0 zone) = EOk bs ->
  fst (parse_time_stamp st (get32 be (extend4 be sg bs)) kind_timeutc num) = Some (VTime s 0 None).
Proof.
  intros be sg pf ty s zone bs st num Hk H He.
  unfold encode_value in He. rewrite Hk in He. injection He as <-.
  rewrite (encode_time_id s H). rewrite u32_put_int by lia. apply parse_time_stamp_utc, H.
Qed.
Theorem C06_rt_time_local : forall be sg pf ty s zone bs st num,
  fit_kind (pf_t pf) = kind_timelocal -> fit_array (pf_t pf) = false ->
  (-8589934592 <= s <= 8589934592)%Z -> (0 <= s + zone_off zone <= 4294967294)%Z ->
  encode_value be pf ty (VTime s 0 zone) = EOk bs ->
  exists v', fst (parse_time_stamp st (get32 be (extend4 be sg bs)) kind_timelocal num) = Some v' /\
             norm_field pf v' = norm_field pf (VTime s 0 zone).
Proof.
  intros be sg pf ty s zone bs st num Hk Ha Hs H He.
  unfold encode_value in He. rewrite Hk in He. injection He as <-.
  rewrite (encode_time_local_id s zone Hs H). rewrite u32_put_int by lia.
  apply parse_time_stamp_local; assumption.
Qed.

(* coordinates *)
Theorem C06_rt_lat : forall be sg pf ty z bs,
  fit_kind (pf_t pf) = kind_lat -> (z = 2147483647 \/ -1073741824 <= z <= 1073741823)%Z ->
  encode_value be pf ty (VLat z) = EOk bs ->
  new_latitude (to_signed 32 (get32 be (extend4 be sg bs))) = VLat z.
Proof.
  intros be sg pf ty z bs Hk H He.
  unfold encode_value in He. rewrite Hk in He. injection He as <-.
  rewrite s32_put_int by lia. unfold new_latitude. change (2 ^ 30)%Z with 1073741824%Z.
  match goal with |- (if ?c then _ else _) = _ => destruct c eqn:E end; [|reflexivity].
  f_equal. lia.
Qed.
Theorem C06_rt_lng : forall be sg pf ty z bs,
  fit_kind (pf_t pf) = kind_lng -> (-2147483648 <= z <= 2147483647)%Z ->
  encode_value be pf ty (VLng z) = EOk bs ->
  new_longitude (to_signed 32 (get32 be (extend4 be sg bs))) = VLng z.
Proof.
  intros be sg pf ty z bs Hk H He.
  unfold encode_value in He. rewrite Hk in He. injection He as <-.
  rewrite s32_put_int by assumption. reflexivity.
Qed.

(* arrays no longer than the profile length: decoded = put in, followed by invalid padding; equal under norm *)
Theorem C06_rt_array : forall be pf fd ty iv l bs,
  fit_array (pf_t pf) = true -> (fit_kind (pf_t pf) =? kind_native) = true ->
  codec_ty (fit_base (pf_t pf)) = Some ty -> fd_btype fd = fit_base (pf_t pf) ->
  b_invalid (fit_base (pf_t pf)) = Some iv ->
  N.of_nat (List.length l) <= pf_length pf -> pf_length pf < 256 -> all_typed ty l ->
  write_field be pf (TSlice ty) (VList l) = EOk bs ->
  parse_fit_field_array be fd bs (TSlice ty) =
    FSet (VList (l ++ repeat iv (N.to_nat (pf_length pf) - List.length l))).
Proof. exact rt_array. Qed.
Theorem C06_rt_array_norm : forall be pf fd ty iv l bs,
  fit_array (pf_t pf) = true -> (fit_kind (pf_t pf) =? kind_native) = true ->
  codec_ty (fit_base (pf_t pf)) = Some ty -> fd_btype fd = fit_base (pf_t pf) ->
  b_invalid (fit_base (pf_t pf)) = Some iv -> is_inv (fit_base (pf_t pf)) iv = true ->
  N.of_nat (List.length l) <= pf_length pf -> pf_length pf < 256 -> all_typed ty l ->
  write_field be pf (TSlice ty) (VList l) = EOk bs ->
  exists v', parse_fit_field_array be fd bs (TSlice ty) = FSet v' /\ norm_field pf v' = norm_field pf (VList l).
Proof.
  intros be pf fd ty iv l bs Ha Hk Hc Hfd Hiv Hi Hlen Hp Hl He.
  eexists. split; [eapply rt_array; eassumption|].
  destruct (codec_facts_ok _ _ Hc) as [_ [Hs _]].
  apply norm_field_array_pad; assumption.
Qed.
Theorem C06_codec_is_inv : forall bt ty iv, codec_ty bt = Some ty -> b_invalid bt = Some iv -> is_inv bt iv = true.
Proof. intros bt ty iv _. apply codec_is_inv. Qed.
Print Assumptions C06_rt_array_norm.

(* stream level, first piece: encode_is_serialize.  For every well-formed File, both byte orders, both header
   sizes: the bytes Encode writes are the framed serialisation (fit_file: header, records, CRC -- the input format
   of the stream theorem C02_decode_denote) of an explicit record list rs laid out as [lay] describes: a definition
   and a data record per message of a pointer slot, one definition (covering every set field of every element, field
   numbers distinct) and one data record per element for a slice slot, local type 0 throughout, each field's bytes
   being what writeField wrote for the struct field; rs is serialisable (stream_wf) and starts with the file_id
   definition and message.  Side conditions on the header: as NewHeader makes it, a protocol version Decode accepts,
   16-bit profile version. *)
Theorem C06_encode_is_serialize : forall f be bs f',
  wf_file f = true -> wf_header (f_header f) = true ->
  proto_ok (h_proto (f_header f)) = true -> h_profile (f_header f) < 65536 ->
  encode f be = EOk (bs, f') -> N.of_nat (List.length bs) < 4294967296 ->
  exists rs, let h := wire_header (f_header f) (N.of_nat (List.length (ser_records rs))) in
    bs = fit_file h rs /\ header_wf h /\ h_dsize h = N.of_nat (List.length (ser_records rs)) /\
    lay be (file_msgs f) rs /\ stream_wf rs = true /\ starts_with_file_id rs = true.
Proof. exact encode_is_serialize. Qed.
Print Assumptions C06_encode_is_serialize.

(* stream level, second piece: the laid-out record list is in the domain of the reference semantics and
   denotes the File's messages up to norm_msg (lay_denote).  The third piece, routing the denoted messages back
   into a File that is content_eq6 to the one encoded, is Proofs/C06Route.route_roundtrip_g (slot by slot, expansion
   of components on accumulators with mask 0); it has no copy here and enters through C06_roundtrip *)
Theorem C06_lay_denote : forall be msgs rs, lay be msgs rs -> Forall msg_dom msgs ->
  forall ss0, exists ss1 msgs',
    denote_from ss0 rs = Some ss1 /\ ss_msgs ss1 = ss_msgs ss0 ++ msgs' /\ Forall2 msg_norm_eq msgs msgs' /\
    ss_unkm ss1 = ss_unkm ss0 /\ ss_unkf ss1 = ss_unkf ss0.
Proof. exact lay_denote. Qed.

(* roundtrip.  For every File f with
     wf_file f            a Go state reachable through the public API,
     in_domain f          the representable domain of the property (valid UTF-8 strings that fit, arrays no longer than
                          the profile length, whole-second timestamps in range, valid coordinates, no valid
                          compressed_speed_distance: known finding csd_accumulator),
     a header as NewHeader makes it with a protocol version Decode accepts,
   (nothing is asked of the times in f beyond in_domain: the decoder's two time-rule defects of C12 -- an explicit
   timestamp 0 on the wire, e.g. an unset Timestamp written because another element of the slice has one; a local
   timestamp without a reference >= 0x10000000 before it -- are repaired in the library, fixed: ac9b0b0, 2f21531)
   both byte orders, both header sizes, every decode option set, every reader (chunk schedule, trailing bytes) and
   every accumulator state g with ginv g (total_cycles / accumulated_power accumulators absent or mask 0, value 0:
   the initial state and every state reachable from it): Decode of the bytes Encode wrote succeeds, reports the
   header written, consumes exactly those bytes, and returns a File file' with content_eq6 f file' (same file type,
   per slot the same number of messages in the same order, field-for-field equal after norm: arrays up to
   trailing invalid padding, local timestamps by wall clock, derived fields as the component rule prescribes,
   unset fields invalid). *)
Theorem C06_roundtrip : forall f be bs f' o g rd fuel extra,
  wf_file f = true -> wf_header (f_header f) = true ->
  proto_ok (h_proto (f_header f)) = true -> h_profile (f_header f) < 65536 ->
  in_domain f = true -> ginv g ->
  encode f be = EOk (bs, f') -> N.of_nat (List.length bs) < 4294967296 ->
  rd_data rd = bs ++ extra -> (List.length (rd_data rd) + List.length (rd_sched rd) < fuel)%nat ->
  exists rd' file' g' q,
    entry_Decode o g rd fuel =
      TDone (mk_dres None (wire_header (f_header f) (N.of_nat (List.length (ser_records (file_recs f be))))) (Some file') rd' g' q) /\
    content_eq6 f file' = true /\ ginv g' /\ rd_data rd' = extra /\ rd_pos rd' = (rd_pos rd + List.length bs)%nat.
Proof. exact roundtrip. Qed.
Print Assumptions C06_roundtrip.

(* the hypotheses are satisfiable *)
Example C06_roundtrip_example :
  wf_file ex_file = true /\ wf_header (f_header ex_file) = true /\ proto_ok (h_proto (f_header ex_file)) = true /\
  h_profile (f_header ex_file) < 65536 /\ in_domain ex_file = true /\
  (exists bs f', encode ex_file true = EOk (bs, f') /\ N.of_nat (List.length bs) < 4294967296).
Proof.
  split; [exact ex_file_wf|]. split; [vm_compute; reflexivity|]. split; [vm_compute; reflexivity|].
  split; [vm_compute; reflexivity|]. split; [vm_compute; reflexivity|]. destruct ex_file_encodes as [f' H]. eauto.
Qed.

Example C06_example : wf_file ex_file = true /\ in_domain ex_file = true.
Proof. destruct C06_roundtrip_example as (W & _ & _ & _ & D & _). exact (conj W D). Qed.
