(* C06, last piece: routing the decoded messages back into a File and comparing it with the File that was
   encoded.  Input: the messages msgs' the reference semantics denotes for Encode's output are, one by one,
   equal to the messages of the encoded File f0 up to the normal form of the comparator
   (Forall2 msg_norm_eq (file_msgs f0) msgs').  Output: start_file / route_msgs succeed on msgs' and every
   File with the slots and the container type of the routed File is content_eq6 to f0.
   No typing condition on msgs' is needed: the expanders read scalar fields only (on which the normal form
   is the identity) and the compressed_speed_distance array, which the domain silences. *)
From Coq Require Import NArith ZArith List Bool String Lia Arith.
From Coq Require Import ZifyN ZifyNat ZifyBool.
From FitV Require Import Proofs.Util Model.Values Model.Bytes Model.Base Model.Profile Model.Reflect Model.Header
  Model.Components Model.Route Spec.RouteSpec Spec.Grammar Spec.RoundTrip
  Proofs.C18Defs Proofs.ComponentProofs Proofs.RouteProofs Proofs.C05Grammar Proofs.C07Fixpoint Proofs.C06Defs Proofs.StreamDenoteLift Proofs.StreamDenoteMain
  Gen.Consts Gen.RoutingData.
From FitV Require Model.Shared Proofs.C08Route Proofs.C18Messages Proofs.C18Good.
Import ListNotations.
Local Open Scope N_scope.
Ltac Zify.zify_post_hook ::= Z.div_mod_to_equations.

(* what norm_msg does to the value of struct field i *)
Definition norm_at (mn : N) (i : nat) (v : goval) : goval :=
  match pfield_of_sindex mn i with Some pf => norm_field pf v | None => v end.

Lemma map_fields_length (f : pfield -> goval -> goval) gmn : forall vals k,
  List.length (map_fields f gmn k vals) = List.length vals.
Proof. induction vals as [|v r IH]; intros k; cbn [map_fields List.length]; [reflexivity|now rewrite IH]. Qed.

Lemma map_fields_nth_error f gmn : forall l k i,
  nth_error (map_fields f gmn k l) i =
  match nth_error l i with
  | Some v => Some (match pfield_of_sindex gmn (k + i) with Some pf => f pf v | None => v end)
  | None => None
  end.
Proof.
  induction l as [|v r IH]; intros k i; destruct i as [|i]; cbn [map_fields nth_error]; try reflexivity.
  - now rewrite Nat.add_0_r.
  - rewrite IH. replace (S k + i)%nat with (k + S i)%nat by lia. reflexivity.
Qed.

Lemma norm_fields_set_nth gmn v : forall vals k i,
  map_fields norm_field gmn k (set_nth i v vals) = set_nth i (norm_at gmn (k + i) v) (map_fields norm_field gmn k vals).
Proof.
  induction vals as [|a r IH]; intros k i; [destruct i; reflexivity|].
  destruct i as [|i]; cbn [set_nth map_fields].
  - unfold norm_at. now rewrite Nat.add_0_r.
  - rewrite IH. now rewrite Nat.add_succ_r.
Qed.

(* struct field i of message type mn is a scalar that is not a timestamp: the normal form leaves it alone *)
Definition plain_at (mn : N) (i : nat) : bool :=
  match pfield_of_sindex mn i with
  | Some pf => negb (fit_array (pf_t pf)) && negb (fit_kind (pf_t pf) =? kind_timelocal)
               && negb (fit_kind (pf_t pf) =? kind_timeutc)
  | None => true
  end.
Definition plain_name (mn : N) (name : string) : bool :=
  match sindex_of mn name with Some i => plain_at mn i | None => true end.

Lemma norm_at_plain mn i v : plain_at mn i = true -> norm_at mn i v = v.
Proof.
  unfold plain_at, norm_at. destruct (pfield_of_sindex mn i) as [pf|]; [|reflexivity]. intros H.
  apply andb_true_iff in H as [H H3]. apply andb_true_iff in H as [H1 H2].
  apply negb_true_iff in H1, H2, H3. unfold norm_field. now rewrite H1, H2, H3.
Qed.

Lemma norm_set_fld_plain m name v : plain_name (m_num m) name = true ->
  norm_msg (set_fld m name v) = set_fld (norm_msg m) name v.
Proof.
  unfold plain_name, set_fld. change (m_num (norm_msg m)) with (m_num m). destruct (sindex_of (m_num m) name) as [i|]; [|reflexivity].
  intros Hp. unfold norm_msg. cbn [m_num m_fields]. f_equal. rewrite norm_fields_set_nth. cbn [Nat.add].
  now rewrite norm_at_plain.
Qed.

Lemma mne_refl m : msg_norm_eq m m.
Proof. split; reflexivity. Qed.

Lemma mne_fld_norm m m' name i : msg_norm_eq m m' -> sindex_of (m_num m) name = Some i ->
  norm_at (m_num m) i (fld m' name) = norm_at (m_num m) i (fld m name).
Proof.
  intros [Hn He] Hs. unfold fld. rewrite Hn, Hs, <- !nth_default_eq. unfold nth_default.
  pose proof (f_equal (fun x => nth_error (m_fields x) i) He) as E. unfold norm_msg in E. cbn [m_fields] in E.
  rewrite !map_fields_nth_error, Hn in E.
  destruct (nth_error (m_fields m') i), (nth_error (m_fields m) i); try discriminate E; [|reflexivity].
  injection E as E. exact E.
Qed.

Lemma mne_fld m m' name : msg_norm_eq m m' -> plain_name (m_num m) name = true -> fld m' name = fld m name.
Proof.
  intros H Hp. unfold plain_name in Hp. destruct (sindex_of (m_num m) name) as [i|] eqn:Es.
  - pose proof (mne_fld_norm m m' name i H Es) as E. now rewrite !norm_at_plain in E.
  - unfold fld. now rewrite (proj1 H), Es.
Qed.

Lemma mne_set_fld m m' name v : msg_norm_eq m m' -> plain_name (m_num m) name = true ->
  msg_norm_eq (set_fld m name v) (set_fld m' name v).
Proof.
  intros [Hn He] Hp. split; [now rewrite !set_fld_num|].
  rewrite !norm_set_fld_plain by (rewrite ?Hn; exact Hp). now rewrite He.
Qed.

Lemma mne_widen16 m m' src dst : msg_norm_eq m m' ->
  plain_name (m_num m) src = true -> plain_name (m_num m) dst = true ->
  msg_norm_eq (widen16 m src dst) (widen16 m' src dst).
Proof.
  intros H Hs Hd. unfold widen16. rewrite (mne_fld m m' src H Hs).
  destruct (_ =? _); [exact H|]. now apply mne_set_fld.
Qed.

(* side goals about the names a message number makes plain: the number by rewriting, the lookup of the names
   in the profile by evaluation *)
Ltac pn Hn := rewrite ?widen16_num, ?set_fld_num, Hn; vm_compute; reflexivity.

Lemma mne_widen_all pairs : forall m m', msg_norm_eq m m' ->
  forallb (plain_name (m_num m)) (C18Messages.pair_names pairs) = true ->
  msg_norm_eq (C18Messages.widen_all pairs m) (C18Messages.widen_all pairs m').
Proof.
  induction pairs as [|[s d] ps IH]; intros m m' H Hp; [exact H|].
  cbn [C18Messages.pair_names flat_map fst snd app forallb] in Hp.
  apply andb_true_iff in Hp as [Hs Hp]. apply andb_true_iff in Hp as [Hd Hp].
  rewrite !C18Messages.widen_all_cons. apply IH; [now apply mne_widen16|now rewrite widen16_num].
Qed.

Lemma mne_set_flds n l : forallb (plain_name n) l = true -> forall kvs m m', incl (map fst kvs) l -> m_num m = n ->
  msg_norm_eq m m' -> msg_norm_eq (C18Messages.set_flds m kvs) (C18Messages.set_flds m' kvs).
Proof.
  intros Hl. rewrite forallb_forall in Hl. induction kvs as [|[k v] r IH]; intros m m' Hks Hn H; [exact H|].
  apply incl_cons_inv in Hks as [Hk Hr]. rewrite !C18Messages.set_flds_cons.
  apply IH; [exact Hr|now rewrite set_fld_num|]. apply mne_set_fld; [exact H|]. rewrite Hn. now apply Hl.
Qed.

Lemma mne_expand_session_lap m m' : msg_norm_eq m m' -> (m_num m = c_MesgNumSession \/ m_num m = c_MesgNumLap) ->
  msg_norm_eq (expand_session_lap m) (expand_session_lap m').
Proof.
  intros H Hn. rewrite (C18Messages.expand_session_lap_chain m), (C18Messages.expand_session_lap_chain m'). apply mne_widen_all; [exact H|]. destruct Hn as [Hn|Hn]; pn Hn.
Qed.

Lemma mne_expand_segment_lap m m' : msg_norm_eq m m' -> m_num m = c_MesgNumSegmentLap ->
  msg_norm_eq (expand_segment_lap m) (expand_segment_lap m').
Proof. intros H Hn. rewrite (C18Messages.expand_segment_lap_chain m), (C18Messages.expand_segment_lap_chain m'). apply mne_widen_all; [exact H|pn Hn]. Qed.

Lemma mne_expand_segment_point m m' : msg_norm_eq m m' -> m_num m = c_MesgNumSegmentPoint ->
  msg_norm_eq (expand_segment_point m) (expand_segment_point m').
Proof. intros H Hn. unfold expand_segment_point. apply mne_widen16; [exact H|pn Hn|pn Hn]. Qed.

(* the first statement of the event expander is a widen16 step *)
Lemma event_data_step_widen m : C18Messages.event_data_step m = widen16 m "Data16" "Data".
Proof. unfold C18Messages.event_data_step, widen16. reflexivity. Qed.

Lemma mne_expand_event m m' : msg_norm_eq m m' -> m_num m = c_MesgNumEvent ->
  msg_norm_eq (expand_event m) (expand_event m').
Proof.
  intros H Hn. rewrite (C18Messages.expand_event_steps m), (C18Messages.expand_event_steps m'),
    (event_data_step_widen m), (event_data_step_widen m').
  pose proof (mne_widen16 m m' "Data16" "Data" H ltac:(pn Hn) ltac:(pn Hn)) as H1.
  rewrite (mne_fld _ _ "Data" H1), (mne_fld _ _ "Event" H1) by pn Hn.
  apply (mne_set_flds c_MesgNumEvent C18Messages.event_names);
    [vm_compute; reflexivity|apply C18Messages.event_tail_names|now rewrite widen16_num|exact H1].
Qed.

Lemma is_inv_byte_uval x : is_inv base_byte x = true -> uval x = 255.
Proof.
  change (is_inv base_byte x) with (goval_eqb x (VU 255)). destruct x; cbn [goval_eqb]; try discriminate.
  intros H. now apply N.eqb_eq in H.
Qed.

Lemma strip_length bt : forall l, (List.length (strip_trailing bt l) <= List.length l)%nat.
Proof.
  induction l as [|x r IH]; [apply Nat.le_refl|]. cbn [strip_trailing].
  destruct (strip_trailing bt r) as [|y r'].
  - destruct (is_inv bt x); cbn [List.length]; lia.
  - cbn [List.length] in *. lia.
Qed.

Lemma strip_nil_all bt : forall l, strip_trailing bt l = [] -> forallb (is_inv bt) l = true.
Proof.
  induction l as [|x r IH]; [reflexivity|]. cbn [strip_trailing forallb].
  destruct (strip_trailing bt r) as [|y r']; [|discriminate].
  destruct (is_inv bt x); [intros _; now apply IH|discriminate].
Qed.

Lemma strip_prefix_inv bt : forall l k, forallb (is_inv bt) (firstn k l) = true ->
  strip_trailing bt l = [] \/ (k < List.length (strip_trailing bt l))%nat.
Proof.
  induction l as [|x r IH]; intros k H; [now left|].
  destruct k as [|k].
  - cbn [strip_trailing]. destruct (strip_trailing bt r); [destruct (is_inv bt x); [now left|right; cbn; lia]|right; cbn; lia].
  - cbn [firstn forallb] in H. apply andb_true_iff in H as [Hx Hr]. cbn [strip_trailing].
    destruct (IH k Hr) as [E|L].
    + rewrite E, Hx. now left.
    + destruct (strip_trailing bt r) as [|y r']; [cbn in L; lia|]. right. cbn [List.length] in *. lia.
Qed.

(* a list that strips to nothing or to more than three elements does not trigger the component *)
Definition quiet (l : list goval) : Prop :=
  strip_trailing base_byte l = [] \/ (3 < List.length (strip_trailing base_byte l))%nat.

Lemma quiet_off l : quiet l ->
  (Nat.eqb (List.length (map uval l)) 3) && existsb (fun v => negb (v =? 0xFF)) (map uval l) = false.
Proof.
  intros [E|L].
  - apply strip_nil_all in E. replace (existsb _ _) with false; [apply andb_false_r|]. symmetry.
    clear -E. induction l as [|x r IH]; [reflexivity|]. cbn [forallb] in E. apply andb_true_iff in E as [Hx Hr].
    cbn [map existsb]. rewrite (is_inv_byte_uval x Hx). cbn [N.eqb Pos.eqb negb orb]. now apply IH.
  - pose proof (strip_length base_byte l). rewrite map_length.
    destruct (Nat.eqb_spec (List.length l) 3); [lia|reflexivity].
Qed.

Lemma norm_at_csd : exists i, sindex_of c_MesgNumRecord "CompressedSpeedDistance" = Some i /\
  forall v, elems (norm_at c_MesgNumRecord i v) = strip_trailing base_byte (elems v).
Proof. exists C18Good.csd_idx. split; [exact C18Good.csd_sindex|]. intros v. reflexivity. Qed.

Lemma csd_free_quiet m : m_num m = c_MesgNumRecord -> csd_free m = true -> quiet (elems (fld m "CompressedSpeedDistance")).
Proof.
  intros Hn H. unfold csd_free in H. rewrite Hn, N.eqb_refl in H.
  destruct (fld m "CompressedSpeedDistance"); try (left; reflexivity).
  cbn [elems]. unfold quiet. apply strip_prefix_inv. exact H.
Qed.

(* [quiet] looks at the stripped list only *)
Lemma mne_csd_off m m' : msg_norm_eq m m' -> m_num m = c_MesgNumRecord ->
  quiet (elems (fld m "CompressedSpeedDistance")) -> csd_valid m' = false.
Proof.
  intros H Hn Hq. destruct norm_at_csd as (i & Es & En). rewrite <- Hn in Es.
  pose proof (f_equal elems (mne_fld_norm m m' _ i H Es)) as E. rewrite Hn, !En in E.
  unfold csd_valid, csd_bytes. destruct (fld m' "CompressedSpeedDistance"); try reflexivity.
  apply quiet_off. unfold quiet. cbn [elems] in E. now rewrite E.
Qed.

(* the accumulators of total_cycles and accumulated_power: mask 0, value 0 (new(uint32Accumulator)) *)
Definition acc0 (o : option accum) : Prop :=
  match o with None => True | Some a => ac_mask a = 0 /\ ac_value a = 0 end.
Definition ginv (g : gstate) : Prop := acc0 (g_cycles g) /\ acc0 (g_power g).

Lemma ginv_init : ginv g_init.
Proof. split; exact I. Qed.

(* the same states as Model.Shared's gwf, of which Proofs/C08Route.v has what the two expansions compute *)
Lemma ginv_gwf g : ginv g -> Shared.gwf g.
Proof. intros [Hc Hp]. split; intros a E; [rewrite E in Hc; exact Hc|rewrite E in Hp; exact Hp]. Qed.

Definition mg_rel (r r' : msg * gstate) : Prop := msg_norm_eq (fst r) (fst r') /\ ginv (snd r) /\ ginv (snd r').

Lemma mne_expand_cycles r r' : mg_rel r r' -> m_num (fst r) = c_MesgNumRecord ->
  mg_rel (expand_cycles (snd r) (fst r)) (expand_cycles (snd r') (fst r')).
Proof.
  destruct r as [m g], r' as [m' g']. intros (H & Hg & Hg') Hn. cbn [fst snd] in *. rewrite !C08Route.expand_cycles_gwf by now apply ginv_gwf.
  rewrite (mne_fld m m' "Cycles" H) by pn Hn. destruct (_ =? _); [now split|].
  split; [apply mne_set_fld; [exact H|pn Hn]|]. split; (split; [now split|]); [apply Hg|apply Hg'].
Qed.

Lemma mne_expand_power r r' : mg_rel r r' -> m_num (fst r) = c_MesgNumRecord ->
  mg_rel (expand_power (snd r) (fst r)) (expand_power (snd r') (fst r')).
Proof.
  destruct r as [m g], r' as [m' g']. intros (H & Hg & Hg') Hn. cbn [fst snd] in *. rewrite !C08Route.expand_power_gwf by now apply ginv_gwf.
  rewrite (mne_fld m m' "CompressedAccumulatedPower" H) by pn Hn. destruct (_ =? _); [now split|].
  split; [apply mne_set_fld; [exact H|pn Hn]|]. split; (split; [|now split]); [apply Hg|apply Hg'].
Qed.

Lemma mne_expand_csd r r' : mg_rel r r' -> m_num (fst r) = c_MesgNumRecord ->
  quiet (elems (fld (fst r) "CompressedSpeedDistance")) ->
  mg_rel (expand_csd (snd r) (fst r)) (expand_csd (snd r') (fst r')).
Proof.
  intros R Hn Hq.
  rewrite (C18Messages.expand_csd_invalid _ _ (mne_csd_off _ _ (mne_refl _) Hn Hq)),
          (C18Messages.expand_csd_invalid _ _ (mne_csd_off _ _ (proj1 R) Hn Hq)).
  destruct r, r'. exact R.
Qed.

Lemma mne_record_tail g m m' : msg_norm_eq m m' -> m_num m = c_MesgNumRecord ->
  quiet (elems (fld m "CompressedSpeedDistance")) -> ginv g ->
  mg_rel (C18Messages.record_tail g_init m) (C18Messages.record_tail g m').
Proof.
  intros H Hn Hq Hg. unfold C18Messages.record_tail. cbv zeta.
  apply mne_expand_power; [apply mne_expand_cycles; [apply (mne_expand_csd (m, g_init) (m', g)); [|exact Hn|exact Hq]|]|].
  - split; [exact H|]. split; [exact ginv_init|exact Hg].
  - now rewrite expand_csd_num.
  - now rewrite expand_cycles_num, expand_csd_num.
Qed.

Lemma mne_expand_record g m m' : msg_norm_eq m m' -> m_num m = c_MesgNumRecord -> csd_free m = true -> ginv g ->
  mg_rel (expand_record g_init m) (expand_record g m').
Proof.
  intros H Hn Hc Hg. rewrite !C18Messages.expand_record_steps.
  apply mne_record_tail; [|now rewrite C18Messages.widen_all_num| |exact Hg].
  - apply mne_widen_all; [exact H|pn Hn].
  - rewrite C18Messages.record_head_frame by (assumption || C18Messages.names Hn). now apply csd_free_quiet.
Qed.

(* expandComponents on the decoded message in any reachable accumulator state vs on the original on fresh ones *)
Lemma mne_expand_components g m m' : msg_norm_eq m m' -> csd_free m = true -> ginv g -> expands (m_num m) = true ->
  match expand_components g_init m, expand_components g m' with
  | Some (me, _), Some (me', g') => msg_norm_eq me me' /\ ginv g'
  | _, _ => False
  end.
Proof.
  intros H Hc Hg He. unfold expand_components. cbv zeta. rewrite (proj1 H).
  (* the expanders other than the record's leave the accumulators alone *)
  destruct ((m_num m =? c_MesgNumSession) || (m_num m =? c_MesgNumLap)) eqn:E1.
  { split; [|exact Hg]. apply mne_expand_session_lap; [exact H|]. apply orb_true_iff in E1 as [E|E]; apply N.eqb_eq in E; auto. }
  destruct (m_num m =? c_MesgNumRecord) eqn:E2.
  { apply N.eqb_eq in E2. destruct (mne_expand_record g m m' H E2 Hc Hg) as (R & _ & G).
    destruct (expand_record g_init m), (expand_record g m'). now split. }
  destruct (m_num m =? c_MesgNumEvent) eqn:E3.
  { split; [|exact Hg]. apply mne_expand_event; [exact H|now apply N.eqb_eq]. }
  destruct (m_num m =? c_MesgNumSegmentLap) eqn:E4.
  { split; [|exact Hg]. apply mne_expand_segment_lap; [exact H|now apply N.eqb_eq]. }
  unfold expands in He. apply orb_false_elim in E1 as [E1a E1b].
  rewrite E2, E1b, E1a, E4, E3 in He. discriminate.
Qed.

(* the message the comparator expects where the container keeps m: what a container with fresh accumulators stores *)
Definition exp_of (ft : N) (m : msg) : msg :=
  match stored ft g_init m with Some (x, _) => x | None => m end.

Lemma exp_of_num ft m : m_num (exp_of ft m) = m_num m.
Proof. unfold exp_of. destruct (stored ft g_init m) as [[x g]|] eqn:E; [exact (stored_num _ _ _ _ _ E)|reflexivity]. Qed.

Lemma stored_rel ft g m m' : msg_norm_eq m m' -> csd_free m = true -> ginv g ->
  exists s g', stored ft g m' = Some (s, g') /\ msg_norm_eq (exp_of ft m) s /\ ginv g'.
Proof.
  intros H Hc Hg. unfold exp_of, stored. rewrite (proj1 H).
  destruct (find_slot ft (m_num m)) as [[i multi]|]; [|exists m', g; auto].
  destruct (Nat.ltb i NCOMMON); [exists m', g; auto|].
  destruct (expands (m_num m)) eqn:Ee; [|exists m', g; auto].
  pose proof (mne_expand_components g m m' H Hc Hg Ee) as R.
  destruct (expand_components g_init m) as [[me g0]|], (expand_components g m') as [[me' g']|]; try contradiction.
  exists me', g'. split; [reflexivity|exact R].
Qed.

Lemma stored_run_rel ft : forall ms ms' g, Forall2 msg_norm_eq ms ms' -> Forall (fun m => csd_free m = true) ms -> ginv g ->
  exists sm g', stored_run ft g ms' = Some (sm, g') /\ Forall2 (fun m s => msg_norm_eq (exp_of ft m) s) ms sm /\ ginv g'.
Proof.
  induction ms as [|m r IH]; intros ms' g HF Hc Hg; inversion HF as [|? m' ? r' Hm Hr]; subst.
  - exists [], g. split; [reflexivity|]. split; [constructor|exact Hg].
  - inversion Hc as [|? ? Hc1 Hc2]; subst. cbn [stored_run].
    destruct (stored_rel ft g m m' Hm Hc1 Hg) as (s & g1 & Es & Rs & Gs). rewrite Es.
    destruct (IH r' g1 Hr Hc2 Gs) as (sm & g' & Esm & Rsm & Gsm). rewrite Esm.
    exists (s :: sm), g'. split; [reflexivity|]. split; [constructor; assumption|exact Gsm].
Qed.

(* in the slot that holds its type, this is the comparator's expected message *)
Lemma expected_msg_exp_of ft i multi m : In ft valid_file_types -> find_slot ft (m_num m) = Some (i, multi) ->
  expected_msg ft i m = exp_of ft m.
Proof.
  intros Hft Hs. unfold expected_msg, exp_of, stored, slot_expands. rewrite (routes_char ft (m_num m) Hft).
  unfold expected_routes. rewrite Hs. cbn [existsb]. rewrite Nat.eqb_refl. cbn [andb]. rewrite orb_false_r.
  destruct (Nat.ltb i NCOMMON); [reflexivity|]. destruct (expands (m_num m)); reflexivity.
Qed.

Lemma cmp6_from_rel ft i multi x y : In ft valid_file_types -> find_slot ft (m_num x) = Some (i, multi) ->
  msg_norm_eq (exp_of ft x) y -> cmp6 ft i x y = true.
Proof.
  intros Hft Hs [_ He]. unfold cmp6. rewrite (expected_msg_exp_of ft i multi x Hft Hs), He. apply msg_eqb_refl.
Qed.

Lemma Forall2_impl {A B} (P Q : A -> B -> Prop) : (forall x y, P x y -> Q x y) -> forall a b, Forall2 P a b -> Forall2 Q a b.
Proof. intros HPQ. induction 1; constructor; auto. Qed.

Lemma filter_msgs_wf mn held : forall s, forallb (msg_wf mn) s = true ->
  filter (fun m => m_num m =? held) s = if mn =? held then s else [].
Proof.
  induction s as [|m r IH]; intros H; [now destruct (mn =? held)|]. cbn [forallb] in H. apply andb_true_iff in H as [Hm Hr].
  cbn [filter]. rewrite (C07MsgWf.msg_wf_num _ _ Hm), (IH Hr).
  now destruct (mn =? held).
Qed.

Lemma filter_visible_none held : forall descs k slots, slots_wf k descs slots = true ->
  ~ In held (map (fun s : string * bool * N => snd s) descs) ->
  filter (fun m => m_num m =? held) (visible k slots) = [].
Proof.
  refine (slots_wf_cases _ _ _); [reflexivity|]. intros k nm mu mn dr s sr Hm _ _ _ IH Hnot.
  cbn [visible]. rewrite filter_app. cbn [map snd In] in Hnot.
  rewrite IH by tauto. rewrite app_nil_r.
  destruct (Nat.eqb k 3 || Nat.eqb k 4); [reflexivity|]. rewrite (filter_msgs_wf mn held s Hm).
  destruct (N.eqb_spec mn held); [tauto|reflexivity].
Qed.

(* the message numbers of a container's slots are distinct, so filtering the visible messages by the number of
   slot j gives back slot j (nothing, if it is hidden) *)
Lemma slots_wf_nth : forall descs k slots, slots_wf k descs slots = true -> forall j name multi held,
  NoDup (map (fun s : string * bool * N => snd s) descs) ->
  nth_error descs j = Some (name, multi, held) ->
  forallb (msg_wf held) (nth j slots []) = true /\
  (multi || Nat.leb (List.length (nth j slots [])) 1) = true /\
  filter (fun m => m_num m =? held) (visible k slots) = if hidden_slot (k + j) then [] else nth j slots [].
Proof.
  refine (slots_wf_cases _ _ _); [intros k [|j]; discriminate|].
  intros k nm mu mn dr s sr Hm Hc _ Hrest IH j name multi held Hnd Hn.
  cbn [map snd] in Hnd. inversion Hnd as [|? ? Hnot Hnd']; subst.
  cbn [visible]. rewrite filter_app. fold (hidden_slot k). destruct j as [|j]; cbn [nth_error nth] in *.
  - inversion Hn; subst. split; [exact Hm|]. split; [exact Hc|].
    rewrite (filter_visible_none held dr (S k) sr Hrest Hnot), app_nil_r, Nat.add_0_r.
    destruct (hidden_slot k); [reflexivity|]. now rewrite (filter_msgs_wf held held s Hm), N.eqb_refl.
  - destruct (IH j name multi held Hnd' Hn) as (A & B & C). split; [exact A|]. split; [exact B|].
    rewrite C, Nat.add_succ_r. cbn [Nat.add].
    replace (filter _ (if hidden_slot k then [] else s)) with (@nil msg); [reflexivity|].
    destruct (hidden_slot k); [reflexivity|]. rewrite (filter_msgs_wf mn held s Hm).
    destruct (N.eqb_spec mn held) as [->|_]; [|reflexivity].
    exfalso. apply Hnot. apply nth_error_In in Hn. change held with (snd (name, multi, held)). now apply in_map.
Qed.

Lemma slots_eq_nth cmp : forall a b k, List.length a = List.length b ->
  (forall i, (i < List.length a)%nat -> hidden_slot (k + i) = false -> forall2b (cmp (k + i)%nat) (nth i a []) (nth i b []) = true) ->
  slots_eq cmp k a b = true.
Proof.
  induction a as [|s ar IH]; intros [|s' br] k Hl H; cbn [List.length] in Hl; try discriminate; [reflexivity|].
  cbn [slots_eq]. apply andb_true_iff. split.
  - destruct (hidden_slot k) eqn:Eh; [reflexivity|]. specialize (H 0%nat ltac:(cbn [List.length]; lia)).
    rewrite Nat.add_0_r in H. exact (H Eh).
  - apply IH; [now inversion Hl|]. intros i Hi Hh. specialize (H (S i) ltac:(cbn [List.length]; lia)).
    rewrite Nat.add_succ_r in H. exact (H Hh).
Qed.

Lemma slot_cmp ft i name multi held s s' : In ft valid_file_types -> nth_error (slots_of ft) i = Some (name, multi, held) ->
  forallb (msg_wf held) s = true -> Forall2 (fun m y => msg_norm_eq (exp_of ft m) y) s s' -> forall2b (cmp6 ft i) s s' = true.
Proof.
  intros Hft Hd Hw H. apply forall2b_Forall2. eapply Forall2_impl_l; [|exact (msgs_wf_num _ _ Hw)|exact H]. intros x y Hx Hq.
  apply (cmp6_from_rel ft i multi x y Hft); [|exact Hq].
  rewrite Hx. apply (find_slot_iff ft _ _ _ Hft). eauto.
Qed.

Lemma slot_roundtrip ft slots ms' i name multi held : In ft valid_file_types ->
  slots_wf 0 (slots_of ft) slots = true ->
  Forall2 (fun m s => msg_norm_eq (exp_of ft m) s) (visible 0 slots) ms' ->
  nth_error (slots_of ft) i = Some (name, multi, held) ->
  (multi || Nat.leb (List.length (filter (fun m => m_num m =? held) ms')) 1) = true /\
  if hidden_slot i then filter (fun m => m_num m =? held) ms' = []
  else forall2b (cmp6 ft i) (nth i slots []) (filter (fun m => m_num m =? held) ms') = true.
Proof.
  intros Hft Hsw Hrel Hd.
  destruct (slots_wf_nth _ 0 slots Hsw i name multi held (slots_nodup ft Hft) Hd) as (Hwi & Hci & Efv). cbn [Nat.add] in Efv.
  assert (Hs : Forall2 (fun m s => msg_norm_eq (exp_of ft m) s) (if hidden_slot i then [] else nth i slots [])
                 (filter (fun m => m_num m =? held) ms')).
  { rewrite <- Efv. apply Forall2_filter; [|exact Hrel]. intros x y [Hxy _]. rewrite exp_of_num in Hxy. now rewrite Hxy. }
  split.
  - rewrite (Forall2_length' _ _ _ Hs). destruct (hidden_slot i); [apply orb_true_r|exact Hci].
  - destruct (hidden_slot i); [now inversion Hs|]. exact (slot_cmp ft i name multi held _ _ Hft Hd Hwi Hs).
Qed.

Lemma adds_no_panic ft : In ft valid_file_types -> forall ms f g, f_inited f = Some ft ->
  exists f' g', adds f g ms = AddOk f' g' /\ f_inited f' = Some ft /\ List.length (f_slots f') = List.length (f_slots f).
Proof.
  intros Hft. induction ms as [|m r IH]; intros f g Hi; cbn [adds].
  - exists f, g. auto.
  - destruct (add_no_panic ft Hft f g m Hi) as (f1 & g1 & Ea & Hi1 & Hl1). rewrite Ea.
    destruct (IH f1 g1 Hi1) as (f' & g' & Ea' & Hi' & Hl'). exists f', g'. split; [exact Ea'|]. split; [exact Hi'|congruence].
Qed.

(* the File start_file returns: file_id alone in slot 0, the other common slots and the n container slots empty *)
Definition started (h : header) (ft : N) (m0 : msg) (n : nat) : file :=
  mk_file h 0 ([[m0]; []; []; []; []] ++ repeat [] n) (Some ft) None None.

Lemma start_file_ok h g m0 cn descs : m_num m0 = c_MesgNumFileId ->
  ft_entry (uval (fld m0 "Type")) = Some (true, cn, descs) ->
  start_file h g m0 = Some (started h (uval (fld m0 "Type")) m0 (List.length descs - NCOMMON), g).
Proof.
  intros Hn He. unfold start_file. rewrite (file_add_uninited (new_file h) g m0 eq_refl), Hn, file_id_slot.
  change (Nat.ltb 0 NCOMMON) with true. cbv iota.
  unfold file_init, file_type. cbn [with_slots new_file f_inited f_slots f_header f_crc f_unkm f_unkf set_nth nth].
  rewrite He. reflexivity.
Qed.

Lemma started_slot h ft m0 n i : i <> 0%nat -> nth i (f_slots (started h ft m0 n)) [] = [].
Proof.
  intros Hi. unfold started. cbn [f_slots].
  destruct i as [|[|[|[|[|i]]]]]; cbn [app nth]; try reflexivity; [contradiction|apply nth_repeat].
Qed.

Lemma slot_contents_placed multi held sm :
  (multi || Nat.leb (List.length (filter (fun m => m_num m =? held) sm)) 1) = true ->
  slot_contents multi held [] sm = filter (fun m => m_num m =? held) sm.
Proof.
  intros H. unfold slot_contents. destruct multi; [reflexivity|]. cbn [orb] in H.
  destruct (filter _ sm) as [|x [|y r]]; [reflexivity|reflexivity|discriminate].
Qed.

Lemma routed_slot ft h m0' n sm i name multi held : In ft valid_file_types -> m_num m0' = c_MesgNumFileId ->
  find_slot ft c_MesgNumFileId = Some (0%nat, false) -> nth_error (slots_of ft) i = Some (name, multi, held) ->
  (multi || Nat.leb (List.length (filter (fun m => m_num m =? held) (m0' :: sm))) 1) = true ->
  slot_contents multi held (nth i (f_slots (started h ft m0' n)) []) sm = filter (fun m => m_num m =? held) (m0' :: sm).
Proof.
  intros Hft Hn0 Hfs0 Hd Hc. pose proof (proj2 (find_slot_iff ft held i multi Hft) (ex_intro _ name Hd)) as F.
  cbn [filter] in *. rewrite Hn0 in *. destruct (N.eqb_spec c_MesgNumFileId held) as [<-|Hne].
  - rewrite Hfs0 in F. inversion F; subst i multi. unfold started, slot_contents. cbn [f_slots app nth orb List.length] in *.
    destruct (filter _ sm); [reflexivity|discriminate].
  - rewrite started_slot; [now apply slot_contents_placed|]. intros ->. apply Hne.
    pose proof (proj1 (find_slot_iff ft _ _ _ Hft) Hfs0) as [nm0 Hd0]. rewrite Hd0 in Hd. now inversion Hd.
Qed.

Lemma route_msgs_slots ft cn descs h g m0' rest' : In ft valid_file_types -> ft_entry ft = Some (true, cn, descs) ->
  m_num m0' = c_MesgNumFileId -> uval (fld m0' "Type") = ft ->
  exists f g' sm,
    start_file h g m0' = Some (started h ft m0' (List.length descs - NCOMMON), g) /\
    route_msgs h g (m0' :: rest') = Some (f, g') /\
    f_inited f = Some ft /\ List.length (f_slots f) = List.length descs /\
    stored_run ft g (m0' :: rest') = Some (m0' :: sm, g') /\
    forall i name multi held, nth_error descs i = Some (name, multi, held) ->
      (multi || Nat.leb (List.length (filter (fun m => m_num m =? held) (m0' :: sm))) 1) = true ->
      nth i (f_slots f) [] = filter (fun m => m_num m =? held) (m0' :: sm).
Proof.
  intros Hft Ee Hn0 Htype.
  assert (Hso : slots_of ft = descs) by (unfold slots_of; now rewrite Ee).
  pose proof (ft_entry_ok _ _ _ Ee) as Hct. destruct (ct_file_id _ Hct) as (nm0 & drest & Hhead). pose proof (ct_common _ Hct) as Hlen5.
  assert (Hfs0 : find_slot ft c_MesgNumFileId = Some (0%nat, false)).
  { apply (find_slot_iff ft _ _ _ Hft). exists nm0. now rewrite Hso, Hhead. }
  pose proof (start_file_ok h g m0' cn descs Hn0) as Hstart. rewrite Htype in Hstart. specialize (Hstart Ee).
  set (f2 := started h ft m0' (List.length descs - NCOMMON)) in *.
  assert (Hl2 : List.length (f_slots f2) = List.length descs).
  { unfold f2, started. cbn [f_slots]. rewrite app_length, repeat_length. unfold NCOMMON. cbn [List.length]. lia. }
  destruct (adds_no_panic ft Hft rest' f2 g eq_refl) as (f & g' & Hadds & Hif & Hlf).
  destruct (adds_stored_run ft Hft rest' f2 g f g' eq_refl ltac:(now rewrite Hso) Hadds) as (sm & Hsm & _ & Hslots).
  exists f, g', sm. split; [exact Hstart|]. split; [unfold route_msgs; now rewrite Hstart, Hadds|].
  split; [exact Hif|]. split; [congruence|]. split.
  - assert (Est0 : stored ft g m0' = Some (m0', g)) by (unfold stored; rewrite Hn0, Hfs0; reflexivity).
    cbn [stored_run]. now rewrite Est0, Hsm.
  - rewrite <- Hso. intros i name multi held Hd Hc. rewrite (Hslots _ _ _ _ Hd).
    now apply (routed_slot ft h m0' _ sm i name multi held).
Qed.

Theorem route_roundtrip_g : forall f0 msgs' h g,
  wf_file f0 = true -> in_domain f0 = true -> Forall2 msg_norm_eq (file_msgs f0) msgs' -> ginv g ->
  exists f2 g1 f g',
    start_file h g (hd dummy_msg msgs') = Some (f2, g1) /\
    route_msgs h g msgs' = Some (f, g') /\ ginv g' /\
    forall file', f_slots file' = f_slots f -> f_inited file' = f_inited f -> content_eq6 f0 file' = true.
Proof.
  intros f0 msgs' h g Hwf Hdom HF Hg.
  destruct (wf_file_inv f0 Hwf) as (cn & descs & m0 & sr & Ei & Ee & Hsw & Eslots & Hn0).
  set (ft := file_type f0) in *.
  pose proof (ft_entry_valid _ _ _ Ee) as Hft.
  assert (Hso : slots_of ft = descs) by (unfold slots_of; now rewrite Ee).
  pose proof (slots_wf_length _ _ _ Hsw) as Hlen.
  unfold in_domain in Hdom. rewrite file_msgs_visible in HF, Hdom.
  (* the file_id message *)
  pose proof HF as HF0. rewrite Eslots in HF0. apply Forall2_cons_l in HF0 as (m0' & rest' & -> & Hm0 & _).
  pose proof (proj1 Hm0) as Hn0'. rewrite Hn0 in Hn0'.
  assert (Htype : uval (fld m0' "Type") = ft).
  { rewrite (mne_fld m0 m0' "Type" Hm0) by pn Hn0.
    unfold ft, file_type. rewrite Eslots. reflexivity. }
  destruct (route_msgs_slots ft cn descs h g m0' rest' Hft Ee Hn0' Htype)
    as (f & g' & sm & Hstart & Hroute & Hif & Hlf & Hsm & Hslots).
  assert (Hcsd : Forall (fun m => csd_free m = true) (visible 0 (f_slots f0))).
  { apply Forall_forall. intros x Hx. rewrite forallb_forall in Hdom. specialize (Hdom x Hx).
    unfold msg_in_domain in Hdom. now apply andb_true_iff in Hdom as [_ Hdom]. }
  destruct (stored_run_rel ft _ _ g HF Hcsd Hg) as (sma & ga & Hsma & Hrel & Hga). rewrite Hsm in Hsma. inversion Hsma; subst sma ga.
  exists (started h ft m0' (List.length descs - NCOMMON)), g, f, g'.
  split; [exact Hstart|]. split; [exact Hroute|]. split; [exact Hga|].
  rewrite <- Hso in Hsw.
  assert (Hslot : forall i, (i < List.length descs)%nat ->
            (if hidden_slot i then nth i (f_slots f) [] = []
             else forall2b (cmp6 ft i) (nth i (f_slots f0) []) (nth i (f_slots f) []) = true)).
  { intros i Hi. destruct (nth_error descs i) as [[[name multi] held]|] eqn:Hd; [|apply nth_error_None in Hd; lia].
    rewrite <- Hso in Hd. destruct (slot_roundtrip ft _ _ i name multi held Hft Hsw Hrel Hd) as [Hc Hcmp].
    rewrite Hso in Hd. now rewrite (Hslots _ _ _ _ Hd Hc). }
  pose proof (ct_common _ (ft_entry_ok _ _ _ Ee)) as Hlen5.
  intros file' Hsl Hin. unfold content_eq6. rewrite Ei, Hin, Hif. cbn [opt_n_eqb]. rewrite N.eqb_refl. cbn [andb].
  apply andb_true_iff. split.
  - (* the hidden slots stay empty *)
    unfold no_hidden. rewrite Hsl, (Hslot 3%nat), (Hslot 4%nat) by lia. reflexivity.
  - unfold ft_of. rewrite Ei. apply slots_eq_nth; [congruence|].
    intros i Hi Hhid. cbn [Nat.add] in Hhid |- *. rewrite Hlen in Hi. specialize (Hslot i Hi). rewrite Hhid in Hslot. now rewrite Hsl.
Qed.

Theorem route_roundtrip : forall f0 msgs' h,
  wf_file f0 = true -> in_domain f0 = true -> Forall2 msg_norm_eq (file_msgs f0) msgs' ->
  exists f2 g1 f g',
    start_file h g_init (hd dummy_msg msgs') = Some (f2, g1) /\
    route_msgs h g_init msgs' = Some (f, g') /\
    forall file', f_slots file' = f_slots f -> f_inited file' = f_inited f -> content_eq6 f0 file' = true.
Proof.
  intros f0 msgs' h Hwf Hdom HF.
  destruct (route_roundtrip_g f0 msgs' h g_init Hwf Hdom HF ginv_init) as (f2 & g1 & f & g' & H1 & H2 & _ & H3).
  exists f2, g1, f, g'. auto.
Qed.

(* an activity File: file_id and two record messages with cycles set (total_cycles is derived: the expected
   message differs from the stored one, and the decoded side may be in any reachable accumulator state).
   Proofs/EncExamples.v has an ex_file and an ex_record of its own (another activity File): a file that imports
   both means those of the one it imports last *)
Definition ex_msg (n : N) : msg := match mesg_all_invalid n with Some m => m | None => mk_msg 0 [] end.
Definition ex_file_id : msg := set_fld (ex_msg c_MesgNumFileId) "Type" (VU 4).
Definition ex_record : msg := set_fld (set_fld (ex_msg c_MesgNumRecord) "Cycles" (VU 5)) "Speed" (VU 1000).
Definition ex_file : file :=
  mk_file zero_header 0 ([[ex_file_id]] ++ repeat [] 7 ++ [[ex_record; ex_record]] ++ repeat [] 11) (Some 4) None None.

Example route_roundtrip_nonvacuous :
  wf_file ex_file = true /\ in_domain ex_file = true /\ List.length (file_msgs ex_file) = 3%nat /\
  slot_expands 4 8 c_MesgNumRecord = true /\
  exists f g', route_msgs zero_header g_init (file_msgs ex_file) = Some (f, g') /\ content_eq6 ex_file f = true.
Proof.
  split; [vm_compute; reflexivity|]. split; [vm_compute; reflexivity|]. split; [vm_compute; reflexivity|].
  split; [vm_compute; reflexivity|].
  destruct (route_roundtrip ex_file (file_msgs ex_file) zero_header) as (f2 & g1 & f & g' & _ & Hr & Hc).
  - vm_compute; reflexivity.
  - vm_compute; reflexivity.
  - generalize (file_msgs ex_file). induction l; constructor; [apply mne_refl|assumption].
  - exists f, g'. split; [exact Hr|]. now apply Hc.
Qed.

Print Assumptions route_roundtrip_g.
