(* C01: the validator never panics on bytes, and what it admits is stored
   without panic for ANY data bytes, by parseDataFields. *)
From Coq Require Import NArith ZArith List Bool Arith Lia.
From FitV Require Import Proofs.Util Model.Values Model.Bytes Model.Base Model.Profile Model.Reflect Model.IO
  Model.Route Model.Decode Spec.ProfileWf Proofs.ProfileProofs
  Proofs.DecodeLemmas Proofs.DecodeFrame Proofs.C01Hoare Proofs.C01Cells.
Import ListNotations.
Local Open Scope N_scope.

Lemma np_bind_ret {A B} (a : A) (k : A -> P B) x s Q : np (k a) x s Q -> np (bind (Ret a) k) x s Q.
Proof. exact (fun H => H). Qed.
Lemma np_bind_fail {A B} e (k : A -> P B) x s Q : np (bind (fail e) k) x s Q.
Proof. exact I. Qed.

Lemma entry_cell gmn fdn pf bt sz : get_field gmn fdn = Some pf -> bt < 256 -> sz < 256 ->
  cell_ok (fit_kind (pf_t pf)) (fit_array (pf_t pf)) (fit_base (pf_t pf)) bt sz = true.
Proof.
  intros H. apply valid_cell, (entry_desc_valid _ _ _ H).
Qed.

(* validateFieldDef never panics: for EVERY message number, field number,
   base-type byte and size byte *)
Theorem validate_no_panic : forall gmn fd w, fd_btype fd < 256 -> fd_size fd < 256 ->
  validate_field_def gmn fd <> VPanic w.
Proof.
  intros gmn fd w Hbt Hsz. rewrite validate_cell_eq.
  destruct (get_field gmn (fd_num fd)) as [p|] eqn:Hg; cbn [option_map].
  - pose proof (entry_cell _ _ _ _ _ Hg Hbt Hsz) as Hc. unfold cell_ok in Hc.
    destruct (validate_cell _ _ _); discriminate.
  - now apply nodesc_cell.
Qed.

Definition fdef_ok (gmn : N) (fd : fdef) : Prop :=
  validate_field_def gmn fd = VOk /\ fd_btype fd < 256 /\ fd_size fd < 256.

Lemma validate_all_cases gmn : forall fds, Forall (fun fd => fd_btype fd < 256 /\ fd_size fd < 256) fds ->
  match validate_all gmn fds with VOk => Forall (fdef_ok gmn) fds | VErr => True | VPanic _ => False end.
Proof.
  induction fds as [|fd r IH]; intros Hb; cbn [validate_all]; [constructor|].
  inversion Hb as [|? ? [H1 H2] Hr]; subst. pose proof (validate_no_panic gmn fd) as Hv.
  destruct (validate_field_def gmn fd) eqn:E; [|exact I|exact (Hv _ H1 H2 eq_refl)].
  specialize (IH Hr). destruct (validate_all gmn r); auto. constructor; [repeat split; assumption|exact IH].
Qed.

Lemma validate_all_ok gmn : forall fds, validate_all gmn fds = VOk -> Forall (fun fd => validate_field_def gmn fd = VOk) fds.
Proof.
  induction fds as [|fd r IH]; intros H; [constructor|]. cbn [validate_all] in H.
  destruct (validate_field_def gmn fd) eqn:E; try discriminate. constructor; auto.
Qed.

(* the parts of the decoder state field parsing leaves alone (nothing to do with the
   FIT frame of header, data and CRC that [frame_len] measures elsewhere): it stores to the clock and the
   counters only, so the okp family of DecodeFrame.v gives [frame s] of every state a data record returns.
   StreamDenoteData.frame is the same notion with the accumulators ds_g kept as well *)
Definition frame (s s' : dstate) : Prop := ds_defs s' = ds_defs s /\ ds_file s' = ds_file s.
Lemma frame_refl s : frame s s. Proof. split; reflexivity. Qed.
Lemma frame_clock s0 : clock_free (frame s0).
Proof. intros s ts lo h H. exact H. Qed.
Lemma frame_counts s0 : counts_free (frame s0).
Proof. split; intros s k H; exact H. Qed.

Lemma np_okp {A} (J : dstate -> Prop) (p : P A) x s Q : np p x s Q -> okp J p -> J s ->
  np p x s (fun a x' s' => Q a x' s' /\ J s').
Proof. intros H Hp Hs. pose proof (okp_sound J p Hp x s Hs) as HJ. unfold np in *. destruct (run_a p x s); auto. Qed.

Lemma accepted_store_safe gmn fd p : get_field gmn (fd_num fd) = Some p ->
  validate_field_def gmn fd = VOk -> fd_btype fd < 256 -> fd_size fd < 256 ->
  store_safe (fit_kind (pf_t p)) (fit_array (pf_t p)) (fit_base (pf_t p)) (fd_btype fd) (fd_size fd) = true.
Proof.
  intros Hg Hv Hbt Hsz. rewrite validate_cell_eq, Hg in Hv. cbn [option_map] in Hv.
  pose proof (entry_cell _ _ _ _ _ Hg Hbt Hsz) as Hc. unfold cell_ok in Hc. now rewrite Hv in Hc.
Qed.

(* closes the postcondition of the field loop *)
Ltac field_post HA := split; [exact HA|first [discriminate|assumption|intros _; discriminate]].

Lemma finish_np (m : msg) i (r : fres) x (s : dstate) (Q : option msg -> ast -> dstate -> Prop) :
  is_fpanic r = false -> (forall m', Q (Some m') x s) -> np (finish_field m i r) x s Q.
Proof. destruct r; intros H HQ; [apply HQ..|exact I|discriminate H]. Qed.

Lemma parse_one_field_np o dm fd msgv x s :
  AInv x -> validate_field_def (dm_gmn dm) fd = VOk -> fd_btype fd < 256 -> fd_size fd < 256 ->
  (known_msg (dm_gmn dm) = true -> msgv <> None) ->
  np (parse_one_field o dm (known_msg (dm_gmn dm)) fd msgv) x s
     (fun om x' s' => AInv x' /\ (known_msg (dm_gmn dm) = true -> om <> None)).
Proof.
  intros HA Hv Hbt Hsz Hm. destruct (get_field (dm_gmn dm) (fd_num fd)) as [p|] eqn:Eg.
  - destruct (entry_sound _ _ _ Eg) as (md & _ & F).
    pose proof (accepted_store_safe _ _ _ Eg Hv Hbt Hsz) as Hs. rewrite (ef_known _ _ _ _ F) in *.
    destruct msgv as [m|]; [clear Hm|now destruct Hm]. rewrite (pof_listed_eq _ _ _ _ _ Eg).
    apply np_read_full; [assumption|]. intros buf x1 Hbuf Hlen HA1.
    (* of store_safe there is left: a native value is stored in a field of its kind, and the definition type of
       any other has a signedness *)
    unfold store_safe in Hs. apply andb_prop in Hs as [_ Hs]. rewrite <- Hlen in Hs. unfold field_body. rewrite gotype_of_fit_desc.
    destruct (fit_kind (pf_t p) =? kind_native).
    + apply finish_np; [|intro; field_post HA1].
      destruct (negb (fit_array (pf_t p))); [now apply pff_safe_sound|now apply pffa_safe_sound].
    + destruct (b_signed (fd_btype fd)) as [sg|]; [|discriminate]. destruct (_ || _); [|apply np_ret; field_post HA1].
      apply np_get. destruct (parse_time_stamp s _ _ _) as [ov s'']. apply np_put. destruct ov; apply np_ret; field_post HA1.
  - unfold parse_one_field. rewrite Eg. apply np_seq with (R := fun _ x' _ => x' = x).
    { destruct (known_msg (dm_gmn dm) && o_unkf o); reflexivity. }
    intros _ x0 s1 ->. apply np_read_full; [assumption|]. intros buf x1 Hbuf Hlen HA1. apply np_ret. field_post HA1.
Qed.

Lemma parse_fields_np o dm : forall fds msgv x s,
  AInv x -> Forall (fdef_ok (dm_gmn dm)) fds ->
  (known_msg (dm_gmn dm) = true -> msgv <> None) ->
  np (parse_fields o dm (known_msg (dm_gmn dm)) fds msgv) x s
     (fun om x' s' => AInv x' /\ (known_msg (dm_gmn dm) = true -> om <> None)).
Proof.
  induction fds as [|fd r IH]; intros msgv x s HA Hf Hm; cbn [parse_fields].
  - apply np_ret. field_post HA.
  - inversion Hf as [|? ? (Hv & Hbt & Hsz) Hr]; subst.
    eapply np_seq; [apply parse_one_field_np; eassumption|]. intros om x' s' (HA' & Hom).
    now apply IH.
Qed.

Lemma skip_dev_fields_np : forall devs x (s : dstate), AInv x ->
  np (skip_dev_fields devs) x s (fun _ x' s' => AInv x').
Proof.
  induction devs as [|[[a sz] c] r IH]; intros x s HA; cbn [skip_dev_fields].
  - apply np_ret. assumption.
  - apply np_read_full; [assumption|]. intros l x' _ _ HA'. now apply IH.
Qed.

Lemma parse_data_fields_np o dm mv x s : AInv x -> Forall (fdef_ok (dm_gmn dm)) (dm_fdefs dm) ->
  (known_msg (dm_gmn dm) = true -> mv <> None) ->
  np (parse_data_fields o dm (known_msg (dm_gmn dm)) mv) x s
     (fun om x' s' => AInv x' /\ (known_msg (dm_gmn dm) = true -> om <> None)).
Proof.
  intros HA Hf Hm. unfold parse_data_fields.
  eapply np_seq; [apply parse_fields_np; eassumption|]. intros om x' s' (HA' & Hom).
  eapply np_seq; [apply skip_dev_fields_np; assumption|]. intros ? x2 s2 HA2.
  apply np_ret. field_post HA2.
Qed.

(* validate_admits_only_storable: a definition message whose field definitions
   the validator accepted is parsed without panic from ANY data bytes, in
   either byte order, for known and unknown messages alike *)
Theorem validate_admits_only_storable : forall o dm msgv x s,
  AInv x -> Forall (fdef_ok (dm_gmn dm)) (dm_fdefs dm) ->
  (known_msg (dm_gmn dm) = true -> msgv <> None) ->
  np (parse_data_fields o dm (known_msg (dm_gmn dm)) msgv) x s
     (fun om x' s' => AInv x' /\ frame s s' /\ (known_msg (dm_gmn dm) = true -> om <> None)).
Proof.
  intros o dm msgv x s HA Hf Hm. eapply np_conseq.
  - exact (np_okp (frame s) _ x s _ (parse_data_fields_np o dm msgv x s HA Hf Hm)
             (okp_data_fields _ o dm _ msgv (frame_clock s) (frame_counts s)) (frame_refl s)).
  - cbv beta. tauto.
Qed.
