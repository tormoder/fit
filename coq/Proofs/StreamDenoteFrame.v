(* Stream-level decode = denote, framing lift: a fact about the ABSTRACT run of
   the data program over the data part of a file is lifted to the entry point
   [decode o MFull] reading header ++ data ++ crc ++ extra from a reader oracle
   with any chunk schedule (empty reads included), any terminal condition and
   any data-with-EOF flag.  The frame is decoded over the plain byte list first
   ([decode_a] of C10Frame.v); [decode_frame_step] carries that to every reader. *)
From Coq Require Import NArith ZArith List Bool Arith Lia.
From Coq Require Import ZifyN ZifyNat ZifyBool.
From FitV Require Import Proofs.Util Proofs.BytesUtil Model.Bytes Model.Crc Spec.CrcSpec Proofs.CrcProofs Model.IO Model.Header
  Model.Route Model.Decode Gen.Consts Spec.Integrity Proofs.IOSim Proofs.C10IO Proofs.C10Frame Proofs.C04Bytes.
Import ListNotations.
Ltac Zify.zify_post_hook ::= Z.div_mod_to_equations.

Lemma adv_app rd rd' pre rest : adv rd rd' (length pre) -> rd_data rd = pre ++ rest ->
  rd_data rd' = rest /\ rd_term rd' = rd_term rd /\ rd_ewd rd' = rd_ewd rd /\
  rd_pos rd' = rd_pos rd + length pre /\
  length (rd_data rd') + length (rd_sched rd') <= length (rd_data rd) + length (rd_sched rd).
Proof.
  intros [Hd Ht He Hp Hs] E. rewrite E in *.
  rewrite skipn_app, Nat.sub_diag, skipn_all in Hd. cbn [app skipn] in Hd.
  rewrite app_length in *. rewrite Hd. repeat split; try assumption; lia.
Qed.

Local Open Scope N_scope.

Definition header_wf (h : header) : Prop :=
  (h_size h = c_headerSizeCRC \/ h_size h = c_headerSizeNoCRC) /\
  h_proto h < 256 /\ proto_ok (h_proto h) = true /\
  h_profile h < 65536 /\ h_dsize h < 2 ^ 32 /\ h_dtype h = fit_dtype /\
  (h_size h = c_headerSizeNoCRC -> h_crc h = 0) /\
  (h_size h = c_headerSizeCRC -> h_crc h = 0 \/ h_crc h = checksum (header_bytes12 h)).

Definition hdr_bytes (h : header) : list N :=
  if h_size h =? c_headerSizeCRC then header_bytes12 h ++ put_le16 (h_crc h) else header_bytes12 h.

Lemma header_bytes12_bytes h : header_wf h -> is_bytes (header_bytes12 h).
Proof.
  intros (Hsz & Hpr & _ & _ & _ & Hdt & _).
  assert (Hs : h_size h < 256) by (destruct Hsz as [E|E]; rewrite E; reflexivity).
  unfold header_bytes12. rewrite Hdt. unfold put_le16, put_le32, fit_dtype. cbn [app firstn].
  unfold is_bytes. repeat apply Forall_cons; try apply Forall_nil; try lia; reflexivity.
Qed.

Lemma header_crc_lt h : header_wf h -> h_crc h < 65536.
Proof.
  intros (Hsz & _ & _ & _ & _ & _ & Hn & Hc).
  destruct Hsz as [E|E].
  - destruct (Hc E) as [Z|Z]; rewrite Z; [reflexivity|apply checksum_lt_all].
  - rewrite (Hn E). reflexivity.
Qed.

Lemma hdr_bytes_bytes h : header_wf h -> is_bytes (hdr_bytes h).
Proof.
  intros Hwf. unfold hdr_bytes. destruct (h_size h =? c_headerSizeCRC).
  - apply is_bytes_app; [now apply header_bytes12_bytes|apply put_le16_bytes].
  - now apply header_bytes12_bytes.
Qed.

Lemma hdr_bytes_length h : header_wf h -> length (hdr_bytes h) = N.to_nat (h_size h).
Proof.
  intros (Hsz & _ & _ & _ & _ & Hdt & _).
  unfold hdr_bytes, header_bytes12. rewrite Hdt. unfold put_le16, put_le32, fit_dtype.
  destruct Hsz as [E|E]; rewrite E.
  - change (c_headerSizeCRC =? c_headerSizeCRC) with true. reflexivity.
  - change (c_headerSizeNoCRC =? c_headerSizeCRC) with false. reflexivity.
Qed.

(* the well-formedness predicate is inhabited: NewHeader's headers, with any data size *)
Lemma header_wf_new_header crc n : n < 2 ^ 32 ->
  header_wf (mk_header (h_size (new_header c_currentProtocolVersion crc)) c_currentProtocolVersion
                       c_ProfileVersion n fit_dtype 0).
Proof.
  intros Hn. unfold header_wf. cbn [h_size h_proto h_profile h_dsize h_dtype h_crc new_header].
  repeat split; try reflexivity; try assumption.
  - destruct crc; [left|right]; reflexivity.
  - intros _. left. reflexivity.
Qed.

Lemma hdr_crc_zero h : header_wf h -> h_size h = c_headerSizeCRC -> h_crc h <> 0 ->
  crc_write crc_new (hdr_bytes h) = 0.
Proof.
  intros (_ & _ & _ & _ & _ & _ & _ & Hc) E Hnz.
  destruct (Hc E) as [Z|Z]; [contradiction|].
  unfold hdr_bytes. rewrite E. change (c_headerSizeCRC =? c_headerSizeCRC) with true.
  rewrite Z. apply residue_put_le16.
Qed.

(* the bytes of a well-formed header, whatever follows them, parse back to the header and pass the header stage *)
Lemma parse_hdr_bytes h rest : header_wf h -> parse_header (hdr_bytes h ++ rest) = h.
Proof.
  intros Hwf. pose proof (header_crc_lt h Hwf) as Hc. destruct Hwf as (Hsz & _ & _ & Hpf & Hds & Hdt & Hn & _).
  destruct h as [sz pr pf ds dt c]. cbn [h_size h_proto h_profile h_dsize h_dtype h_crc] in *. subst dt.
  unfold parse_header, stored_hdr_crc, hdr_bytes, header_bytes12. cbn [h_size h_proto h_profile h_dsize h_dtype h_crc].
  destruct Hsz as [-> | ->];
    cbn [N.eqb Pos.eqb c_headerSizeCRC c_headerSizeNoCRC app firstn skipn fit_dtype put_le16 put_le32 b_at nth];
    f_equal; try apply (le16_put_le16 _ Hpf); try apply (le32_put_le32 _ Hds);
    [apply (le16_put_le16 _ Hc)|symmetry; now apply Hn].
Qed.

Lemma stage_hdr_bytes h rest tm : header_wf h -> header_stage_with checksum (hdr_bytes h ++ rest) tm = None.
Proof.
  intros Hwf. apply header_stage_none_iff. pose proof (parse_hdr_bytes h rest Hwf) as Hp.
  pose proof (hdr_bytes_length h Hwf) as Hl. pose proof Hwf as (Hsz & _ & Hpo & _ & _ & Hdt & _).
  pose proof (f_equal h_size Hp) as P0. pose proof (f_equal h_proto Hp) as P1.
  pose proof (f_equal h_dtype Hp) as P2. pose proof (f_equal h_crc Hp) as P3.
  unfold parse_header in P0, P1, P2, P3. cbn [h_size h_proto h_dtype h_crc] in P0, P1, P2, P3.
  unfold hdr_size. rewrite P0, P1, P2 in *.
  split; [destruct Hsz as [-> | ->]; auto|]. split; [rewrite app_length; lia|].
  split; [exact Hpo|]. split; [exact Hdt|]. intros E Hnz.
  assert (E14 : h_size h = c_headerSizeCRC) by (unfold c_headerSizeCRC; lia).
  rewrite E14 in P3. cbn [N.eqb Pos.eqb c_headerSizeCRC] in P3. rewrite P3 in Hnz.
  replace 14%nat with (length (hdr_bytes h)) by (rewrite Hl, E14; reflexivity). rewrite firstn_len_app.
  exact (hdr_crc_zero h Hwf E14 Hnz).
Qed.

(* so decodeHeader accepts them, returns the header, and has read exactly them: hdr_a_stage at these bytes *)
Lemma hdr_a_wf h rest t : header_wf h ->
  hdr_a (hdr_bytes h ++ rest) t = (None, h, crc_write crc_new (hdr_bytes h), N.to_nat (h_size h)).
Proof.
  intros Hwf. destruct (hdr_a_stage (hdr_bytes h ++ rest) t) as (h' & crc & used & E & F).
  rewrite (stage_hdr_bytes h rest t Hwf) in E, F. destruct (F eq_refl) as (-> & -> & ->). rewrite E.
  unfold hdr_size. change (b_at (hdr_bytes h ++ rest) 0) with (h_size (parse_header (hdr_bytes h ++ rest))).
  rewrite (parse_hdr_bytes h rest Hwf), <- (hdr_bytes_length h Hwf), firstn_len_app. reflexivity.
Qed.

Theorem decode_header_ok : forall h fuel rd rest,
  header_wf h -> rd_data rd = hdr_bytes h ++ rest ->
  (length (rd_data rd) + length (rd_sched rd) < fuel)%nat ->
  exists rd1, decode_header fuel rd = Done (None, h, crc_write crc_new (hdr_bytes h), rd1) /\
    rd_data rd1 = rest /\ rd_term rd1 = rd_term rd /\ rd_ewd rd1 = rd_ewd rd /\
    rd_pos rd1 = (rd_pos rd + length (hdr_bytes h))%nat /\
    (length (rd_data rd1) + length (rd_sched rd1) <= length (rd_data rd) + length (rd_sched rd))%nat.
Proof.
  intros h fuel rd rest Hwf Hd Hf.
  pose proof (decode_header_spec fuel rd) as H. destruct (decode_header fuel rd) as [[[[e h'] crc] rd1]|]; [|contradiction].
  rewrite Hd, (hdr_a_wf h rest _ Hwf), <- (hdr_bytes_length h Hwf) in H. destruct H as [[= -> -> ->] A].
  exists rd1. split; [reflexivity|exact (adv_app rd rd1 _ rest A Hd)].
Qed.

Lemma check_crc_run : forall fuel rd crc f c1 c2 rest,
  rd_data rd = [c1; c2] ++ rest ->
  (length (rd_data rd) + length (rd_sched rd) < fuel)%nat ->
  exists rd',
    check_crc fuel rd crc f =
      Done (if crc_sum16 (crc_write crc [c1; c2]) =? 0 then None else Some EFileCRC,
            set_crc f (le16 [c1; c2]), rd') /\
    rd_pos rd' = (rd_pos rd + 2)%nat /\ rd_data rd' = rest.
Proof.
  intros fuel rd crc f c1 c2 rest Hd Hf.
  pose proof (check_crc_spec fuel rd crc f) as H. destruct (check_crc fuel rd crc f) as [[[e f'] rd']|]; [|contradiction].
  rewrite Hd in H. unfold crc_a, rf_err in H. cbn [app length Nat.leb firstn fst snd] in H. destruct H as (E & A & _).
  destruct (adv_app rd rd' [c1; c2] rest A Hd) as (D & _ & _ & P & _).
  exists rd'. split; [|split; assumption].
  change (Done (e, f', rd')) with (Done (fst (e, f'), snd (e, f'), rd')). rewrite E.
  destruct (crc_sum16 (crc_write crc [c1; c2]) =? 0); reflexivity.
Qed.

Theorem check_crc_ok : forall fuel rd crc f c1 c2 rest,
  rd_data rd = [c1; c2] ++ rest ->
  (length (rd_data rd) + length (rd_sched rd) < fuel)%nat ->
  crc_sum16 (crc_write crc [c1; c2]) = 0 ->
  exists rd', check_crc fuel rd crc f = Done (None, set_crc f (le16 [c1; c2]), rd') /\
    rd_pos rd' = (rd_pos rd + 2)%nat /\ rd_data rd' = rest.
Proof.
  intros fuel rd crc f c1 c2 rest Hd Hf Hz.
  pose proof (check_crc_run fuel rd crc f c1 c2 rest Hd Hf) as R. rewrite Hz in R. exact R.
Qed.

Theorem check_crc_bad : forall fuel rd crc f c1 c2 rest,
  rd_data rd = [c1; c2] ++ rest ->
  (length (rd_data rd) + length (rd_sched rd) < fuel)%nat ->
  crc_sum16 (crc_write crc [c1; c2]) <> 0 ->
  exists rd', check_crc fuel rd crc f = Done (Some EFileCRC, set_crc f (le16 [c1; c2]), rd') /\
    rd_pos rd' = (rd_pos rd + 2)%nat /\ rd_data rd' = rest.
Proof.
  intros fuel rd crc f c1 c2 rest Hd Hf Hz.
  pose proof (check_crc_run fuel rd crc f c1 c2 rest Hd Hf) as R. apply N.eqb_neq in Hz. rewrite Hz in R. exact R.
Qed.

Definition file_crc (h : header) (data : list N) : N := checksum (hdr_bytes h ++ data).
Definition frame_bytes (h : header) (data : list N) : list N :=
  hdr_bytes h ++ data ++ put_le16 (file_crc h data).

Lemma frame_bytes_length h data : header_wf h ->
  length (frame_bytes h data) = (N.to_nat (h_size h) + length data + 2)%nat.
Proof.
  intros Hwf. unfold frame_bytes. rewrite !app_length, (hdr_bytes_length h Hwf).
  change (length (put_le16 (file_crc h data))) with 2%nat. lia.
Qed.

Lemma frame_residue h data :
  crc_sum16 (crc_write (crc_write (crc_write crc_new (hdr_bytes h)) data) (put_le16 (file_crc h data))) = 0.
Proof.
  unfold crc_sum16, crc_write, crc_new. rewrite <- !update_app, app_assoc. apply residue_put_le16.
Qed.

Lemma decode_a_wf_hdr o md g h rest t : header_wf h ->
  decode_a o md g (hdr_bytes h ++ rest) t = body_a o md g h (crc_write crc_new (hdr_bytes h)) (N.to_nat (h_size h)) rest t.
Proof.
  intros Hwf. unfold decode_a. rewrite (hdr_a_wf h _ _ Hwf).
  rewrite <- (hdr_bytes_length h Hwf), skipn_app, Nat.sub_diag, skipn_all. reflexivity.
Qed.

Lemma decode_a_ioerr o fid g h inp t e x sf : header_wf h ->
  run_a (data_prog o fid (S (N.to_nat (h_dsize h)))) (mk_ast inp t 0 (N.to_nat (h_dsize h))) (init_dstate (new_file h) g) =
    RIOErr e x sf ->
  exists u, decode_a o (if fid then MFileIdOnly else MFull) g (hdr_bytes h ++ inp) t =
            TDone (mk_ares (Some (EIO e)) h (Some (finalize_unknown o sf)) u (ds_g sf) (ds_quirks sf) true).
Proof.
  intros Hwf Hrun. rewrite (decode_a_wf_hdr _ _ _ _ _ _ Hwf).
  destruct fid; unfold body_a, buffered_a; cbv zeta; rewrite Hrun; eexists; reflexivity.
Qed.

Lemma decode_a_frame o g h data extra t s1 :
  header_wf h -> h_dsize h = N.of_nat (length data) ->
  run_a (data_prog o false (S (length data)))
        (mk_ast (data ++ put_le16 (file_crc h data) ++ extra) t 0 (length data))
        (init_dstate (new_file h) g)
    = ROk tt (mk_ast (put_le16 (file_crc h data) ++ extra) t (length data) (length data)) s1 ->
  decode_a o MFull g (frame_bytes h data ++ extra) t =
    TDone (mk_ares None h
             (Some (finalize_unknown o (with_file s1 (set_crc (ds_file s1) (file_crc h data)) (ds_g s1))))
             (length (frame_bytes h data)) (ds_g s1) (ds_quirks s1) true).
Proof.
  intros Hwf Hds Hrun.
  rewrite (frame_bytes_length h data Hwf). unfold frame_bytes. rewrite <- !app_assoc, (decode_a_wf_hdr _ _ _ _ _ _ Hwf).
  unfold body_a, buffered_a. rewrite Hds, Nat2N.id, Hrun. cbn [a_n a_limit a_rest]. rewrite Nat.eqb_refl, firstn_len_app. cbn [negb].
  unfold crc_tail, crc_a, rf_err. cbn [put_le16 app length Nat.leb firstn fst snd].
  change [file_crc h data mod 256; (file_crc h data / 256) mod 256] with (put_le16 (file_crc h data)).
  rewrite (frame_residue h data), (le16_put_le16 (file_crc h data) (checksum_lt_all _)). reflexivity.
Qed.

(* the reader may hold anything after the frame and end in any way: neither has to be what the abstract run was
   given *)
Theorem decode_frame_full : forall o g h data extra0 t0 s1,
  header_wf h -> h_dsize h = N.of_nat (length data) ->
  run_a (data_prog o false (S (length data)))
        (mk_ast (data ++ put_le16 (file_crc h data) ++ extra0) t0 0 (length data))
        (init_dstate (new_file h) g)
    = ROk tt (mk_ast (put_le16 (file_crc h data) ++ extra0) t0 (length data) (length data)) s1 ->
  forall rd fuel extra,
  rd_data rd = frame_bytes h data ++ extra ->
  (length (rd_data rd) + length (rd_sched rd) < fuel)%nat ->
  exists rd',
    decode o MFull g rd fuel =
      TDone (mk_dres None h
               (Some (finalize_unknown o (with_file s1 (set_crc (ds_file s1) (file_crc h data)) (ds_g s1))))
               rd' (ds_g s1) (ds_quirks s1)) /\
    rd_pos rd' = (rd_pos rd + length (frame_bytes h data))%nat /\
    rd_data rd' = extra.
Proof.
  intros o g h data extra0 t0 s1 Hwf Hds Hrun rd fuel extra Hd Hf.
  destruct (decode_frame_step o MFull g _ _ _ _ (decode_a_frame o g h data extra0 t0 s1 Hwf Hds Hrun)
              eq_refl ltac:(discriminate) eq_refl extra rd fuel Hd Hf) as ([e' h' f' rd' g' q'] & E & [M1 M2 M3 M4 M5 _ _ _ _] & A).
  cbn [dr_err dr_hdr dr_file dr_g dr_quirks dr_rd ar_err ar_hdr ar_file ar_g ar_quirks] in *. subst.
  destruct (adv_app rd rd' _ extra A Hd) as (D & _ & _ & P & _). exists rd'. repeat split; assumption.
Qed.

Corollary entry_Decode_frame : forall o g rd fuel h data extra s1,
  header_wf h -> is_bytes data -> h_dsize h = N.of_nat (length data) ->
  rd_data rd = frame_bytes h data ++ extra ->
  (length (rd_data rd) + length (rd_sched rd) < fuel)%nat ->
  run_a (data_prog o false (S (length data)))
        (mk_ast (data ++ put_le16 (file_crc h data) ++ extra) (rd_term rd) 0 (length data))
        (init_dstate (new_file h) g)
    = ROk tt (mk_ast (put_le16 (file_crc h data) ++ extra) (rd_term rd) (length data) (length data)) s1 ->
  exists rd',
    entry_Decode o g rd fuel =
      TDone (mk_dres None h
               (Some (finalize_unknown o (with_file s1 (set_crc (ds_file s1) (file_crc h data)) (ds_g s1))))
               rd' (ds_g s1) (ds_quirks s1)) /\
    rd_pos rd' = (rd_pos rd + length (frame_bytes h data))%nat /\
    rd_data rd' = extra.
Proof.
  intros o g rd fuel h data extra s1 Hwf Hb Hds Hd Hf Hrun.
  exact (decode_frame_full o g h data extra (rd_term rd) s1 Hwf Hds Hrun rd fuel extra Hd Hf).
Qed.

(* the same with the boolean byte-range test of Model/Bytes.v *)
Corollary decode_frame_b : forall o g rd fuel h data extra s1,
  header_wf h -> all_bytes data = true -> h_dsize h = N.of_nat (length data) ->
  rd_data rd = frame_bytes h data ++ extra ->
  (length (rd_data rd) + length (rd_sched rd) < fuel)%nat ->
  run_a (data_prog o false (S (length data)))
        (mk_ast (data ++ put_le16 (file_crc h data) ++ extra) (rd_term rd) 0 (length data))
        (init_dstate (new_file h) g)
    = ROk tt (mk_ast (put_le16 (file_crc h data) ++ extra) (rd_term rd) (length data) (length data)) s1 ->
  exists rd',
    decode o MFull g rd fuel =
      TDone (mk_dres None h
               (Some (finalize_unknown o (with_file s1 (set_crc (ds_file s1) (file_crc h data)) (ds_g s1))))
               rd' (ds_g s1) (ds_quirks s1)) /\
    rd_pos rd' = (rd_pos rd + length (frame_bytes h data))%nat /\
    rd_data rd' = extra.
Proof.
  intros o g rd fuel h data extra s1 Hwf Hb. apply entry_Decode_frame; [assumption|now apply all_bytes_is_bytes].
Qed.

(* the result does not depend on the chunk schedule, the data-with-EOF flag,
   the start position or the fuel *)
Corollary decode_frame_schedule_independent : forall o g rd rd2 fuel fuel2 h data extra s1,
  header_wf h -> is_bytes data -> h_dsize h = N.of_nat (length data) ->
  rd_data rd = frame_bytes h data ++ extra ->
  rd_data rd2 = rd_data rd -> rd_term rd2 = rd_term rd ->
  (length (rd_data rd) + length (rd_sched rd) < fuel)%nat ->
  (length (rd_data rd2) + length (rd_sched rd2) < fuel2)%nat ->
  run_a (data_prog o false (S (length data)))
        (mk_ast (data ++ put_le16 (file_crc h data) ++ extra) (rd_term rd) 0 (length data))
        (init_dstate (new_file h) g)
    = ROk tt (mk_ast (put_le16 (file_crc h data) ++ extra) (rd_term rd) (length data) (length data)) s1 ->
  exists r1 r2,
    decode o MFull g rd fuel = TDone r1 /\ decode o MFull g rd2 fuel2 = TDone r2 /\
    dr_err r1 = dr_err r2 /\ dr_hdr r1 = dr_hdr r2 /\ dr_file r1 = dr_file r2 /\
    dr_g r1 = dr_g r2 /\ dr_quirks r1 = dr_quirks r2 /\
    rd_data (dr_rd r1) = rd_data (dr_rd r2) /\
    (rd_pos (dr_rd r1) - rd_pos rd = rd_pos (dr_rd r2) - rd_pos rd2)%nat.
Proof.
  intros o g rd rd2 fuel fuel2 h data extra s1 Hwf Hb Hds Hd Hd2 Ht2 Hf Hf2 Hrun.
  destruct (entry_Decode_frame o g rd fuel h data extra s1 Hwf Hb Hds Hd Hf Hrun) as (ra & Ra & Pa & Da).
  rewrite <- Ht2 in Hrun. rewrite <- Hd2 in Hd.
  destruct (entry_Decode_frame o g rd2 fuel2 h data extra s1 Hwf Hb Hds Hd Hf2 Hrun) as (rb & Rb & Pb & Db).
  eexists. eexists. split; [exact Ra|]. split; [exact Rb|].
  cbn [dr_err dr_hdr dr_file dr_g dr_quirks dr_rd].
  repeat split; try reflexivity; [congruence|lia].
Qed.
Local Close Scope N_scope.

Lemma decode_header_eof : forall fuel rd, rd_data rd = [] -> rd_term rd = TEOF ->
  decode_header (S fuel) rd = Done (Some EReadSizeEOF, zero_header, 0%N, rd).
Proof.
  intros fuel rd Hd Ht. unfold decode_header. cbn [io_read_full length Nat.leb].
  unfold rd_read. rewrite Hd, Ht. cbn [app length Nat.leb]. reflexivity.
Qed.

Lemma decode_eof : forall o md g fuel rd, rd_data rd = [] -> rd_term rd = TEOF -> (1 <= fuel) ->
  decode o md g rd fuel = TDone (mk_dres (Some EReadSizeEOF) zero_header None rd g []).
Proof.
  intros o md g fuel rd Hd Ht Hf. destruct fuel as [|f]; [lia|].
  unfold decode. rewrite (decode_header_eof f rd Hd Ht). reflexivity.
Qed.

Print Assumptions decode_header_ok.
Print Assumptions check_crc_ok.
Print Assumptions check_crc_bad.
Print Assumptions entry_Decode_frame.
Print Assumptions decode_frame_schedule_independent.
Print Assumptions decode_frame_full.
Print Assumptions decode_eof.
