(* Stream-level decode = denote: definition records and the dispatch on the record
   header byte. A definition record that the reference semantics accepts (every field
   definition compatible with the profile) is parsed by the decoder without error and fills
   the slot of its local type with exactly the definition that was serialised; the other two
   record kinds are handed to parse_data_message after the header byte. *)
From Coq Require Import NArith ZArith List Bool Lia Arith.
From Coq Require Import ZifyN ZifyNat ZifyBool.
From FitV Require Import Proofs.Util Proofs.BytesUtil Model.Values Model.Bytes Model.Base Model.Profile Model.Reflect Model.IO
  Model.Route Model.Decode Spec.FitSyntax Gen.Consts Gen.BaseTables.
From FitV Require Import Proofs.StreamDenoteBase Proofs.StreamDenoteDefs Proofs.StreamDenoteField.
Import ListNotations.
Local Open Scope N_scope.
Ltac Zify.zify_post_hook ::= Z.div_mod_to_equations.

Lemma known_size_pos bt ds : b_known bt = Some true -> b_size bt = Some ds -> ds <> 0.
Proof. intros Hk Hs. destruct (size_cases bt ds Hk Hs) as [ -> | [ -> | [ -> | -> ] ] ]; discriminate. Qed.

Lemma compat_validates : forall gmn f, compat gmn f = true -> validate_field_def gmn (to_fdef f) = VOk.
Proof.
  intros gmn f (ds & Hk & Hs & H)%compat_inv. pose proof (known_size_pos _ ds Hk Hs) as Hds%N.eqb_neq.
  unfold validate_field_def, to_fdef. cbn [fd_btype fd_num fd_size]. rewrite Hk.
  destruct (if known_msg gmn then get_field gmn (sf_num f) else None) as [p|].
  - destruct (N.eqb_spec (fit_base (pf_t p)) base_string) as [Hpbs|Hpbs%N.eqb_neq].
    + now rewrite H, Hpbs, !N.eqb_refl.
    + destruct (fit_array (pf_t p)); cbn [negb].
      * destruct H as (Hbp & Hle%N.ltb_ge & Hmod%N.eqb_eq). rewrite Hs, Hbp, Hpbs. rewrite <- Hbp at 1.
        now rewrite Hle, Hds, Hmod, Hbp, N.eqb_refl.
      * (* a scalar: the patterns put what scalar_facts knows of the two base types into the goal *)
        destruct H as (ds' & ps & sg & Hs' & -> & -> & -> & -> & -> & Hle & Hns%N.eqb_neq).
        rewrite Hs in Hs'. injection Hs' as <-.
        rewrite Hns, Hs, N.ltb_irrefl, (proj2 (N.ltb_ge ps ds) Hle), eqb_reflx. now destruct (negb _).
  - destruct H as [->|[H1 Hmod]]; [reflexivity|]. destruct (_ =? base_string); [reflexivity|]. rewrite Hs.
    replace (sf_size f <? ds) with false; [reflexivity|]. symmetry. apply N.ltb_ge.
    apply N.eqb_neq in Hds. apply N.mod_divides in Hmod as [[|c] Hc]; [| |exact Hds]; nia.
Qed.

Lemma compat_validates_all : forall gmn fds,
  forallb (compat gmn) fds = true -> validate_all gmn (map to_fdef fds) = VOk.
Proof.
  intros gmn fds. induction fds as [|f r IH]; intros Hc; [reflexivity|].
  cbn [forallb] in Hc. apply andb_true_iff in Hc. destruct Hc as [Hf Hr].
  cbn [map validate_all]. rewrite (compat_validates gmn f Hf). exact (IH Hr).
Qed.

Definition ser_dev (d : N * N * N) : list N := let '(a, b, c) := d in [a; b; c].

Definition sf_triple (f : sfdef) : N * N * N := (sf_num f, sf_size f, sf_btype f).

Lemma chunk3_ser : forall fds,
  map (fun t => match t with (a, b, c) => mk_fdef a b c end) (chunk3 (flat_map ser_fdef fds)) = map to_fdef fds.
Proof. intros fds. rewrite (chunk3_triples sf_triple), map_map. reflexivity. Qed.

Definition def_header (l : N) (devflag : bool) : N := 0x40 + (if devflag then 0x20 else 0) + l.
Definition comp_header (l off : N) : N := 0x80 + 32 * l + off.

Lemma def_header_facts : forall l devflag, l < 16 ->
  N.land (def_header l devflag) c_compressedHeaderMask = 0 /\
  N.land (def_header l devflag) c_mesgDefinitionMask = c_mesgDefinitionMask /\
  N.land (def_header l devflag) c_localMesgNumMask = l /\
  (N.land (def_header l devflag) c_devDataMask =? c_devDataMask) = devflag.
Proof.
  intros l devflag Hl.
  pose proof (forall_below 16
    (fun l => forallb (fun d =>
       (N.land (def_header l d) c_compressedHeaderMask =? 0) &&
       (N.land (def_header l d) c_mesgDefinitionMask =? c_mesgDefinitionMask) &&
       (N.land (def_header l d) c_localMesgNumMask =? l) &&
       Bool.eqb (N.land (def_header l d) c_devDataMask =? c_devDataMask) d) [true; false])
    ltac:(vm_compute; reflexivity) l Hl) as Hc.
  cbv beta in Hc. rewrite forallb_forall in Hc.
  specialize (Hc devflag ltac:(destruct devflag; cbn [In]; tauto)).
  rewrite !andb_true_iff in Hc. destruct Hc as [[[H1 H2] H3] H4].
  apply N.eqb_eq in H1, H2, H3. apply eqb_prop in H4. auto.
Qed.

Lemma data_header_facts : forall l, l < 16 ->
  N.land l c_compressedHeaderMask = 0 /\ N.land l c_mesgDefinitionMask = c_mesgHeaderMask /\
  N.land l c_localMesgNumMask = l.
Proof.
  intros l Hl.
  pose proof (forall_below 16
    (fun l => (N.land l c_compressedHeaderMask =? 0) && (N.land l c_mesgDefinitionMask =? c_mesgHeaderMask) &&
              (N.land l c_localMesgNumMask =? l))
    ltac:(vm_compute; reflexivity) l Hl) as Hc.
  cbv beta in Hc.
  rewrite !andb_true_iff in Hc. destruct Hc as [[H1 H2] H3].
  apply N.eqb_eq in H1, H2, H3. auto.
Qed.

Lemma comp_header_facts : forall l off, l < 4 -> off < 32 ->
  N.land (comp_header l off) c_compressedHeaderMask = c_compressedHeaderMask /\
  N.shiftr (N.land (comp_header l off) c_compressedLocalMesgNumMask) 5 = l /\
  N.land (comp_header l off) c_compressedTimeMask = off.
Proof.
  intros l off Hl Ho.
  assert (Hb : comp_header l off < 256) by (unfold comp_header; lia).
  pose proof (forall_below 256
    (fun b => if b <? 128 then true else
       (N.land b c_compressedHeaderMask =? c_compressedHeaderMask) &&
       (N.shiftr (N.land b c_compressedLocalMesgNumMask) 5 =? (b - 128) / 32) &&
       (N.land b c_compressedTimeMask =? b mod 32))
    ltac:(vm_compute; reflexivity) _ Hb) as Hc.
  cbv beta in Hc.
  rewrite (proj2 (N.ltb_ge (comp_header l off) 128)) in Hc by (unfold comp_header; lia).
  rewrite !andb_true_iff in Hc. destruct Hc as [[H1 H2] H3].
  apply N.eqb_eq in H1, H2, H3.
  split; [exact H1|]. split.
  - rewrite H2. unfold comp_header. lia.
  - rewrite H3. unfold comp_header. lia.
Qed.

Lemma bind_ret {S E A B} (a : A) (f : A -> prog S E B) : bind (Ret a) f = f a.
Proof. reflexivity. Qed.

Lemma arch_dispatch (be : bool) :
  (if (if be then 1 else 0) =? c_littleEndian then Ret false
   else if (if be then 1 else 0) =? c_bigEndian then Ret true
   else fail EArch) = (Ret be : P bool).
Proof. destruct be; reflexivity. Qed.

Definition def_body (be : bool) (gmn : N) (fds : list sfdef) (devflag : bool) (devs : list (N * N * N)) : list N :=
  0 :: (if be then 1 else 0) :: put16 be gmn ++
  N.of_nat (List.length fds) :: flat_map ser_fdef fds ++
  (if devflag then N.of_nat (List.length devs) :: flat_map ser_dev devs else []).

Lemma ser_record_def l be gmn fds devflag devs :
  ser_record (RDef l be gmn fds devflag devs) = def_header l devflag :: def_body be gmn fds devflag devs.
Proof. reflexivity. Qed.

Lemma parse_definition_message_ok : forall hb l be gmn fds devflag devs (s : dstate),
  N.land hb c_localMesgNumMask = l ->
  (N.land hb c_devDataMask =? c_devDataMask) = devflag ->
  gmn < 65536 -> gmn <> c_MesgNumInvalid -> forallb (compat gmn) fds = true ->
  consumes (parse_definition_message hb) (def_body be gmn fds devflag devs) s
    (mk_defmsg l be gmn (map to_fdef fds) (if devflag then devs else [])) s.
Proof.
  intros hb l be gmn fds devflag devs s Hl Hdev Hg Hinv Hc.
  unfold parse_definition_message, def_body. rewrite Hl, Hdev.
  apply consumes_rbyte. apply consumes_rbyte.
  rewrite arch_dispatch, bind_ret.
  apply consumes_rfull; [apply put16_length|].
  cbv zeta. rewrite (get16_put16 be gmn Hg). rewrite (proj2 (N.eqb_neq gmn c_MesgNumInvalid) Hinv).
  apply consumes_rbyte. rewrite Nnat.Nat2N.id.
  apply consumes_rfull; [exact (triples_length sf_triple fds)|].
  rewrite chunk3_ser, (compat_validates_all gmn fds Hc).
  destruct devflag; [|apply consumes_ret].
  apply consumes_rbyte. rewrite Nnat.Nat2N.id.
  rewrite <- (app_nil_r (flat_map _ devs)).
  apply consumes_rfull; [exact (triples_length id devs)|].
  rewrite (chunk3_triples id), map_id. apply consumes_ret.
Qed.

Lemma parse_def_ok : forall (o : dopts) l be gmn fds devflag devs (s : dstate),
  l < 16 -> gmn < 65536 -> gmn <> c_MesgNumInvalid -> forallb (compat gmn) fds = true ->
  consumes (parse_record o) (ser_record (RDef l be gmn fds devflag devs)) s tt
    (with_defs s (set_nth (N.to_nat l)
       (Some (mk_defmsg l be gmn (map to_fdef fds) (if devflag then devs else []))) (ds_defs s))).
Proof.
  intros o l be gmn fds devflag devs s Hl Hg Hinv Hc.
  destruct (def_header_facts l devflag Hl) as [H1 [H2 [H3 H4]]].
  rewrite ser_record_def. unfold parse_record. apply consumes_rbyte.
  rewrite H1, H2. change (0 =? c_compressedHeaderMask) with false.
  rewrite N.eqb_refl. cbv iota.
  rewrite <- (app_nil_r (def_body _ _ _ _ _)).
  eapply consumes_bind; [exact (parse_definition_message_ok _ l be gmn fds devflag devs s H3 H4 Hg Hinv Hc)|].
  apply consumes_get, consumes_put, consumes_ret.
Qed.

Definition tail_k (om : option msg) : P unit := match om with Some m => add_msg m | None => Ret tt end.

Lemma dispatch_data : forall (o : dopts) l body (s : dstate) a s', l < 16 ->
  consumes (bind (parse_data_message o l false) tail_k) body s a s' ->
  consumes (parse_record o) (l :: body) s a s'.
Proof.
  intros o l body s a s' Hl H.
  destruct (data_header_facts l Hl) as [H1 [H2 H3]].
  unfold parse_record. apply consumes_rbyte. rewrite H1, H2. exact H.
Qed.

Lemma dispatch_comp : forall (o : dopts) l off body (s : dstate) a s', l < 4 -> off < 32 ->
  consumes (bind (parse_data_message o (comp_header l off) true) tail_k) body s a s' ->
  consumes (parse_record o) (comp_header l off :: body) s a s'.
Proof.
  intros o l off body s a s' Hl Ho H.
  destruct (comp_header_facts l off Hl Ho) as [H1 _].
  unfold parse_record. apply consumes_rbyte. rewrite H1. exact H.
Qed.

Lemma data_header_local : forall l, l < 16 -> N.land l c_localMesgNumMask = l.
Proof. intros l Hl. exact (proj2 (proj2 (data_header_facts l Hl))). Qed.

Print Assumptions parse_def_ok.
Print Assumptions compat_validates.
Print Assumptions parse_definition_message_ok.
Print Assumptions dispatch_data.
Print Assumptions dispatch_comp.
