(* Facts about single steps of the decoder model (Model/Decode.v): which of the 16 definition slots a record
   header addresses and that a data record reads nothing else of them (C13); the timestamp rules of
   parse_time_stamp and of the compressed header (C12); the two counter lists, as insertion sorts and as
   (key, count) lists over any key with a decidable equality (C16); that file_id is a known message. *)
From Coq Require Import NArith ZArith List Bool Lia Arith String.
From Coq Require Import ZifyN ZifyNat ZifyBool Sorted Permutation.
From FitV Require Import Proofs.Util Proofs.RouteProofs Model.Values Model.Bytes Model.Base Model.Profile Model.Reflect Model.IO
  Model.Header Model.Components Model.Route Model.Decode Spec.FitSyntax Spec.RouteSpec Spec.ProfileWf Proofs.ProfileProofs
  Gen.Consts Gen.RoutingData.
Import ListNotations.
Local Open Scope N_scope.
Ltac Zify.zify_post_hook ::= Z.div_mod_to_equations.

(* the local message type addressed by a record header is always inside the 16 slots;
   compressed-timestamp headers address 0-3 with their two bits *)
Lemma normal_local_lt : forall b, N.land b c_localMesgNumMask < 16.
Proof. intros b. change c_localMesgNumMask with (N.ones 4). rewrite N.land_ones. apply N.mod_lt. discriminate. Qed.

Lemma compressed_local_2bits : forall b, b < 256 ->
  N.shiftr (N.land b c_compressedLocalMesgNumMask) 5 = (b / 32) mod 4 /\ N.shiftr (N.land b c_compressedLocalMesgNumMask) 5 < 4.
Proof.
  intros b Hb.
  pose proof (forall_below 256 (fun b => (N.shiftr (N.land b c_compressedLocalMesgNumMask) 5 =? (b / 32) mod 4) &&
                                         (N.shiftr (N.land b c_compressedLocalMesgNumMask) 5 <? 4))
                ltac:(vm_compute; reflexivity) b Hb) as H.
  apply andb_prop in H. destruct H as [H1 H2]. split; [now apply N.eqb_eq|now apply N.ltb_lt].
Qed.

Lemma latest_def_wins : forall (defs : list (option defmsg)) dm, (N.to_nat (dm_local dm) < List.length defs)%nat ->
  nth (N.to_nat (dm_local dm)) (set_nth (N.to_nat (dm_local dm)) (Some dm) defs) None = Some dm.
Proof. intros. now apply nth_set_nth_eq. Qed.

Lemma slots_independent : forall (defs : list (option defmsg)) dm l', l' <> dm_local dm ->
  nth (N.to_nat l') (set_nth (N.to_nat (dm_local dm)) (Some dm) defs) None = nth (N.to_nat l') defs None.
Proof. intros defs dm l' H. apply nth_set_nth_neq. intros E. apply H. now apply N2Nat.inj. Qed.

(* the local message type that the header byte of a data record names (StreamDenoteFail.data_local is the same) *)
Definition local_of (b : N) (compressed : bool) : N :=
  if compressed then N.shiftr (N.land b c_compressedLocalMesgNumMask) 5 else N.land b c_localMesgNumMask.

Lemma undefined_local_is_error : forall o b (compressed : bool) x s,
  nth (N.to_nat (if compressed then N.shiftr (N.land b c_compressedLocalMesgNumMask) 5 else N.land b c_localMesgNumMask))
      (ds_defs s) None = None ->
  run_a (parse_data_message o b compressed) x s = RFail EMissingDef x s.
Proof.
  intros o b compressed x s H. unfold parse_data_message. cbn [bind get_st run_a]. rewrite H. reflexivity.
Qed.

(* the definition found is the only part of the slot table a data record consults: the program below
   takes the definition as a parameter and never reads ds_defs *)
Definition data_message_with (o : dopts) (b : N) (compressed : bool) (dm : defmsg) (s : dstate) : P (option msg) :=
  let gmn := dm_gmn dm in
  let known := known_msg gmn in
  bind (if known then match mesg_all_invalid gmn with None => panic 1 | Some m => Ret (Some m) end
        else bind (if o_unkm o then put_st (with_unkm s (bump1 gmn (ds_unkm s))) else Ret tt) (fun _ => Ret None))
       (fun msgv =>
          if negb compressed then parse_data_fields o dm known msgv else
          bind get_st (fun s =>
          if negb (ds_hasts s) then parse_data_fields o dm known msgv else
          let off := N.land b c_compressedTimeMask in
          let delta := (off + 32 - ds_lastoff s) mod 32 in
          let ts := (ds_ts s + delta) mod 2 ^ 32 in
          bind (put_st (with_time s ts off)) (fun _ =>
          match get_field gmn c_fieldNumTimeStamp with
          | Some p =>
              match msgv with
              | None => panic 2
              | Some m =>
                  match field_type gmn (pf_sindex p) with
                  | None => panic 2
                  | Some ty =>
                      match set_time ty (decode_date_time ts) with
                      | None => panic 3
                      | Some v => parse_data_fields o dm known (Some (msg_set m (pf_sindex p) v))
                      end
                  end
              end
          | None => parse_data_fields o dm known msgv
          end))).

Lemma data_message_uses_own_slot : forall o b (compressed : bool) x s dm,
  nth (N.to_nat (local_of b compressed)) (ds_defs s) None = Some dm ->
  run_a (parse_data_message o b compressed) x s = run_a (data_message_with o b compressed dm s) x s.
Proof.
  intros o b compressed x s dm H. unfold local_of in H. unfold parse_data_message, data_message_with.
  cbn [bind get_st run_a]. rewrite H. reflexivity.
Qed.

(* the compressed-timestamp rule: the reference advances to the next instant whose low five bits are
   the header's offset *)
Lemma rollover_rule : forall r off, off < 32 ->
  let r' := r + (off + 32 - r mod 32) mod 32 in
  r' mod 32 = off /\ r <= r' < r + 32.
Proof. intros r off Ho. cbv zeta. split; lia. Qed.

(* the offset parse_time_stamp stores beside an explicit timestamp u, so that the clock then has
   ds_lastoff = ds_ts mod 32.  That is the invariant under which the decoder's step is [rollover_rule]; it is
   stated in Props/C12.v, where C12_compressed_step_invariant says that a compressed step keeps it (away from the
   2^32 wrap) *)
Lemma explicit_timestamp_invariant : forall u, N.land u c_compressedTimeMask = u mod 32.
Proof. intros u. change c_compressedTimeMask with (N.ones 5). apply N.land_ones. Qed.

Lemma invalid_time_untouched : forall s kind num, parse_time_stamp s 0xFFFFFFFF kind num = (None, s).
Proof. reflexivity. Qed.

(* local_date_time with a usable reference: the reference instant, in a zone of offset local - UTC *)
Lemma local_time_with_reference : forall s u num, u <> 0xFFFFFFFF -> ds_hasts s = true -> c_systemTimeMarker <= ds_ts s ->
  parse_time_stamp s u kind_timelocal num = (Some (VTime (Z.of_N (ds_ts s)) 0 (Some (Z.of_N u - Z.of_N (ds_ts s))%Z)), s).
Proof.
  intros s u num Hu Hh Hts. unfold parse_time_stamp.
  destruct (N.eqb_spec u 0xFFFFFFFF); [contradiction|].
  change (kind_timelocal =? kind_timeutc) with false. cbv iota. rewrite Hh. cbn [negb orb].
  replace (ds_ts s <? c_systemTimeMarker) with false by (symmetry; apply N.ltb_ge; assumption).
  reflexivity.
Qed.

(* without a usable reference (none yet, or a power-on-relative one): offset 0, and the decoder state is untouched *)
Lemma local_time_without_reference : forall s u num, u <> 0xFFFFFFFF -> (ds_hasts s = false \/ ds_ts s < c_systemTimeMarker) ->
  parse_time_stamp s u kind_timelocal num = (Some (VTime (Z.of_N u) 0 (Some 0%Z)), s).
Proof.
  intros s u num Hu Hno. unfold parse_time_stamp.
  destruct (N.eqb_spec u 0xFFFFFFFF); [contradiction|].
  change (kind_timelocal =? kind_timeutc) with false. cbv iota.
  replace (negb (ds_hasts s) || (ds_ts s <? c_systemTimeMarker)) with true; [reflexivity|].
  symmetry. destruct Hno as [Hh|Hlt]; [rewrite Hh; reflexivity|]. apply orb_true_iff. right. now apply N.ltb_lt.
Qed.

(* both lists are sorted by insertion; [ins_by] is ins_unkm and ins_unkf with the order test as a parameter
   (by conversion), and an insertion sort permutes whatever the test *)
Definition ins_by {A} (lt : A -> A -> bool) : A -> list A -> list A :=
  fix go x l := match l with [] => [x] | y :: r => if lt x y then x :: l else y :: go x r end.

Lemma ins_by_perm {A} (lt : A -> A -> bool) x l : Permutation (x :: l) (ins_by lt x l).
Proof.
  induction l as [|y r IH]; simpl; [constructor; constructor|].
  destruct (lt x y); [apply Permutation_refl|].
  eapply perm_trans; [apply perm_swap|]. now constructor.
Qed.
Lemma sort_by_perm {A} (lt : A -> A -> bool) l : Permutation l (fold_right (ins_by lt) [] l).
Proof.
  induction l as [|x l IH]; simpl; [constructor|].
  eapply perm_trans; [|apply ins_by_perm]. now constructor.
Qed.

Lemma sort_unkm_perm l : Permutation l (sort_unkm l).
Proof. exact (sort_by_perm (fun x y => fst x <? fst y) l). Qed.
Theorem unknown_fields_perm l : Permutation l (sort_unkf l).
Proof. exact (sort_by_perm unkf_lt l). Qed.

Definition le_unkm (a b : N * N) : Prop := fst a <= fst b.
Lemma ins_unkm_sorted x l : Sorted le_unkm l -> Sorted le_unkm (ins_unkm x l).
Proof.
  induction l as [|y r IH]; intros Hs; simpl; [repeat constructor|].
  destruct (fst x <? fst y) eqn:E.
  - constructor; [assumption|]. constructor. unfold le_unkm. apply N.ltb_lt in E. lia.
  - inversion Hs as [|? ? Hs' Hh]; subst. constructor; [now apply IH|].
    apply N.ltb_ge in E.
    destruct r as [|z r']; simpl.
    + constructor. exact E.
    + destruct (fst x <? fst z); constructor; try exact E. inversion Hh; subst. assumption.
Qed.

Fixpoint count_of1 (k : N) (l : list (N * N)) : N :=
  match l with [] => 0 | (a, c) :: r => if a =? k then c else count_of1 k r end.

(* Both counter lists are lists of (key, count) over a key type with a decidable equality: N for
   the messages, N * N for the fields.  [cnt] and [bump] are count_of1 and bump1 with the equality test
   as a parameter (count_of1 = cnt N.eqb and bump1 = bump N.eqb by conversion). *)
Definition cnt {K} (eqb : K -> K -> bool) : K -> list (K * N) -> N :=
  fix go k l := match l with [] => 0 | (a, c) :: r => if eqb a k then c else go k r end.
Definition bump {K} (eqb : K -> K -> bool) (k : K) : list (K * N) -> list (K * N) :=
  fix go l := match l with [] => [(k, 1)] | (a, c) :: r => if eqb a k then (a, c + 1) :: r else (a, c) :: go r end.

Lemma bump_cnt {K} (eqb : K -> K -> bool) (Hs : forall a b : K, reflect (a = b) (eqb a b)) k k' l :
  cnt eqb k' (bump eqb k l) = if eqb k' k then cnt eqb k' l + 1 else cnt eqb k' l.
Proof.
  induction l as [|[a c] r IH]; simpl.
  - destruct (Hs k k'), (Hs k' k); congruence.
  - destruct (Hs a k); simpl; destruct (Hs a k'); try exact IH; destruct (Hs k' k); congruence.
Qed.

Lemma known_fileid : known_msg c_MesgNumFileId = true.
Proof. vm_compute. reflexivity. Qed.

(* One iteration of the field loop for a field number the profile lists for the message.  Then the message is known,
   the struct field exists and has the Go type of the entry's types.Fit code, and that type has a size
   (ProfileProofs.entry_sound): of the panics of parse_one_field there remain the store of a native value
   ([finish_field]) and a definition type without signedness; a time stamp or a coordinate goes into a struct field
   of its own type. *)
Definition finish_field (m : msg) (i : nat) (r : fres) : P (option msg) :=
  match r with
  | FSet v => Ret (Some (msg_set m i v))
  | FKeep => Ret (Some m)
  | FErr => fail EParseField
  | FPanic w => panic w
  end.

Definition field_body (be : bool) (fd : fdef) (p : pfield) (m : msg) (buf : list N) : P (option msg) :=
  let t := pf_t p in
  let kind := fit_kind t in
  let i := pf_sindex p in
  if kind =? kind_native then
    finish_field m i (if negb (fit_array t) then parse_fit_field be fd buf (gotype_of_fit t)
                      else parse_fit_field_array be fd buf (gotype_of_fit t))
  else
    match b_signed (fd_btype fd) with
    | None => panic 4
    | Some sg =>
      let u32 := get32 be (extend4 be sg buf) in
      if (kind =? kind_timeutc) || (kind =? kind_timelocal) then
        bind get_st (fun s =>
        let '(ov, s') := parse_time_stamp s u32 kind (pf_num p) in
        bind (put_st s') (fun _ => match ov with None => Ret (Some m) | Some v => Ret (Some (msg_set m i v)) end))
      else Ret (Some (msg_set m i (if kind =? kind_lat then new_latitude (to_signed 32 u32)
                                   else new_longitude (to_signed 32 u32))))
    end.

Lemma kind_cases k : k <= 4 ->
  k = kind_native \/ (k = kind_timeutc \/ k = kind_timelocal) \/ (k = kind_lat \/ k = kind_lng).
Proof. unfold kind_native, kind_timeutc, kind_timelocal, kind_lat, kind_lng. lia. Qed.

Lemma pof_listed_eq o dm fd p m : get_field (dm_gmn dm) (fd_num fd) = Some p ->
  parse_one_field o dm true fd (Some m) = bind (read_full (N.to_nat (fd_size fd))) (field_body (dm_be dm) fd p m).
Proof.
  intros Hg. destruct (entry_sound _ _ _ Hg) as (md & _ & F). destruct (no_float_fields _ _ _ Hg) as (_ & sz & Hsz & _).
  unfold parse_one_field, field_body. rewrite Hg, Hsz, (ef_type _ _ _ _ F).
  match goal with |- bind ?pre _ = _ => replace pre with (Ret tt : P unit) by (destruct (_ && _); reflexivity) end.
  destruct (kind_cases _ (ef_kind _ _ _ _ F)) as [Hk|Hk]; [rewrite Hk; now destruct (fit_array _)|].
  assert (Ha : fit_array (pf_t p) = false)
    by (apply (ef_scalar_kinds _ _ _ _ F); destruct Hk as [[E|E]|[E|E]]; rewrite E; discriminate).
  unfold gotype_of_fit. rewrite Ha. destruct Hk as [[E|E]|[E|E]]; rewrite E; reflexivity.
Qed.

(* parse_data_message after the slot lookup ([data_message_with]), by whether the profile knows the message.  A known
   message has a constructor, and its field 253, if it has one, is a time.Time: what is left of the compressed
   header is the clock and the stamp ([stamp_view]); the three panics of that branch are dead. *)
Lemma timestamp_field_type gmn p : get_field gmn c_fieldNumTimeStamp = Some p -> field_type gmn (pf_sindex p) = Some TTime.
Proof.
  intros Hg. destruct (entry_sound _ _ _ Hg) as (md & _ & F). rewrite (ef_type _ _ _ _ F). unfold gotype_of_fit.
  pose proof (ef_ts _ _ _ _ F eq_refl) as Hk. rewrite Hk, (ef_scalar_kinds _ _ _ _ F) by (rewrite Hk; discriminate). reflexivity.
Qed.

Definition stamped (gmn ts : N) (m : msg) : msg :=
  match get_field gmn c_fieldNumTimeStamp with
  | Some p => msg_set m (pf_sindex p) (decode_date_time ts)
  | None => m
  end.

Definition stamp_view (o : dopts) (b : N) (compressed : bool) (dm : defmsg) (msgv : option msg) : P (option msg) :=
  let known := known_msg (dm_gmn dm) in
  if negb compressed then parse_data_fields o dm known msgv else
  bind get_st (fun s =>
  if negb (ds_hasts s) then parse_data_fields o dm known msgv else
  let off := N.land b c_compressedTimeMask in
  let ts := (ds_ts s + (off + 32 - ds_lastoff s) mod 32) mod 2 ^ 32 in
  bind (put_st (with_time s ts off)) (fun _ => parse_data_fields o dm known (option_map (stamped (dm_gmn dm) ts) msgv))).

Lemma dmw_known o b compressed dm s : known_msg (dm_gmn dm) = true ->
  exists m0, mesg_all_invalid (dm_gmn dm) = Some m0 /\ data_message_with o b compressed dm s = stamp_view o b compressed dm (Some m0).
Proof.
  intros Hk. destruct (known_has_constructor _ Hk) as (md & _ & _ & _ & Hm & _). eexists. split; [exact Hm|].
  unfold data_message_with, stamp_view, stamped. rewrite Hk, Hm. cbn [bind option_map].
  destruct (get_field (dm_gmn dm) c_fieldNumTimeStamp) as [p|] eqn:Eg; [|reflexivity].
  now rewrite (timestamp_field_type _ _ Eg).
Qed.

Lemma dmw_unknown o b compressed dm s : known_msg (dm_gmn dm) = false ->
  data_message_with o b compressed dm s =
  bind (if o_unkm o then put_st (with_unkm s (bump1 (dm_gmn dm) (ds_unkm s))) else Ret tt) (fun _ => stamp_view o b compressed dm None).
Proof.
  intros Hk. unfold data_message_with, stamp_view. rewrite Hk, (unknown_no_field _ c_fieldNumTimeStamp Hk).
  now destruct (o_unkm o).
Qed.
