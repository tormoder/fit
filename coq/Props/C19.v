(* C19 -- fitgen yields valid, deterministic code for every product-profile
   selection.  PARTIAL proof: the theorems cover the row -> (struct field,
   lookup entry) mapping of the Gallina model of fitgen's core
   (Model/FitgenCore.v).  The command's exit status, byte-identical output of
   two runs, that the output compiles, and the declared SDK version are not
   expressible in the model; the harness checks them at run time (tests).
   The argument [false] of transform_msg and gen is fitgen's -hrst flag at its
   default (cmd/fitgen/main.go; set, it keeps heart_rate_source_type although
   the row is not enabled): the theorems are about the run without the flag,
   nothing is stated for the run with it. *)
From Coq Require Import NArith List String Lia.
From FitV Require Import Model.FitgenCore Spec.FitgenSpec Proofs.FitgenProofs.
Import ListNotations.
Local Open Scope string_scope.
Local Open Scope N_scope.

(* the types.Fit code and Go type computed for an enabled row have the row's
   base type, array flag and kind *)
Theorem C19_ftype_spec : forall types tdecl r ft tn,
  row_hyp types tdecl r = true ->
  parse_type types (r_name r) (parse_array (r_array r)) (r_type r) = Ok (ft, tn) ->
  ftype_facts tdecl r ft tn.
Proof. exact ftype_spec. Qed.
Print Assumptions C19_ftype_spec.

(* per message: enabled rows <-> struct fields <-> lookup entries, order
   preserving, index = rank; exactly one entry per enabled row and none for a
   disabled row when the field numbers are pairwise distinct *)
Theorem C19_gen_bijection : forall types tdecl pm m,
  transform_msg false types pm = Ok m ->
  (forall r, In r (msg_rows pm) -> s_enabled r = true -> row_hyp types tdecl r = true) ->
  bij tdecl 0 (filter s_enabled (msg_rows pm)) (gen_struct m) (gen_entries m)
  /\ (NoDup (map s_defnum (msg_rows pm)) ->
        (forall r, In r (msg_rows pm) -> s_enabled r = true ->
           exists! e, In e (gen_entries m) /\ e_num e = s_defnum r)
     /\ (forall r, In r (msg_rows pm) -> s_enabled r = false ->
           forall e, In e (gen_entries m) -> e_num e <> s_defnum r)).
Proof. exact gen_bijection. Qed.
Print Assumptions C19_gen_bijection.

(* sindex = rank *)
Theorem C19_rank : forall tdecl i rows sfs es, bij tdecl i rows sfs es ->
  forall k r, nth_error rows k = Some r ->
  exists sf e, nth_error sfs k = Some sf /\ nth_error es k = Some e /\ corr tdecl r (i + N.of_nat k) sf e.
Proof.
  induction 1 as [|i r rs sf sfs e es C _ IH]; intros k r' Hk.
  - destruct k; discriminate.
  - destruct k as [|k]; simpl in *.
    + injection Hk as <-. exists sf, e. rewrite N.add_0_r. auto.
    + destruct (IH k r' Hk) as (sf' & e' & A & B & C'). exists sf', e'. split; [exact A|]. split; [exact B|].
      replace (i + N.pos (Pos.of_succ_nat k)) with (i + 1 + N.of_nat k) by lia. exact C'.
Qed.

(* the parser groups the rows of the Messages sheet as the spec does *)
Theorem C19_parse_groups : forall msheet l, parse_msgs msheet = Ok l -> s_groups msheet = map view l.
Proof. exact parse_msgs_groups. Qed.

(* whole workbook: the executable spec evaluated by the harness on fitgen's
   real output accepts the model's output *)
Theorem C19_gen_sheet_spec : forall tsheet msheet outs,
  gen false tsheet msheet = Ok outs ->
  sheet_hyp tsheet msheet = true ->
  s_sheet_ok tsheet msheet (map observe outs) = true.
Proof. exact gen_sheet_spec. Qed.
Print Assumptions C19_gen_sheet_spec.

(* non-vacuity: a two-message workbook on which generation succeeds, the side
   conditions hold and the field numbers are distinct *)
(* the model's output on the example: heart_rate (disabled) is absent, the
   indexes are the ranks among the enabled rows *)
Example C19_example :
  gen false ex_tsheet ex_msheet =
  Ok [ mkOut "Record"
         [(0, ("Timestamp", "time.Time")); (1, ("PositionLat", "Latitude")); (2, ("Speeds", "[]uint16")); (3, ("Sport", "Sport"))]
         [mkEntry "253" 0 70 "1"; mkEntry "0" 1 197 "1"; mkEntry "5" 2 36 "2"; mkEntry "6" 3 0 "1"];
       mkOut "Lap" [(0, ("Name", "string"))] [mkEntry "7" 0 7 "16"] ]
  /\ sheet_hyp ex_tsheet ex_msheet = true
  /\ Forall (fun g => NoDup (map s_defnum (snd g))) (s_groups ex_msheet).
Proof.
  split; [vm_compute; reflexivity|]. split; [vm_compute; reflexivity|].
  vm_compute. repeat constructor; simpl; intuition discriminate.
Qed.

(* the side conditions cannot be dropped (latent: no bundled workbook has such rows) *)
(* a field named *_lat is typed as a coordinate (sint32) whatever its declared type *)
Theorem C19_coordinate_by_name_refuted :
  exists types tdecl r ft tn,
    parse_type types (r_name r) (parse_array (r_array r)) (r_type r) = Ok (ft, tn)
    /\ s_base tdecl r = Some 0x02 /\ fit_base ft = 0x85.
Proof.
  exists [], [], (mkrow "" "1" "offset_lat" "uint8" "" "" "" "1"). eexists. eexists.
  split; [vm_compute; reflexivity|]. split; vm_compute; reflexivity.
Qed.

(* an array of bool gets the array flag in the lookup entry but the scalar Go type Bool *)
Theorem C19_bool_array_refuted :
  exists types r ft tn,
    parse_type types (r_name r) (parse_array (r_array r)) (r_type r) = Ok (ft, tn)
    /\ s_is_array r = true /\ fit_array ft = true /\ starts_slice tn = false.
Proof.
  exists [], (mkrow "" "1" "flags" "bool" "[N]" "" "" "4"). eexists. eexists.
  split; [vm_compute; reflexivity|]. repeat split; vm_compute; reflexivity.
Qed.

(* an array cell [0] is taken for "no array" *)
Theorem C19_array_zero_refuted :
  exists types r ft tn,
    parse_type types (r_name r) (parse_array (r_array r)) (r_type r) = Ok (ft, tn)
    /\ s_is_array r = true /\ fit_array ft = false.
Proof.
  exists [], (mkrow "" "1" "data" "uint8" "[0]" "" "" "1"). eexists. eexists.
  split; [vm_compute; reflexivity|]. split; vm_compute; reflexivity.
Qed.
