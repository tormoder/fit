(* C04: the acceptance and corruption statements of Props/C04.v that are phrased with the bitwise CRC-16/ARC of
   Spec/CrcSpec.v: check_integrity_arc, accept_residue, encode_integrity_ok, accepted_then_corrupted, the definition
   frame_sound they are stated with, and verdict_none_iff_sound, from which Props/C04.v proves
   C04_sound_frame_accepted in place (C04_corruption_detected it proves in place from C04Corrupt.corruption_detected;
   the other statements of Props/C04.v are closed by lemmas of C04Crc, C04Header, C04Corrupt, C04Agree, C04Encode,
   or evaluated on the witnesses of C04Examples).  The model's table-driven checksum is exchanged for the bitwise
   one through C04Bytes.verdict_arc, that is, checksum_is_arc on byte strings. *)
From Coq Require Import NArith ZArith List Bool Arith Lia.
From FitV Require Import Model.Values Model.Bytes Model.Crc Model.IO Model.Header Model.Route Model.Decode Gen.Consts
  Spec.CrcSpec Spec.Burst Spec.Integrity Spec.Grammar Proofs.Util Proofs.CrcProofs Proofs.C04Crc Proofs.C04IO
  Proofs.C04Verdict Proofs.C04Bytes Proofs.C04Corrupt Proofs.C04Header.
Import ListNotations.
Local Open Scope N_scope.

(* CheckIntegrity(r, false), completely: for every byte string, terminal condition and chunk schedule *)
Theorem check_integrity_arc : forall o g fuel rd, is_bytes (rd_data rd) -> (measure rd < fuel)%nat ->
  exists r, decode o MCrcOnly g rd fuel = TDone r /\
    dr_err r = crc_verdict_with arc (rd_data rd) (rd_term rd) /\
    (dr_err r = None -> rd_pos (dr_rd r) = (rd_pos rd + frame_len (rd_data rd))%nat).
Proof.
  intros o g fuel rd Hb Hm. destruct (check_integrity_spec o g fuel rd Hm) as (r & E & Hr & Hp).
  exists r. rewrite <- verdict_arc by assumption. auto.
Qed.

(* what acceptance means: the bytes consumed are header ++ data ++ crc16 with CRC-16/ARC residue 0,
   and a stored non-zero header checksum has residue 0 over the 14 header bytes *)
Definition frame_sound (bs : list N) : Prop :=
  (hdr_size bs = 12 \/ hdr_size bs = 14)%nat /\ (frame_len bs <= length bs)%nat /\
  arc (firstn (frame_len bs) bs) = 0 /\
  (hdr_size bs = 14%nat -> stored_hdr_crc bs <> 0 -> arc (firstn 14 bs) = 0).

Lemma verdict_none_iff_sound bs tm : crc_verdict_with arc bs tm = None <->
  frame_sound bs /\ proto_ok (b_at bs 1) = true /\ firstn 4 (skipn 8 bs) = fit_dtype.
Proof. rewrite verdict_none_iff, header_stage_none_iff. unfold frame_sound, frame_len. intuition lia. Qed.

Theorem accept_residue : forall o g fuel rd r md, (md = MFull \/ md = MCrcOnly) ->
  is_bytes (rd_data rd) -> (measure rd < fuel)%nat ->
  decode o md g rd fuel = TDone r -> dr_err r = None ->
  frame_sound (rd_data rd) /\ rd_pos (dr_rd r) = (rd_pos rd + frame_len (rd_data rd))%nat.
Proof.
  intros o g fuel rd r md Hmd Hb Hm Hd He.
  destruct (accepted_verdict o g fuel rd r md Hmd Hm Hd He) as [Hv Hp]. rewrite verdict_arc in Hv by assumption.
  split; [now apply (verdict_none_iff_sound _ (rd_term rd))|exact Hp].
Qed.

(* the framing Encode is proved to emit (Spec/Grammar.v header_ok, trailer_ok; Proofs/EncodeProofs.v encode_framing)
   passes CheckIntegrity under every chunk schedule *)
Theorem encode_integrity_ok : forall bs, is_bytes bs ->
  header_ok bs = true -> trailer_ok bs = true -> proto_ok (nth 1 bs 0) = true ->
  forall o g fuel rd, rd_data rd = bs -> (measure rd < fuel)%nat ->
  exists r, decode o MCrcOnly g rd fuel = TDone r /\ dr_err r = None /\
            rd_pos (dr_rd r) = (rd_pos rd + length bs)%nat.
Proof.
  intros bs Hb Hh Ht Hp o g fuel rd Hd Hm. subst bs.
  destruct (check_integrity_arc o g fuel rd Hb Hm) as (r & E & Hr & Hpos).
  rewrite (grammar_integrity_ok (rd_data rd) (rd_term rd) Hb Hh Ht Hp) in Hr.
  exists r. split; [exact E|]. split; [exact Hr|]. rewrite (Hpos Hr). f_equal. now apply header_ok_frame_len.
Qed.

Theorem accepted_then_corrupted : forall o0 g0 fuel0 rd0 r0 md, (md = MFull \/ md = MCrcOnly) ->
  (measure rd0 < fuel0)%nat -> decode o0 md g0 rd0 fuel0 = TDone r0 -> dr_err r0 = None ->
  forall off p, burst16 (frame_len (rd_data rd0)) off p ->
  outside_size_fields (burst (frame_len (rd_data rd0)) off p) = true ->
  forall rd, rd_data rd = xorl (rd_data rd0) (burst (frame_len (rd_data rd0)) off p) ->
  forall o g fuel, (measure rd < fuel)%nat ->
    (exists r, decode o MCrcOnly g rd fuel = TDone r /\ dr_err r <> None) /\
    (forall r, decode o MFull g rd fuel = TDone r -> dr_err r <> None).
Proof.
  intros o0 g0 fuel0 rd0 r0 md Hmd Hm0 Hd0 He0 off p Hb Ho rd Hd o g fuel Hm.
  destruct (accepted_verdict o0 g0 fuel0 rd0 r0 md Hmd Hm0 Hd0 He0) as [Hv _].
  eapply corruption_detected; eassumption.
Qed.
