(* C05 -- Encode emits a well-formed, self-describing FIT stream.
   Model: Model/Encode.v (writer.go as repaired by the fix: commits).  Spec:
   Spec/Grammar.v, a recogniser of the FIT grammar written independently of the
   decoder model, with the bitwise CRC-16/ARC of Spec/CrcSpec.v. *)
From Coq Require Import NArith ZArith List Bool String.
From FitV Require Import Model.Values Model.Bytes Model.Header Model.Route Model.Encode
  Spec.CrcSpec Spec.Grammar Spec.RoundTrip Proofs.EncodeProofs Proofs.C05Grammar Proofs.C05Wire Proofs.C05Complete Proofs.C07Reencode Proofs.EncExamples.
Import ListNotations.
Local Open Scope N_scope.

(* framing, for every File, both byte orders, both header sizes: the output is
   bytes; the header is well formed with data size = number of record bytes and
   a correct header CRC; the trailing CRC is the CRC-16/ARC of everything before
   it; the record section is exactly what the slot encoder produced; and the
   File after the call holds the data size, file CRC and header CRC written *)
Theorem C05_encode_framing : forall f be bs f',
  wf_header (f_header f) = true ->
  encode f be = EOk (bs, f') ->
  N.of_nat (List.length bs) < 4294967296 ->
  forallb (fun b => b <? 256) bs = true /\
  header_ok bs = true /\ trailer_ok bs = true /\
  enc_data f be = EOk (record_bytes bs) /\
  h_dsize (f_header f') = datasize bs /\
  N.of_nat (List.length (record_bytes bs)) = datasize bs /\
  f_crc f' = filecrc bs /\
  (hdrsize bs = 14 -> h_crc (f_header f') = hdrcrc bs /\ hdrcrc bs = arc (firstn 12 bs)).
Proof. exact encode_framing. Qed.
Print Assumptions C05_encode_framing.

(* records, for every well-formed File (all 17 file types, any contents of any slot), both byte orders,
   both header sizes: the complete recogniser accepts the bytes -- every data record is preceded by a
   definition of its local type whose field sizes add up to the record length, every size a multiple of
   its base-type size -- and returns one record per message of the File, in the documented order, that
   carries the message number, the byte order and, per field of the definition, the field number, the
   base type and exactly the bytes writeField wrote for the struct field (rec_of) *)
Theorem C05_encode_grammar : forall f be bs f',
  wf_file f = true -> wf_header (f_header f) = true ->
  encode f be = EOk (bs, f') -> N.of_nat (List.length bs) < 4294967296 ->
  exists recs, grammar bs = Some recs /\ Forall2 (rec_of be) (file_msgs f) recs.
Proof. exact encode_grammar. Qed.
Print Assumptions C05_encode_grammar.

(* the proof reads the generated tables through closed checks, each proved by evaluation: this one,
   file_types_ok (EncodeLay.v), profile_msgs_ok0 (EncodeProofs.v) and, for the values, C05_profile_msgs_ok2 below
   and the check inside C05Grammar.b_size_lt that the sizes of Gen.BaseTables.base_size are bytes *)
Theorem C05_profile_msgs_ok : forallb msg_ok Gen.ProfileData.messages = true.
Proof. exact profile_msgs_ok. Qed.

(* values: for every well-formed File whose arrays are shorter than 256 elements and whose times lie
   within int64 nanoseconds of the FIT epoch (file_sane), every field of every record on the wire
   matches the struct field of the File it was written from (field_matches of Spec/Grammar.v:
   integers by value in the record's byte order, strings with their terminator and zero padding,
   arrays element by element with invalid padding up to the profile length, times as seconds since
   the FIT epoch when whole and in range, local times by wall clock, coordinates as semicircles).
   The per-field clause of C05_encode_wire_ok below, on its own *)
Theorem C05_encode_wire_fields : forall f be bs f',
  wf_file f = true -> wf_header (f_header f) = true -> file_sane f = true ->
  encode f be = EOk (bs, f') -> N.of_nat (List.length bs) < 4294967296 ->
  exists recs, grammar bs = Some recs /\
    Forall2 (fun m r => gr_gmn r = m_num m /\ gr_be r = be /\ fields_match m r = true) (file_msgs f) recs.
Proof.
  intros f be bs f' Hwf Hh Hsane Henc Hlen.
  destruct (encode_grammar f be bs f' Hwf Hh Henc Hlen) as (recs & Hg & HF).
  exists recs. split; [exact Hg|].
  eapply Util.Forall2_impl_l; [|exact (file_msgs_checked f Hwf Hsane)|exact HF].
  intros m r [Hty Hs] Hr. now apply (rec_fields_match be).
Qed.
Print Assumptions C05_encode_wire_fields.

(* the complete statement of DESIGN.md: the recogniser accepts and wire_ok holds -- per message: message number,
   no field number twice in a record, every field value, and every struct field the record does not carry is
   unset (no set field is omitted) *)
Theorem C05_encode_wire_ok : forall f be bs f',
  wf_file f = true -> wf_header (f_header f) = true -> file_sane f = true ->
  encode f be = EOk (bs, f') -> N.of_nat (List.length bs) < 4294967296 ->
  exists recs, grammar bs = Some recs /\ wire_ok f recs = true.
Proof. exact encode_wire_ok. Qed.
Print Assumptions C05_encode_wire_ok.

(* FULL STATEMENT (refuted without file_sane): an array of 256 elements is written as all-invalid,
   because writeField computes byte(value.Len()).  Such arrays exceed every profile length: an observation outside
   the property (DESIGN.md 12.6), not a finding *)
Theorem C05_encode_wire_array256_refuted :
  exists be pf ty v p, write_field be pf ty v = EOk p /\ val_has_type ty v = true /\
    field_matches be pf (Model.Base.fit_base (pf_t pf)) p v = false.
Proof. exact encode_wire_array256_refuted. Qed.

Theorem C05_profile_msgs_ok2 : forallb msg_ok2 Gen.ProfileData.messages = true.
Proof. exact profile_msgs_ok2. Qed.

(* totality: on every well-formed File Encode returns bytes or the UTF-8 error of encodeString; it never panics *)
Theorem C05_encode_total : forall f be, wf_file f = true ->
  (exists r, encode f be = EOk r) \/ encode f be = EErr EEString.
Proof. exact encode_total. Qed.
Theorem C05_encode_no_panic : forall f be w, wf_file f = true -> encode f be <> EPanic w.
Proof. exact encode_no_panic. Qed.
Print Assumptions C05_encode_total.

(* non-vacuity: a well-formed activity File with two records encodes, and the
   complete recogniser (records and wire values included) accepts the bytes *)
Example C05_example :
  wf_file ex_file = true /\ wf_header (f_header ex_file) = true /\
  (exists bs f', encode ex_file true = EOk (bs, f') /\ N.of_nat (List.length bs) < 4294967296 /\
     exists recs, grammar bs = Some recs /\ wire_ok ex_file recs = true /\ List.length recs = 3%nat) /\
  file_sane ex_file = true.
Proof.
  split; [exact ex_file_wf|]. split; [vm_compute; reflexivity|]. split; [|vm_compute; reflexivity].
  destruct ex_file_encodes as (f' & E & L). exists (ex_encoded true), f'. split; [exact E|]. split; [exact L|].
  eexists. split; [vm_compute; reflexivity|]. split; vm_compute; reflexivity.
Qed.
