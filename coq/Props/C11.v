(* C11 -- Truncation and read faults never yield silent success.
   Full statement (properties.jsonl): for every valid single or chained stream cut at any byte, or whose reader
   fails at any offset, every entry point returns a non-nil error; the only exception is a clean end of input
   exactly on a file boundary of a chained stream, which ends the chain.  Files returned alongside the error
   contain exactly the messages that were complete before the cut or fault.

   A cut at k and a fault at k are the same reader oracle up to its terminal condition: it holds the first k bytes
   and then answers TEOF (truncation) or TFault (a non-EOF error on every further Read), under any chunk schedule,
   with or without the last chunk arriving together with that condition. *)
From Coq Require Import NArith List Bool Arith Lia.
From FitV Require Import Model.Values Model.Crc Model.IO Model.Header Model.Route Model.Components Model.Decode
  Spec.FitSyntax Spec.RouteSpec Gen.Consts
  Proofs.IOSim Proofs.C10IO Proofs.C10Frame Proofs.C11Cut Proofs.C10Examples
  Proofs.StreamDenoteDefs Proofs.StreamDenoteLift Proofs.StreamDenoteMain Proofs.StreamDenoteFrame Proofs.StreamDenoteDecode
  Proofs.StreamDenoteWitness Proofs.C11Partial Proofs.C11PartialExamples.
Import ListNotations.

(* whenever a decoder program needs a byte the input no longer has, the buffered phase ends with an I/O error
   (never with success, never by running out of fuel), for every program, chunk schedule and cut/fault offset;
   the error is "beyond data size" when the header's data size is exhausted first, "unexpected EOF" on a
   truncated input and the reader's own error on a fault; the reader position is exactly the end of the data *)
Theorem C11_io_error_is_reported : forall S E A (p : prog S E A) rd limit crc fuel s,
  length (rd_data rd) + length (rd_sched rd) < fuel ->
  forall e x s', run_a p (start_a rd limit) s = RIOErr e x s' ->
  exists c', run_c p (start_c rd limit crc fuel) s = RIOErr e c' s' /\
             e = err_of limit (rd_data rd) (rd_term rd) /\
             rd_pos (c_rd c') = rd_pos rd + Nat.min limit (length (rd_data rd)).
Proof.
  intros S E A p rd limit crc fuel s Hf e x s' Ha.
  pose proof (run_sim (rd_data rd) (rd_pos rd) crc p _ _ s (Rel_start rd limit crc fuel Hf)) as H.
  pose proof (never_past_frame p rd limit crc fuel s Hf) as Hn.
  unfold sim in H. rewrite Ha in H.
  destruct (run_c p (start_c rd limit crc fuel) s) as [? ? ?|? ? ?|e' c' s''|?|]; try contradiction.
  destruct H as (-> & -> & _). destruct Hn as [Hp He]. exists c'. repeat split; assumption.
Qed.
Print Assumptions C11_io_error_is_reported.

(* for any program, the outcome and the state it carries (for the decoder: the File with the messages of the
   records completed before a failure) are those of the abstract run: partial results do not depend on chunking
   either *)
Theorem C11_partial_state_independent : forall S E A (p : prog S E A) rd limit crc fuel s,
  length (rd_data rd) + length (rd_sched rd) < fuel ->
  observe (run_c p (start_c rd limit crc fuel) s) = observe (run_a p (start_a rd limit) s).
Proof. exact @buffered_run_abstract. Qed.

(* a truncated input can only produce EOF-class errors, a faulting reader its fault *)
Theorem C11_error_kind : forall limit data t,
  err_of limit data t = IOBeyond \/ err_of limit data t = noEOF t.
Proof. intros limit data t. unfold err_of. destruct (Nat.leb limit (length data)); auto. Qed.

(* a run on a cut input either ends in an I/O error or ends exactly as the run on the whole input: it never
   succeeds differently, never fails differently, never panics where the whole run does not *)
Theorem C11_run_cut : forall S E A (p : prog S E A) rest t n lim s k t',
  match run_a p (mk_ast (firstn k rest) t' n lim) s with
  | RIOErr _ _ _ => True
  | ROk a x' s' => exists x, run_a p (mk_ast rest t n lim) s = ROk a x s' /\ a_n x = a_n x'
  | RFail e x' s' => exists x, run_a p (mk_ast rest t n lim) s = RFail e x s' /\ a_n x = a_n x'
  | RPanic w => run_a p (mk_ast rest t n lim) s = RPanic w
  | ROutOfFuel => False
  end.
Proof. exact @run_a_cut. Qed.

(* cut_is_error and fault_is_error for Decode, CheckIntegrity and DecodeHeader (every mode but file_id-only): if the
   call succeeds on bs read alone and consumes all of bs (bs is exactly what the call needs: the frame, or the header
   for DecodeHeader), then for EVERY k < |bs| and EVERY reader holding the first k bytes of bs -- any chunk schedule,
   terminal condition clean EOF (cut) or fault, with or without data-with-error -- the call returns (it does not
   panic, it does not run out of fuel) and returns an error; the error is the end-of-chain class (errReadSize on
   EOF) only for the empty input with a clean EOF *)
Theorem C11_cut_is_error : forall o md g bs r, md <> MFileIdOnly ->
  decode o md g (solo bs) (solo_fuel bs) = TDone r -> dr_err r = None -> rd_data (dr_rd r) = [] ->
  forall k rd fuel, k < length bs -> rd_data rd = firstn k bs -> wf rd fuel ->
  exists r' e, decode o md g rd fuel = TDone r' /\ dr_err r' = Some e /\ (e = EReadSizeEOF -> k = 0 /\ rd_term rd = TEOF).
Proof.
  intros o md g bs r Hm Hd He Hnil k rd fuel Hk Hdata Hwf.
  destruct (solo_step o md g bs r Hd He Hm Hnil) as (a & Ea & A1 & A2 & _).
  destruct (decode_a_cut o md g bs TEOF a Ea A1 Hm A2 k (rd_term rd) Hk) as (a' & e & Ea' & Ee & Heof).
  rewrite <- Hdata in Ea'. destruct (decode_of_a o md g rd fuel a' Hwf Ea') as (r' & Hr' & M).
  exists r', e. split; [exact Hr'|]. split; [rewrite (mt_err _ _ _ M); exact Ee|exact Heof].
Qed.
Print Assumptions C11_cut_is_error.

(* conversely, a cut or fault at or beyond the last byte the call needs is never observed (it cannot matter) *)
Theorem C11_beyond_need_unobserved : forall o md g bs r, md <> MFileIdOnly ->
  decode o md g (solo bs) (solo_fuel bs) = TDone r -> dr_err r = None -> rd_data (dr_rd r) = [] ->
  forall tl rd fuel, rd_data rd = bs ++ tl -> wf rd fuel ->
  exists r', decode o md g rd fuel = TDone r' /\ dr_err r' = None /\ dr_hdr r' = dr_hdr r /\ dr_file r' = dr_file r /\
             dr_g r' = dr_g r /\ dr_quirks r' = dr_quirks r /\
             rd_pos (dr_rd r') = rd_pos rd + length bs /\ rd_data (dr_rd r') = tl.
Proof. exact decode_frame_local. Qed.

(* DecodeChained: after a chain prefix pre that decodes (chain_ok, see Props/C10.v), a cut or fault inside the next
   file bs -- the reader holds concat pre ++ the first k bytes of bs -- yields an error, and the Files returned are
   the Files of pre followed by at most one (partial) File.  The side condition lists the cases: empty input, cut
   strictly inside a file, read fault exactly on a file boundary. *)
Theorem C11_chained_cut_is_error : forall o g pre fs1 g1 q1 bs r, chain_ok o g pre fs1 g1 q1 ->
  decode o MFull g1 (solo bs) (solo_fuel bs) = TDone r -> dr_err r = None -> rd_data (dr_rd r) = [] ->
  forall k rd fuel, k < length bs -> rd_data rd = concat pre ++ firstn k bs -> wf rd fuel ->
  pre = [] \/ 0 < k \/ rd_term rd = TFault ->
  exists cr e, entry_DecodeChained o g rd fuel = TDone cr /\ cr_err cr = Some e /\
               firstn (length fs1) (cr_files cr) = fs1 /\ length (cr_files cr) <= S (length fs1).
Proof. exact chained_cut_is_error. Qed.
Print Assumptions C11_chained_cut_is_error.

(* a read fault after the last file (where the size byte of a further file would be read) is an error too *)
Theorem C11_chained_fault_at_end : forall o g pre fs1 g1 q1, chain_ok o g pre fs1 g1 q1 ->
  forall rd fuel, rd_data rd = concat pre -> rd_term rd = TFault -> wf rd fuel ->
  exists cr e, entry_DecodeChained o g rd fuel = TDone cr /\ cr_err cr = Some e /\ cr_files cr = fs1.
Proof. exact chained_fault_at_end. Qed.

(* boundary_eof_ends_chain -- the one exception: a clean end of input exactly on a file boundary after at least one
   file ends the chain without error, with exactly the Files before the boundary (C10_chained_concat for the prefix) *)
Theorem C11_boundary_eof_ends_chain : forall o g pre fs g' q, chain_ok o g pre fs g' q -> pre <> [] ->
  forall rd fuel, rd_data rd = concat pre -> rd_term rd = TEOF -> wf rd fuel ->
  exists cr, entry_DecodeChained o g rd fuel = TDone cr /\ cr_err cr = None /\ cr_files cr = fs /\ cr_g cr = g' /\
             cr_quirks cr = q /\ rd_pos (cr_rd cr) = rd_pos rd + length (concat pre).
Proof. exact chained_concat. Qed.

(* the hypotheses are satisfiable and the conclusion is visible on a concrete file: the 25-byte file of
   Proofs/C10Examples.v decodes alone, and each of its 25 proper prefixes is an error for Decode, under a schedule
   with an empty read and clean EOF, and under a fault delivered together with the last chunk *)
Example C11_example_file : exists r, decode no_opts MFull g_init (solo ex_file) (solo_fuel ex_file) = TDone r /\
  dr_err r = None /\ rd_data (dr_rd r) = [] /\ rd_pos (dr_rd r) = 25 /\ dr_g r = g_init.
Proof. exact ex_file_decodes. Qed.
(* every cut of the file is an error for Decode; cut at 24 with a read fault as well *)
Example C11_example_cuts :
  forallb (fun k => match decode no_opts MFull g_init (mk_reader (firstn k ex_file) [3; 0; 7] TEOF false 0) 60 with
                    | TDone r => match dr_err r with Some _ => true | None => false end
                    | _ => false
                    end) (seq 0 25) = true /\
  forallb (fun k => match decode no_opts MFull g_init (mk_reader (firstn k ex_file) [] TFault true 0) 60 with
                    | TDone r => match dr_err r with Some _ => true | None => false end
                    | _ => false
                    end) (seq 0 25) = true.
Proof. split; vm_compute; reflexivity. Qed.

(* Domain: that of Decode_denote (a well-formed header announcing exactly the bytes of the serialisable record list rs,
   which begins with the file_id definition and data record, is accepted by the reference semantics and has a file
   type with a container).  [completed n rs] = the records that lie completely within the first n data bytes;
   [route_msgs h g msgs] = the File made by File.add of the first message, File.init, File.add of the others.
   For EVERY offset n of the data section and EVERY reader holding the header and the first n data bytes -- any
   chunking, ending in a clean EOF (cut) or a non-EOF error (fault), with or without data-with-error -- Decode returns
   an I/O error together with a File carrying the header and
     - no message and no container while fewer than the two file_id records are complete (boundary case: the cut
       falls inside the file_id definition or the file_id data record);
     - otherwise exactly the routed messages of the records complete before the offset, slot for slot, and the
       accumulator state those messages leave. *)
Theorem C11_partial_files : forall o g rd fuel h rs ss f2 g1 n,
  header_wf h -> h_dsize h = N.of_nat (List.length (ser_records rs)) ->
  starts_with_file_id rs = true -> stream_wf rs = true -> denote rs = Some ss ->
  start_file h g (hd dummy_msg (ss_msgs ss)) = Some (f2, g1) ->
  n < List.length (ser_records rs) ->
  rd_data rd = hdr_bytes h ++ firstn n (ser_records rs) -> wf rd fuel ->
  exists res e file',
    entry_Decode o g rd fuel = TDone res /\ dr_err res = Some (EIO e) /\ dr_hdr res = h /\ dr_file res = Some file' /\
    f_header file' = h /\
    (List.length (completed n rs) < 2 -> f_slots file' = f_slots (new_file h) /\ f_inited file' = None /\ dr_g res = g) /\
    (2 <= List.length (completed n rs) ->
     exists ssd f g', denote (completed n rs) = Some ssd /\ route_msgs h g (ss_msgs ssd) = Some (f, g') /\
                      f_slots file' = f_slots f /\ f_inited file' = f_inited f /\ dr_g res = g').
Proof.
  intros o g rd fuel h rs ss f2 g1 n Hwfh Hsz Hshape Hwf Hden Hstart Hn Hd Hf.
  rewrite <- (app_nil_r (ser_records rs)) in Hd.
  destruct (Decode_cut_at o g rd fuel h rs ss f2 g1 [] n Hwfh Hsz Hshape Hwf Hden Hstart ltac:(lia) Hd Hf)
    as (res & e & file' & Hres & He & Hh & Hfile & Hholds & Hio & _).
  destruct (Hio Hn) as [e' ->]. exists res, e', file'. repeat (split; [assumption|]). exact Hholds.
Qed.
Print Assumptions C11_partial_files.

(* the same in the form the stream theory uses (the completed records rs and the record r in flight given
   explicitly; the records after r need not even be well formed) *)
Theorem C11_partial_file_records :
  forall o g rd fuel h l be fds (devflag : bool) (devs : list (N * N * N)) pay dev rest r cut rem ss1 ss2 f2 g1,
  let rs := RDef l be c_MesgNumFileId fds devflag devs :: RData l pay dev :: rest in
  header_wf h ->
  rd_data rd = hdr_bytes h ++ ser_records rs ++ cut ->
  List.length (ser_records rs ++ cut) < N.to_nat (h_dsize h) ->
  stream_wf rs = true -> denote rs = Some ss1 ->
  start_file h g (hd dummy_msg (ss_msgs ss1)) = Some (f2, g1) ->
  rec_wf r = true -> denote_record ss1 r = Some ss2 ->
  ser_record r = cut ++ rem -> rem <> [] ->
  wf rd fuel ->
  exists res e file' f g',
    entry_Decode o g rd fuel = TDone res /\ dr_err res = Some (EIO e) /\ dr_hdr res = h /\ dr_file res = Some file' /\
    dr_g res = g' /\
    route_msgs h g (ss_msgs ss1) = Some (f, g') /\
    f_slots file' = f_slots f /\ f_inited file' = f_inited f /\ f_header file' = h.
Proof.
  intros o g rd fuel h l be fds devflag devs pay dev rest r cut rem ss1 ss2 f2 g1 rs
         Hwfh Hd Hlim Hwf Hden Hstart Hwfr Hdr Hser Hrem Hf.
  destruct (decode_a_partial_file o g (rd_term rd) h l be fds devflag devs pay dev rest r cut rem ss1 ss2 f2 g1
              Hwfh Hlim Hwf Hden Hstart Hwfr Hdr Hser Hrem) as (e & file' & u & q & f & g' & Ha & Hfile).
  fold rs in Ha. rewrite <- Hd in Ha.
  destruct (decode_of_a o MFull g rd fuel _ Hf Ha) as (res & Hres & M).
  exists res, e, file', f, g'. split; [exact Hres|]. split; [exact (mt_err _ _ _ M)|]. split; [exact (mt_hdr _ _ _ M)|].
  split; [exact (mt_file _ _ _ M)|]. split; [exact (mt_g _ _ _ M)|exact Hfile].
Qed.

(* boundary case: the input ends inside the two checksum bytes: every record was decoded, the File holds the routed
   messages of the whole stream, the error is the checksum read error *)
Theorem C11_partial_files_cut_in_crc : forall o g rd fuel h rs ss1 f2 g1 c,
  header_wf h -> h_dsize h = N.of_nat (List.length (ser_records rs)) ->
  starts_with_file_id rs = true -> stream_wf rs = true -> denote rs = Some ss1 ->
  start_file h g (hd dummy_msg (ss_msgs ss1)) = Some (f2, g1) ->
  rd_data rd = hdr_bytes h ++ ser_records rs ++ c -> List.length c < 2 ->
  wf rd fuel ->
  exists res file' f g',
    entry_Decode o g rd fuel = TDone res /\ dr_err res = Some EFileCRCRead /\ dr_hdr res = h /\ dr_file res = Some file' /\
    dr_g res = g' /\
    route_msgs h g (ss_msgs ss1) = Some (f, g') /\
    f_slots file' = f_slots f /\ f_inited file' = f_inited f /\ f_header file' = h.
Proof.
  intros o g rd fuel h rs ss1 f2 g1 c Hwfh Hsz Hs Hwf Hden Hstart Hd Hc Hf.
  rewrite <- (firstn_all c), <- firstn_app_2 in Hd.
  destruct (Decode_cut_at o g rd fuel h rs ss1 f2 g1 c (List.length (ser_records rs) + List.length c)%nat Hwfh Hsz Hs Hwf Hden Hstart ltac:(lia) Hd Hf)
    as (res & e & file' & Hres & He & Hh & Hfile & (Hhdr & _ & Hall) & _ & Hcrc).
  rewrite (completed_all rs) in Hall by lia.
  destruct (Hall (file_id_two rs Hs)) as (ssd & f & g' & Ed & Hroute & S1 & S2 & Hg).
  rewrite Hden in Ed. injection Ed as <-. rewrite (Hcrc ltac:(lia)) in He.
  exists res, file', f, g'. repeat split; assumption.
Qed.

(* boundary case: the input ends inside the header: an error and no File at all (every mode) *)
Theorem C11_partial_files_cut_in_header : forall o md g rd fuel h body k,
  header_wf h -> k < N.to_nat (h_size h) -> rd_data rd = firstn k (hdr_bytes h ++ body) -> wf rd fuel ->
  exists res e, decode o md g rd fuel = TDone res /\ dr_err res = Some e /\ dr_file res = None /\ dr_g res = g /\
                (e = EReadSizeEOF -> k = 0 /\ rd_term rd = TEOF).
Proof. exact decode_cut_in_header. Qed.

(* DecodeChained: after a chain prefix that decodes (chain_ok), a cut or fault inside a record of the next file:
   the Files of the complete files followed by exactly one partial File, which holds the routed messages of the
   records complete before the cut (routed from the accumulator state g1 the prefix left) *)
Theorem C11_chained_partial_files :
  forall o g pre fs1 g1 q1 rd fuel h l be fds (devflag : bool) (devs : list (N * N * N)) pay dev rest r cut rem ss1 ss2 f2 g2,
  let rs := RDef l be c_MesgNumFileId fds devflag devs :: RData l pay dev :: rest in
  chain_ok o g pre fs1 g1 q1 ->
  header_wf h ->
  rd_data rd = concat pre ++ hdr_bytes h ++ ser_records rs ++ cut ->
  List.length (ser_records rs ++ cut) < N.to_nat (h_dsize h) ->
  stream_wf rs = true -> denote rs = Some ss1 ->
  start_file h g1 (hd dummy_msg (ss_msgs ss1)) = Some (f2, g2) ->
  rec_wf r = true -> denote_record ss1 r = Some ss2 ->
  ser_record r = cut ++ rem -> rem <> [] ->
  wf rd fuel ->
  exists cr e file' f g',
    entry_DecodeChained o g rd fuel = TDone cr /\ cr_err cr = Some (EIO e) /\ cr_files cr = fs1 ++ [file'] /\
    route_msgs h g1 (ss_msgs ss1) = Some (f, g') /\
    f_slots file' = f_slots f /\ f_inited file' = f_inited f /\ f_header file' = h.
Proof.
  intros o g pre fs1 g1 q1 rd fuel h l be fds devflag devs pay dev rest r cut rem ss1 ss2 f2 g2 rs
         Hc Hwfh Hd Hlim Hwf Hden Hstart Hwfr Hdr Hser Hrem Hf.
  destruct (decode_a_partial_file o g1 (rd_term rd) h l be fds devflag devs pay dev rest r cut rem ss1 ss2 f2 g2
              Hwfh Hlim Hwf Hden Hstart Hwfr Hdr Hser Hrem) as (e & file' & u & q & f & g' & Ha & Hfile).
  destruct (chained_then_error o g pre fs1 g1 q1 rd fuel _ _ (EIO e) Hc Hd Hf Ha eq_refl ltac:(discriminate))
    as (cr & Hcr & Hce & Hcf).
  exists cr, e, file', f, g'. split; [exact Hcr|]. split; [exact Hce|]. split; [exact Hcf|exact Hfile].
Qed.
Print Assumptions C11_chained_partial_files.

(* whole-entry cut statement, for every input: if the call succeeds on bs there is a number of bytes it needs (the
   header and what the file_id prologue consumed) such that EVERY shorter prefix, through any reader ending in EOF or
   a fault, is an error, and every input agreeing with bs on that many bytes succeeds with the same results *)
Theorem C11_DecodeHeaderAndFileID_threshold : forall g bs r,
  entry_DecodeHeaderAndFileID g (solo bs) (solo_fuel bs) = TDone r -> dr_err r = None ->
  exists need, need <= List.length bs /\
    (forall k rd fuel, k < need -> rd_data rd = firstn k bs -> wf rd fuel ->
       exists r' e, entry_DecodeHeaderAndFileID g rd fuel = TDone r' /\ dr_err r' = Some e) /\
    (forall rd fuel, firstn need (rd_data rd) = firstn need bs -> need <= List.length (rd_data rd) -> wf rd fuel ->
       exists r', entry_DecodeHeaderAndFileID g rd fuel = TDone r' /\ dr_err r' = None /\ dr_hdr r' = dr_hdr r /\
                  dr_file r' = dr_file r /\ dr_g r' = dr_g r).
Proof.
  unfold entry_DecodeHeaderAndFileID. intros g bs r Hd He.
  destruct (decode_done_a _ _ _ _ _ _ Hd) as (a & Ea & [M1 M2 M3 M4 _ _ _ _ _]). rewrite M1 in He.
  destruct (decode_a_need _ _ _ _ _ _ Ea He) as (need & Hn & _ & Hlow & Hup).
  exists need. split; [exact Hn|]. split.
  - intros k rd fuel Hk Hdata Hwf. destruct (Hlow k (rd_term rd) Hk) as (a' & e & Ea' & Ee & _).
    cbn [solo rd_data] in Ea'. rewrite <- Hdata in Ea'. destruct (decode_of_a _ _ _ _ _ _ Hwf Ea') as (r' & Hr' & M).
    exists r', e. split; [exact Hr'|rewrite (mt_err _ _ _ M); exact Ee].
  - intros rd fuel Hf Hl Hwf.
    destruct (decode_of_a _ _ _ _ _ _ Hwf (Hup (rd_data rd) (rd_term rd) Hf Hl)) as (r' & Hr' & [E1 E2 E3 E4 _ _ _ _ _]).
    exists r'. split; [exact Hr'|]. repeat split; congruence.
Qed.
Print Assumptions C11_DecodeHeaderAndFileID_threshold.

(* and for a file beginning with a well-formed header, file_id definition and file_id data record that number is
   header size + the two records: every shorter input is an error *)
Theorem C11_DecodeHeaderAndFileID_cut_is_error :
  forall g rd fuel h l be fds (devflag : bool) (devs : list (N * N * N)) pay dev ssb f2 g1 tl k,
  let r1 := RDef l be c_MesgNumFileId fds devflag devs in
  let r2 := RData l pay dev in
  header_wf h ->
  List.length (ser_record r1) + List.length (ser_record r2) <= N.to_nat (h_dsize h) ->
  rec_wf r1 = true -> rec_wf r2 = true -> denote_from ss_init [r1; r2] = Some ssb ->
  start_file h g (hd dummy_msg (ss_msgs ssb)) = Some (f2, g1) ->
  k < N.to_nat (h_size h) + List.length (ser_record r1) + List.length (ser_record r2) ->
  rd_data rd = firstn k (hdr_bytes h ++ (ser_record r1 ++ ser_record r2) ++ tl) -> wf rd fuel ->
  exists res e, entry_DecodeHeaderAndFileID g rd fuel = TDone res /\ dr_err res = Some e.
Proof.
  intros g rd fuel h l be fds devflag devs pay dev ssb f2 g1 tl k r1 r2 Hwfh Hlim Hwf1 Hwf2 Hden Hstart Hk Hd Hf.
  unfold entry_DecodeHeaderAndFileID.
  destruct (Nat.lt_ge_cases k (N.to_nat (h_size h))) as [Hlt|Hge].
  - destruct (decode_cut_in_header no_opts MFileIdOnly g rd fuel h _ k Hwfh Hlt Hd Hf) as (res & e & H1 & H2 & _).
    exists res, e. split; assumption.
  - pose proof (hdr_bytes_length h Hwfh) as Hlen.
    rewrite firstn_app, Hlen, firstn_all2, firstn_app in Hd by lia.
    replace (k - N.to_nat (h_size h) - List.length (ser_record r1 ++ ser_record r2))%nat with 0%nat in Hd
      by (rewrite app_length; lia).
    cbn [firstn] in Hd. rewrite app_nil_r in Hd.
    destruct (prologue_consumes no_opts h g l be fds devflag devs pay dev ssb f2 g1 Hwf1 Hwf2 Hden Hstart) as (s1 & _ & Hc & _).
    fold r1 r2 in Hc. rewrite <- (firstn_skipn (k - N.to_nat (h_size h)) (ser_record r1 ++ ser_record r2)) in Hc.
    destruct (prologue_trunc no_opts true (S (N.to_nat (h_dsize h))) h g _ _ s1 (rd_term rd) (N.to_nat (h_dsize h)) Hc)
      as (e & x & sf & Hrun & _); [apply Util.skipn_not_nil; rewrite app_length; lia|].
    destruct (decode_a_ioerr no_opts true g h _ (rd_term rd) e x sf Hwfh Hrun) as [u Ha]. rewrite <- Hd in Ha.
    destruct (decode_of_a _ _ _ _ _ _ Hf Ha) as (res & Hres & M).
    exists res, (EIO e). split; [exact Hres|exact (mt_err _ _ _ M)].
Qed.

(* the hypotheses are satisfiable and the conclusions visible on the in-domain stream ok_stream framed by ok_hdr:
   the domain holds; at every offset of its data section Decode returns an I/O error with a File (read in chunks of
   2, 0, 5 bytes, the fault arriving together with the last chunk); a cut inside the checksum gives EFileCRCRead with
   a File; DecodeHeaderAndFileID fails on every prefix shorter than 12 + 9 + 2 bytes and succeeds from there on *)
Example C11_example_domain :
  header_wf ok_hdr /\ h_dsize ok_hdr = N.of_nat (List.length (ser_records ok_stream)) /\
  starts_with_file_id ok_stream = true /\ stream_wf ok_stream = true /\
  exists ss f2 g1, denote ok_stream = Some ss /\ start_file ok_hdr g_init (hd dummy_msg (ss_msgs ss)) = Some (f2, g1) /\
                   no_file_id (List.tl (ss_msgs ss)) = true /\ (3 <= List.length (ss_msgs ss))%nat.
Proof. exact ex_domain. Qed.
(* every offset of the data section, read in chunks of 2, 0, 5 bytes and then whole, ending in a read fault that
   arrives together with the last chunk: an I/O error with a File *)
Example C11_example_partial_every_offset :
  forallb (fun n => is_io_error_with_file
             (entry_Decode no_opts g_init
                (mk_reader (hdr_bytes ok_hdr ++ firstn n (ser_records ok_stream)) [2; 0; 5] TFault true 0) 200))
          (seq 0 (List.length (ser_records ok_stream))) = true.
Proof. vm_compute. reflexivity. Qed.
(* a cut inside the checksum: EFileCRCRead *)
Example C11_example_cut_in_crc :
  match entry_Decode no_opts g_init (mk_reader (hdr_bytes ok_hdr ++ ser_records ok_stream ++ [7%N]) [] TEOF false 0) 200 with
  | TDone r => dr_err r = Some EFileCRCRead /\ dr_file r <> None
  | _ => False
  end.
Proof. vm_compute. split; [reflexivity|discriminate]. Qed.
(* DecodeHeaderAndFileID: error on every prefix shorter than header + file_id definition + file_id data record
   (12 + 9 + 2 bytes for ok_stream), success from there on *)
Example C11_example_fileid_threshold :
  forallb (fun k => match entry_DecodeHeaderAndFileID g_init (mk_reader (firstn k (fit_file ok_hdr ok_stream)) [3] TEOF false 0) 200 with
                    | TDone r => match dr_err r with Some _ => Nat.ltb k 23 | None => Nat.leb 23 k end
                    | _ => false
                    end) (seq 0 68) = true.
Proof. vm_compute. reflexivity. Qed.

(* Scope of partial_files: the theorem is about files of the domain of Decode_denote (docs/notes-C02-stream.md:
   serialisable records, canonical base-type bytes, a file type with a container); "the messages" are the slots of the File (route_msgs); the unknown-message / unknown-field counters of
   a partial File are the subject of C16 (Decode_counts_on_failure).  Outside Coq: the theorems speak about the
   model; reader.go is tied to it by the lock-step run on every cut and fault offset of every stream of the harness,
   where the partial Files are also judged against the extracted reference semantics. *)
