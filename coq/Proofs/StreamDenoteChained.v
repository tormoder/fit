(* Stream-level decode = denote, chained form: the entry point DecodeChained on the concatenation of
   k >= 1 complete framed files followed by a clean EOF, read through any reader oracle (any chunk
   schedule with empty reads, data-with-EOF or not, any start position).
   It returns exactly the k routed Files and no error, consumes every byte, and threads the accumulator
   state from one file to the next; each File is the one Decode returns for that file alone, started
   from the accumulator state the chain has reached (C02 lifted to chains, C10 flavour). *)
From Coq Require Import NArith ZArith List Bool Lia Arith.
From Coq Require Import ZifyN ZifyNat ZifyBool.
From FitV Require Import Proofs.Util Model.Values Model.Bytes Model.Base Model.Profile Model.Reflect Model.IO
  Model.Header Model.Route Model.Components Model.Decode Spec.FitSyntax Spec.RouteSpec Proofs.DecodeLemmas Gen.Consts
  Proofs.StreamDenoteBase Proofs.StreamDenoteDefs Proofs.StreamDenoteLoop Proofs.StreamDenoteLift Proofs.StreamDenoteMain
  Proofs.StreamDenoteFrame Proofs.StreamDenoteDecode Proofs.StreamDenoteWitness Proofs.C10Frame.
Import ListNotations.

(* every file of the chain is in the domain of [Decode_denote], taken from the accumulator state the
   files before it have produced *)
Fixpoint chain_domain (g : gstate) (fs : list (header * list record)) : Prop :=
  match fs with
  | [] => True
  | (h, rs) :: r =>
      header_wf h /\ h_dsize h = N.of_nat (List.length (ser_records rs)) /\
      starts_with_file_id rs = true /\ stream_wf rs = true /\
      exists ss f2 g1 f g',
        denote rs = Some ss /\ start_file h g (hd dummy_msg (ss_msgs ss)) = Some (f2, g1) /\
        route_msgs h g (ss_msgs ss) = Some (f, g') /\ chain_domain g' r
  end.

Definition chain_bytes (fs : list (header * list record)) : list N :=
  concat (map (fun hr => fit_file (fst hr) (snd hr)) fs).

(* the i-th returned File is the routed File of the i-th record list, started from the i-th
   accumulator state, exactly as in the conclusion of [Decode_denote]; gl is the last accumulator state *)
Fixpoint chain_result (o : dopts) (g : gstate) (fs : list (header * list record)) (files : list file) (gl : gstate) : Prop :=
  match fs, files with
  | [], [] => gl = g
  | (h, rs) :: r, file' :: fr =>
      exists ss f g1,
        denote rs = Some ss /\ route_msgs h g (ss_msgs ss) = Some (f, g1) /\
        f_slots file' = f_slots f /\ f_inited file' = f_inited f /\ f_header file' = h /\
        f_crc file' = file_crc h (ser_records rs) /\
        (o_unkm o = true -> f_unkm file' = Some (sorted_unkm ss)) /\
        (o_unkf o = true -> f_unkf file' = Some (sorted_unkf ss)) /\
        chain_result o g1 r fr gl
  | _, _ => False
  end.

(* the i-th returned File, the next accumulator state and the quirk list are what Decode returns on the
   i-th file alone (one piece, clean EOF right after it) from the i-th accumulator state; ql is the
   concatenation of the quirk lists *)
Fixpoint chain_alone (o : dopts) (g : gstate) (fs : list (header * list record)) (files : list file)
  (gl : gstate) (ql : list N) : Prop :=
  match fs, files with
  | [], [] => gl = g /\ ql = []
  | (h, rs) :: r, file' :: fr =>
      exists g1 q qr,
        (forall fuel0, (List.length (fit_file h rs) < fuel0)%nat ->
           exists rd0, entry_Decode o g (alone_reader h rs) fuel0 = TDone (mk_dres None h (Some file') rd0 g1 q) /\
                       rd_data rd0 = [] /\ rd_pos rd0 = List.length (fit_file h rs)) /\
        ql = q ++ qr /\ chain_alone o g1 r fr gl qr
  | _, _ => False
  end.

(* the files of a chain of the domain decode alone, one after the other: C10Frame.chain_ok, with the Files of
   [Decode_denote_full] *)
Lemma chain_domain_ok o : forall fs g, chain_domain g fs ->
  exists fl g' ql, chain_ok o g (map (fun hr => fit_file (fst hr) (snd hr)) fs) fl g' ql /\
                   chain_result o g fs fl g' /\ chain_alone o g fs fl g' ql.
Proof.
  induction fs as [|[h rs] r IH]; intros g Hdom.
  - exists [], g, []. split; [constructor|]. split; [reflexivity|split; reflexivity].
  - destruct Hdom as (Hh & Hsz & Hs & Hwf & ss & f2 & g1 & f & g' & Hden & Hst & Hroute & Hdom').
    destruct (Decode_denote_full o g (alone_reader h rs) (solo_fuel (fit_file h rs)) h rs ss f2 g1 [] Hh Hsz Hs Hwf Hden Hst
                (eq_sym (app_nil_r _)) (solo_wf _))
      as (rd1 & file' & fx & gx & q0 & Hdec & Hroute' & Hsl & Hin & Hhd & Hcrc & Hum & Huf & _ & Hrest & Halone).
    rewrite Hroute in Hroute'. injection Hroute' as <- <-.
    destruct (IH g' Hdom') as (fl & gl & ql & Hok & Hres & Hal).
    exists (file' :: fl), gl, (q0 ++ ql). split; [|split].
    + exact (chain_cons o g _ _ file' _ fl gl ql Hdec eq_refl eq_refl Hrest Hok).
    + exists ss, f, g'. repeat split; assumption.
    + exists g', q0, ql. split; [exact Halone|]. split; [reflexivity|exact Hal].
Qed.

Theorem DecodeChained_denote_full : forall o fs g rd fuel,
  fs <> [] -> chain_domain g fs -> rd_data rd = chain_bytes fs -> rd_term rd = TEOF ->
  (List.length (rd_data rd) + List.length (rd_sched rd) < fuel)%nat ->
  exists rd' files' g' q,
    entry_DecodeChained o g rd fuel = TDone (mk_cres None files' rd' g' q) /\
    rd_data rd' = [] /\ rd_pos rd' = (rd_pos rd + List.length (chain_bytes fs))%nat /\
    List.length files' = List.length fs /\ chain_result o g fs files' g' /\ chain_alone o g fs files' g' q.
Proof.
  intros o fs g rd fuel Hne Hdom Hd Ht Hf.
  destruct (chain_domain_ok o fs g Hdom) as (fl & g' & ql & Hok & Hres & Hal).
  destruct (chained_concat_empty o g _ fl g' ql Hok ltac:(destruct fs; [contradiction|discriminate]) rd fuel Hd Ht Hf)
    as (rd' & E & P & D).
  destruct (chain_ok_lengths _ _ _ _ _ _ Hok) as [_ HL]. rewrite map_length in HL.
  exists rd', fl, g', ql. repeat split; assumption.
Qed.

(* C02 on chains: k well-formed files and a clean EOF give exactly the k routed Files, no error, all bytes consumed *)
Theorem DecodeChained_denote : forall o fs g rd fuel,
  fs <> [] -> chain_domain g fs -> rd_data rd = chain_bytes fs -> rd_term rd = TEOF ->
  (List.length (rd_data rd) + List.length (rd_sched rd) < fuel)%nat ->
  exists rd' files' g' q,
    entry_DecodeChained o g rd fuel = TDone (mk_cres None files' rd' g' q) /\
    rd_data rd' = [] /\ rd_pos rd' = (rd_pos rd + List.length (chain_bytes fs))%nat /\
    List.length files' = List.length fs /\ chain_result o g fs files' g'.
Proof.
  intros o fs g rd fuel Hne Hdom Hd Ht Hf.
  destruct (DecodeChained_denote_full o fs g rd fuel Hne Hdom Hd Ht Hf) as (rd' & fl & g' & q & H0 & H1 & H2 & H3 & H4 & _).
  exists rd', fl, g', q. repeat split; assumption.
Qed.

(* the result does not depend on the reader schedule, the data-with-EOF flag, the start position or the fuel *)
Corollary DecodeChained_schedule_independent : forall o fs g rd rd2 fuel fuel2,
  fs <> [] -> chain_domain g fs -> rd_data rd = chain_bytes fs -> rd_term rd = TEOF ->
  rd_data rd2 = rd_data rd -> rd_term rd2 = TEOF ->
  (List.length (rd_data rd) + List.length (rd_sched rd) < fuel)%nat ->
  (List.length (rd_data rd2) + List.length (rd_sched rd2) < fuel2)%nat ->
  exists c1 c2,
    entry_DecodeChained o g rd fuel = TDone c1 /\ entry_DecodeChained o g rd2 fuel2 = TDone c2 /\
    cr_err c1 = None /\ cr_err c2 = None /\ cr_files c1 = cr_files c2 /\ cr_g c1 = cr_g c2 /\ cr_quirks c1 = cr_quirks c2.
Proof.
  intros o fs g rd rd2 fuel fuel2 Hne Hdom Hd Ht Hd2 Ht2 Hf Hf2.
  destruct (DecodeChained_denote o fs g rd fuel Hne Hdom Hd Ht Hf) as (ra & fa & ga & qa & Ra & _).
  destruct rd as [data sched t ewd pos], rd2 as [data2 sched2 t2 ewd2 pos2]. cbn [rd_data rd_term rd_sched] in *. subst data2 t t2.
  pose proof (chained_schedule_independent o g data TEOF sched sched2 ewd ewd2 pos pos2 fuel fuel2 Hf Hf2) as S.
  rewrite Ra in S. destruct (entry_DecodeChained o g _ fuel2) as [c2| |]; try contradiction.
  destruct S as (S1 & S2 & S3 & S4). exists (mk_cres None fa ra ga qa), c2. repeat split; auto.
Qed.

Print Assumptions DecodeChained_denote_full.
Print Assumptions DecodeChained_denote.
Print Assumptions DecodeChained_schedule_independent.

(* the hypotheses are satisfiable *)
(* two copies of the concrete file of StreamDenoteDecode.v, read in chunks of 5, 0, 9 bytes and then whole *)
Definition ok_chain : list (header * list record) := [(ok_hdr, ok_stream); (ok_hdr, ok_stream)].
Definition ok_chain_reader : reader :=
  mk_reader (fit_file ok_hdr ok_stream ++ fit_file ok_hdr ok_stream) [5; 0; 9]%nat TEOF false 0.

(* None outside [chain_domain] *)
Fixpoint chain_end (g : gstate) (fs : list (header * list record)) : option gstate :=
  match fs with
  | [] => Some g
  | (h, rs) :: r =>
      match denote rs with
      | Some ss =>
          match start_file h g (hd dummy_msg (ss_msgs ss)), route_msgs h g (ss_msgs ss) with
          | Some _, Some (_, g') => chain_end g' r
          | _, _ => None
          end
      | None => None
      end
  end.

Lemma chain_domain_end : forall fs g,
  Forall (fun hr => header_wf (fst hr) /\ h_dsize (fst hr) = N.of_nat (List.length (ser_records (snd hr))) /\
                    starts_with_file_id (snd hr) = true /\ stream_wf (snd hr) = true) fs ->
  chain_end g fs <> None -> chain_domain g fs.
Proof.
  induction fs as [|[h rs] r IH]; intros g Hall Hend; [exact I|].
  inversion Hall as [|x y (Hh & Hsz & Hs & Hwf) Hr]; subst x y. cbn [chain_domain chain_end fst snd] in *.
  repeat (split; [assumption|]).
  destruct (denote rs) as [ss|]; [|contradiction].
  destruct (start_file h g (hd dummy_msg (ss_msgs ss))) as [[f2 g1]|] eqn:Est; [|contradiction].
  destruct (route_msgs h g (ss_msgs ss)) as [[f g']|] eqn:Ero; [|contradiction].
  exists ss, f2, g1, f, g'. repeat split; try assumption. exact (IH g' Hr Hend).
Qed.

Example ok_chain_in_domain :
  chain_domain g_init ok_chain /\ rd_data ok_chain_reader = chain_bytes ok_chain /\ rd_term ok_chain_reader = TEOF /\
  (List.length (rd_data ok_chain_reader) + List.length (rd_sched ok_chain_reader) < 400)%nat.
Proof.
  split; [|split; [vm_compute; reflexivity|split; [reflexivity|vm_compute; lia]]].
  destruct Decode_denote_example as (Hh & F1 & F2 & F3 & _).
  apply chain_domain_end; [|vm_compute; discriminate].
  pose proof (conj Hh (conj F1 (conj F2 F3))) as Hok. unfold ok_chain. repeat (apply Forall_cons; [exact Hok|]). apply Forall_nil.
Qed.

Example DecodeChained_example :
  match entry_DecodeChained no_opts g_init ok_chain_reader 400 with
  | TDone c => cr_err c = None /\ List.length (cr_files c) = 2%nat /\ rd_pos (cr_rd c) = 134%nat /\ rd_data (cr_rd c) = []
  | _ => False
  end.
Proof. vm_compute. repeat split; reflexivity. Qed.
