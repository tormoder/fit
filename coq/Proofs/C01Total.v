(* C01: with fuel above |data| + |schedule| decode computes decode_a of the
   reader's bytes (C10Frame.decode_of_a: the raw reads, the header, the
   buffered phase and the checksum all finish), decode_a returns on every list
   of bytes (the buffered phase without panic by C01Records.v), the reader only
   ever shrinks, a call without error has taken input, and the five entry
   points are total: TDone for every byte string, chunk schedule, terminal
   condition and accumulator state. *)
From Coq Require Import NArith ZArith List Bool Arith Lia.
From FitV Require Import Proofs.Util Model.Values Model.Bytes Model.Crc Model.IO Model.Header Model.Components
  Model.Route Model.Decode Proofs.IOSim Proofs.C10IO Proofs.C10Frame Proofs.C01Hoare Proofs.C01Fields Proofs.C01Records.
Import ListNotations.

(* [rmeasure rd < fuel] is [C10IO.wf rd fuel] unfolded, and is passed as such to the specifications of C10IO and C10Frame *)
Definition rmeasure (r : reader) : nat := length (rd_data r) + length (rd_sched r).
Definition reader_ok (r : reader) : Prop := Forall isbyte (rd_data r).

(* the reader after some reads: nothing was added to it *)
Definition rd_le (r' r : reader) : Prop :=
  rmeasure r' <= rmeasure r /\ length (rd_data r') <= length (rd_data r) /\ (reader_ok r -> reader_ok r').

Lemma adv_rd_le r r' k : adv r r' k -> rd_le r' r.
Proof.
  intros [Hd _ _ _ Hs]. unfold rd_le, rmeasure, reader_ok. rewrite Hd, skipn_length.
  repeat split; try lia. apply Forall_skipn.
Qed.

(* decode_a returns on every list of bytes: the buffered phase does not panic (C01Records.data_prog_np) and ends,
   in full mode, at the limit; the rest of decode_a is a case distinction *)
Lemma decode_a_done o md g data t : Forall isbyte data -> exists a, decode_a o md g data t = TDone a.
Proof.
  intros Hb. unfold decode_a. destruct (hdr_a data t) as [[[[e|] h] crc] used]; [eexists; reflexivity|].
  assert (B : forall fid, exists a, buffered_a o fid g h crc used (skipn used data) t = TDone a).
  { intros fid. unfold buffered_a. set (limit := N.to_nat (h_dsize h)).
    pose proof (data_prog_np o fid (mk_ast (skipn used data) t 0 limit) (new_file h) g
                  (conj (Forall_skipn _ _ Hb) (Nat.le_0_l _)) eq_refl) as Hnp.
    unfold np in Hnp. cbn [a_limit] in Hnp.
    destruct (run_a _ _ _) as [u x s|e x s|e x s|w|]; try contradiction; try (eexists; reflexivity).
    destruct fid; [eexists; reflexivity|]. rewrite (Hnp eq_refl), Nat.eqb_refl. eexists; reflexivity. }
  unfold body_a. destruct md; try apply B; [eexists; reflexivity|]. destruct (cp_err _ _ _); eexists; reflexivity.
Qed.

Theorem decode_done o md g rd fuel : reader_ok rd -> rmeasure rd < fuel ->
  exists r, decode o md g rd fuel = TDone r /\ rd_le (dr_rd r) rd /\
            (dr_err r = None -> length (rd_data (dr_rd r)) < length (rd_data rd)).
Proof.
  intros Hok Hf. destruct (decode_a_done o md g (rd_data rd) (rd_term rd) Hok) as [a Ea].
  destruct (decode_of_a o md g rd fuel a Hf Ea) as (r & Er & M). destruct (mt_adv _ _ _ M) as [k HA].
  exists r. split; [exact Er|]. split; [exact (adv_rd_le _ _ _ HA)|]. rewrite (mt_err _ _ _ M). intros He.
  pose proof (mt_progress _ _ _ M He) as ML.
  rewrite (adv_pos _ _ _ HA) in ML. rewrite (adv_data _ _ _ HA), skipn_length. lia.
Qed.

(* DecodeChained: every successfully decoded file consumes input, so the
   chain fuel S |data| is never exhausted *)
Lemma decode_chained_done o : forall files g rd fuel i acc q,
  reader_ok rd -> rmeasure rd < fuel -> length (rd_data rd) < files ->
  exists r, decode_chained o g rd fuel i files acc q = TDone r.
Proof.
  induction files as [|k IH]; intros g rd fuel i acc q Hok Hf Hlen; [lia|].
  cbn [decode_chained].
  destruct (decode_done o MFull g rd fuel Hok Hf) as (r & -> & Hle & Hlt).
  destruct (dr_err r) as [e|].
  - destruct e; destruct i; eexists; reflexivity.
  - specialize (Hlt eq_refl). destruct Hle as (A & B & C).
    apply IH; [auto|lia|lia].
Qed.

Theorem decode_total : forall o (header_only : bool) g rd fuel,
  Forall (fun b => (b < 256)%N) (rd_data rd) -> length (rd_data rd) + length (rd_sched rd) < fuel ->
  (exists r, entry_Decode o g rd fuel = TDone r) /\
  (exists r, entry_DecodeChained o g rd fuel = TDone r) /\
  (exists r, entry_CheckIntegrity header_only g rd fuel = TDone r) /\
  (exists r, entry_DecodeHeader g rd fuel = TDone r) /\
  (exists r, entry_DecodeHeaderAndFileID g rd fuel = TDone r).
Proof.
  intros o ho g rd fuel Hok Hf.
  assert (D : forall o' md, exists r, decode o' md g rd fuel = TDone r).
  { intros o' md. destruct (decode_done o' md g rd fuel Hok Hf) as (r & H & _). eauto. }
  split; [exact (D o MFull)|]. split; [apply decode_chained_done; auto; lia|].
  split; [exact (D no_opts _)|]. split; [exact (D no_opts _)|exact (D no_opts _)].
Qed.
