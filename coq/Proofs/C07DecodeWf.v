(* C07 decode_wf at File level: every File that Decode returns without error
   holds, slot by slot, well-typed messages of the slot's message type, pointer
   slots at most one, FileId exactly one; it is a wf_file (Spec/RoundTrip.v)
   whenever FileId.Type still names the container File.init created (the
   complement is the known finding second_file_id).
   Method: the state-passing precondition calculus [wps] of Proofs/C07Reencode.v, sound for
   the byte-list interpreter run_a on bytes, applied to decode_a (C10Frame.v), which decode
   computes on any reader and for any fuel (decode_abs_free); that decodeHeader accepted gives the
   header facts, through the verdict functions of Spec/Integrity.v.  That a record's message is
   well typed is parse_data_message_wf there; that parsing it stores nothing to the File is
   the okp family of Proofs/DecodeFrame.v; here the invariant of File.add and File.init is added. *)
From Coq Require Import NArith ZArith List Bool Lia String.
From FitV Require Import Model.Values Model.Bytes Model.Base Model.Profile Model.Reflect Model.Components Model.Route
  Model.Crc Model.Header Model.IO Model.Decode Spec.RoundTrip Spec.RouteSpec
  Spec.Integrity Proofs.Util Proofs.BytesUtil Proofs.C10IO Proofs.C10Frame Proofs.C04Bytes Proofs.C04Verdict
  Proofs.ProfileProofs Proofs.RouteProofs Proofs.EncodeProofs Proofs.C07MsgWf Proofs.C07Reencode Proofs.StreamDenoteLift Proofs.StreamDenoteFrame
  Proofs.StreamDenoteDef Proofs.DecodeFrame Proofs.StreamDenoteDecode
  Gen.Consts Gen.RoutingData.
From FitV Require Proofs.C06Lay.
Import ListNotations.
Local Open Scope N_scope.

Definition common5 : list (string * bool * N) := firstn NCOMMON (slots_of first_valid_ft).

(* before init: the five common slots; after: the slots of the container init created *)
Definition file_inv (f : file) : Prop :=
  match f_inited f with
  | None => slots_wf 0 common5 (f_slots f) = true
  | Some ft => In ft valid_file_types /\ slots_wf 0 (slots_of ft) (f_slots f) = true
  end.

(* what a decoded File satisfies: the container exists, and every slot holds
   well-typed messages of its own type (pointer slots at most one, FileId exactly one) *)
Definition file_ok (f : file) : Prop :=
  exists ft, f_inited f = Some ft /\ In ft valid_file_types /\ slots_wf 0 (slots_of ft) (f_slots f) = true.

Definition slot_ok (k : nat) (multi : bool) (mn : N) (s : list msg) : bool :=
  forallb (msg_wf mn) s && (multi || Nat.leb (List.length s) 1) && (if Nat.eqb k 0 then Nat.eqb (List.length s) 1 else true).

Lemma slots_wf_cons k nm multi mn dr s sr :
  slots_wf k ((nm, multi, mn) :: dr) (s :: sr) = slot_ok k multi mn s && slots_wf (S k) dr sr.
Proof. reflexivity. Qed.

Lemma slots_wf_set_nth : forall descs slots k i name multi mn s', slots_wf k descs slots = true ->
  nth_error descs i = Some (name, multi, mn) ->
  (slot_ok (k + i) multi mn (nth i slots []) = true -> slot_ok (k + i) multi mn s' = true) ->
  slots_wf k descs (set_nth i s' slots) = true.
Proof.
  induction descs as [|[[nm mu] mn0] dr IH]; intros [|s sr] k i name multi mn s' H Hn Hs; try discriminate.
  - destruct i; discriminate.
  - rewrite slots_wf_cons in H. apply andb_true_iff in H as [H1 H2]. destruct i as [|i]; cbn [nth_error set_nth nth] in *.
    + inversion Hn; subst. rewrite Nat.add_0_r in Hs. now rewrite slots_wf_cons, (Hs H1), H2.
    + rewrite slots_wf_cons, H1. cbn [andb]. eapply IH; [exact H2|exact Hn|].
      now replace (S k + i)%nat with (k + S i)%nat by lia.
Qed.

Lemma slots_wf_app : forall d1 s1 d2 s2 k, slots_wf k d1 s1 = true -> slots_wf (k + List.length d1) d2 s2 = true ->
  slots_wf k (d1 ++ d2) (s1 ++ s2) = true.
Proof.
  induction d1 as [|[[nm mu] mn] dr IH]; intros [|s sr] d2 s2 k H1 H2; try discriminate.
  - cbn [List.length app] in *. now rewrite Nat.add_0_r in H2.
  - rewrite slots_wf_cons in H1. apply andb_true_iff in H1 as [Ha Hb]. cbn [app]. rewrite slots_wf_cons, Ha. cbn [andb].
    apply IH; [exact Hb|]. cbn [List.length] in H2. now replace (S k + List.length dr)%nat with (k + S (List.length dr))%nat by lia.
Qed.

Lemma slots_wf_empty : forall d k, slots_wf (S k) d (repeat [] (List.length d)) = true.
Proof. induction d as [|[[nm mu] mn] dr IH]; intros k; [reflexivity|]. cbn [List.length repeat]. rewrite slots_wf_cons, IH. now destruct mu. Qed.

Lemma slots_add_wf descs slots i name multi mn m' : slots_wf 0 descs slots = true ->
  nth_error descs i = Some (name, multi, mn) -> (i = 0%nat -> multi = false) -> msg_wf mn m' = true ->
  slots_wf 0 descs (set_nth i (if multi then nth i slots [] ++ [m'] else [m']) slots) = true.
Proof.
  intros Hw Hn H0 Hm. eapply slots_wf_set_nth; [exact Hw|exact Hn|]. cbn [Nat.add]. unfold slot_ok. destruct multi.
  - intros Hold. rewrite !andb_true_iff in Hold. destruct Hold as [[Hf _] _].
    rewrite forallb_app, Hf. cbn [forallb orb andb]. rewrite Hm. cbn [andb].
    destruct i as [|i]; [specialize (H0 eq_refl); discriminate|reflexivity].
  - intros _. cbn [forallb List.length Nat.leb orb]. rewrite Hm. now destruct (Nat.eqb i 0).
Qed.

Lemma common_prefix ft : In ft valid_file_types ->
  firstn NCOMMON (slots_of ft) = common5 /\ (NCOMMON <= List.length (slots_of ft))%nat.
Proof.
  intros Hft. destruct (wf_ft_clauses ft Hft) as (Hlen & _ & _ & _ & Hc). exact (conj Hc Hlen).
Qed.

Lemma common5_nth ft i : In ft valid_file_types -> (i < NCOMMON)%nat -> nth_error common5 i = nth_error (slots_of ft) i.
Proof. intros Hft Hi. destruct (common_prefix ft Hft) as [<- _]. now apply nth_error_firstn_lt. Qed.

(* FileId is a pointer slot *)
Lemma common5_slot0 name multi mn : nth_error common5 0 = Some (name, multi, mn) -> multi = false.
Proof.
  rewrite (common5_nth _ 0 first_valid_in) by (unfold NCOMMON; lia).
  destruct (proj1 (find_slot_iff _ _ _ _ first_valid_in) file_id_slot) as [nm ->]. now intros [= _ <- _].
Qed.

Lemma stored_wf ft g m m' g' : mwf m -> stored ft g m = Some (m', g') -> msg_wf (m_num m) m' = true.
Proof.
  intros Hm H. destruct (stored_cases _ _ _ _ H) as [[= -> _]|E]; [exact Hm|exact (expand_components_wf _ _ _ _ _ Hm E)].
Qed.

Lemma file_add_common_slot f g m f' g' : f_inited f = None -> file_add f g m = AddOk f' g' ->
  exists i name multi, nth_error common5 i = Some (name, multi, m_num m) /\
    f_slots f' = set_nth i (if multi then nth i (f_slots f) [] ++ [m] else [m]) (f_slots f).
Proof.
  intros Hi. rewrite (file_add_uninited f g m Hi).
  destruct (find_slot first_valid_ft (m_num m)) as [[i multi]|] eqn:Es; [|discriminate].
  destruct (Nat.ltb_spec i NCOMMON) as [El|_]; [|discriminate].
  apply (find_slot_iff _ _ i multi first_valid_in) in Es as [name Hn]. intros [= <- _]. exists i, name, multi.
  split; [now rewrite (common5_nth _ i first_valid_in El)|reflexivity].
Qed.

Theorem file_add_inv f g m f' g' : mwf m -> file_inv f -> file_add f g m = AddOk f' g' -> file_inv f'.
Proof.
  intros Hm Hinv Ha. unfold file_inv in *. rewrite (proj2 (file_add_frame _ _ _ _ _ Ha)).
  destruct (f_inited f) as [ft|] eqn:Ei.
  - destruct Hinv as [Hft Hw]. split; [exact Hft|].
    destruct (file_add_step ft f g m f' g' Hft Ei Ha) as (m' & Hs & _ & ->).
    destruct (find_slot ft (m_num m)) as [[i multi]|] eqn:Es; [|exact Hw].
    apply (find_slot_iff ft (m_num m) i multi Hft) in Es as [name Hn].
    eapply slots_add_wf; [exact Hw|exact Hn| |eapply stored_wf; eassumption].
    intros ->. apply (common5_slot0 name _ (m_num m)). now rewrite (common5_nth ft 0 Hft) by (unfold NCOMMON; lia).
  - destruct (file_add_common_slot f g m f' g' Ei Ha) as (i & name & multi & Hn & ->).
    eapply slots_add_wf; [exact Hinv|exact Hn| |exact Hm]. intros ->. eapply common5_slot0; eassumption.
Qed.

Theorem file_init_ok f f' : f_inited f = None -> file_inv f -> file_init f = Some f' ->
  file_ok f' /\ f_header f' = f_header f.
Proof.
  intros Hi Hinv H. unfold file_inv in Hinv. rewrite Hi in Hinv. destruct (file_init_some f f' H) as [Hft ->].
  destruct (common_prefix _ Hft) as [Hc Hlen].
  split; [|reflexivity]. exists (file_type f). split; [reflexivity|]. split; [exact Hft|]. cbn [f_slots].
  set (sl := slots_of (file_type f)) in *.
  assert (Hc5 : List.length common5 = NCOMMON) by (rewrite <- Hc; apply firstn_length_le, Hlen).
  rewrite firstn_all2 by (rewrite (EncodeLay.slots_wf_length _ _ _ Hinv), Hc5; constructor).
  rewrite <- (skipn_length NCOMMON sl). rewrite <- (firstn_skipn NCOMMON sl) at 1. rewrite Hc.
  apply slots_wf_app; [exact Hinv|]. rewrite Hc5. apply slots_wf_empty.
Qed.

Definition file_at (h : header) (oi : option N) (s : dstate) : Prop :=
  f_header (ds_file s) = h /\ f_inited (ds_file s) = oi /\ file_inv (ds_file s).

Lemma new_file_at h g : file_at h None (init_dstate (new_file h) g).
Proof. split; [reflexivity|]. split; [reflexivity|]. vm_compute. reflexivity. Qed.

(* it speaks of the File only: stores to the definition slots, the clock and the counters keep it, so every
   decoder program without a File store does (the okp family of DecodeFrame.v) *)
Lemma file_at_slots h oi : slots_free (file_at h oi).
Proof. intros s d ts lo hq H. exact H. Qed.

Lemma file_at_counts h oi : counts_free (file_at h oi).
Proof. split; intros s k H; exact H. Qed.

Lemma okp_wps {A} (J : dstate -> Prop) (p : P A) : okp J p -> forall s, J s -> wps p (fun _ => J) s.
Proof.
  induction p as [a|e|w|k IH|n k IH|k IH|k IH|s' k IH]; intros Hp s0 Hs; cbn [okp wps] in *; auto; [contradiction|].
  apply IH; tauto.
Qed.

Lemma data_message_at h oi o b c s : file_at h oi s ->
  wps (parse_data_message o b c) (fun om s' => opt_all mwf om /\ file_at h oi s') s.
Proof.
  intros Hs. apply wps_and; [apply wpre_wps, parse_data_message_wf|].
  apply okp_wps; [apply okp_data_message; [apply slots_clock, file_at_slots|apply file_at_counts]|exact Hs].
Qed.

Lemma add_msg_at h oi m s : mwf m -> file_at h oi s -> wps (add_msg m) (fun _ => file_at h oi) s.
Proof.
  intros Hm (Hh & Hi & Hinv). unfold add_msg. cbn [get_st bind wps].
  destruct (file_add (ds_file s) (ds_g s) m) as [f' g'|w] eqn:Ea; [|exact I].
  destruct (file_add_frame _ _ _ _ _ Ea) as [Eh Ei]. cbn [put_st wps]. unfold file_at. cbn [with_file ds_file].
  rewrite Eh, Ei. split; [exact Hh|]. split; [exact Hi|]. eapply file_add_inv; eassumption.
Qed.

Lemma data_record_at h oi o b c s : file_at h oi s ->
  wps (bind (parse_data_message o b c) tail_k) (fun _ => file_at h oi) s.
Proof.
  intros Hs. eapply wps_seq; [apply (data_message_at h oi), Hs|]. intros [m|] s1 [Hm H1]; [now apply add_msg_at|exact H1].
Qed.

Theorem parse_record_at h oi o s : file_at h oi s -> wps (parse_record o) (fun _ => file_at h oi) s.
Proof.
  intros Hs. unfold parse_record. cbn [read_byte bind wps]. intros b _.
  destruct (_ =? c_compressedHeaderMask); [now apply data_record_at|].
  destruct (_ =? c_mesgDefinitionMask).
  { apply okp_wps; [|exact Hs]. apply okp_bind; [apply okp_parse_def|intros dm; apply okp_set_def, file_at_slots]. }
  destruct (_ =? c_mesgHeaderMask); [now apply data_record_at|exact I].
Qed.

Theorem parse_file_id_msg_at h oi o s : file_at h oi s -> wps (parse_file_id_msg o) (fun _ => file_at h oi) s.
Proof.
  intros Hs. unfold parse_file_id_msg. cbn [read_byte bind wps]. intros b _.
  destruct (negb _); [exact I|].
  eapply wps_seq; [apply okp_wps; [apply okp_parse_def|exact Hs]|]. intros dm s1 H1.
  destruct (negb _); [exact I|].
  eapply wps_seq; [apply okp_wps; [apply okp_set_def, file_at_slots|exact H1]|]. intros ? s2 H2.
  cbn [read_byte bind wps]. intros b2 _. destruct (negb _); [exact I|].
  eapply wps_seq; [apply (data_message_at h oi), H2|]. intros om s3 [Hm H3].
  destruct om as [m|]; [|exact I]. destruct (m_num m =? c_MesgNumFileId); [|exact I].
  now apply add_msg_at.
Qed.

Theorem decode_file_data_at h oi o : forall fuel s, file_at h oi s -> wps (decode_file_data o fuel) (fun _ => file_at h oi) s.
Proof.
  induction fuel as [|f IH]; intros s Hs; cbn [decode_file_data]; [exact I|].
  cbn [wps]. intros [|]; [|exact Hs].
  eapply wps_seq; [apply (parse_record_at h oi), Hs|]. intros ? s1 H1. apply IH, H1.
Qed.

Theorem do_init_at h s : file_at h None s -> wps do_init (fun _ s' => exists ft, file_at h (Some ft) s') s.
Proof.
  intros (Hh & Hi & Hinv). unfold do_init. cbn [get_st bind wps].
  destruct (file_init (ds_file s)) as [f'|] eqn:Ef; [|exact I]. cbn [put_st wps].
  destruct (file_init_ok _ _ Hi Hinv Ef) as [(ft & Hi' & Hok) Hh']. exists ft. unfold file_at, file_inv. cbn [with_file ds_file].
  rewrite Hi', Hh'. split; [exact Hh|]. split; [reflexivity|exact Hok].
Qed.

(* the buffered part of a full decode: file_id, init, records *)
Theorem data_prog_at h o fuel s : file_at h None s ->
  wps (data_prog o false fuel) (fun _ s' => exists ft, file_at h (Some ft) s') s.
Proof.
  intros Hs. unfold data_prog.
  eapply wps_seq; [apply (parse_file_id_msg_at h None), Hs|]. intros ? s1 H1.
  eapply wps_seq; [apply (do_init_at h), H1|]. intros ? s2 [ft H2].
  eapply wps_mono; [|apply (decode_file_data_at h (Some ft)), H2]. intros ? s' H. now exists ft.
Qed.

(* an accepted header stage, on bytes: the header is one Encode accepts *)
Lemma header_stage_facts bs tm : bytes_lt bs -> header_stage_m bs tm = None ->
  wf_header (parse_header bs) = true /\ proto_ok (h_proto (parse_header bs)) = true /\ h_profile (parse_header bs) < 65536.
Proof.
  intros Hb Hs. apply header_stage_none_iff in Hs as (Hsz & _ & Hpo & Hdt & _).
  unfold parse_header, wf_header, hdr_size in *. cbn [h_size h_proto h_profile h_dtype].
  rewrite Hdt, Hpo. split; [|split; [reflexivity|]].
  - rewrite !andb_true_iff, orb_true_iff, !N.eqb_eq, N.ltb_lt. split; [split; [lia|apply b_at_lt, Hb]|reflexivity].
  - assert (Hb2 : bytes_lt (firstn 2 (skipn 2 bs))) by (apply Forall_firstn, Forall_skipn, Hb).
    pose proof (b_at_lt _ 0 Hb2). pose proof (b_at_lt _ 1 Hb2). unfold le16. lia.
Qed.

(* the decoder over a list of bytes: the header stage accepted, the records ran to the end, checkCRC set File.CRC *)
Lemma decode_a_full_ok o g bs tm a : bytes_lt bs -> decode_a o MFull g bs tm = TDone a -> ar_err a = None ->
  (exists f, ar_file a = Some f /\ file_ok f /\ f_header f = ar_hdr a) /\
  wf_header (ar_hdr a) = true /\ proto_ok (h_proto (ar_hdr a)) = true /\ h_profile (ar_hdr a) < 65536.
Proof.
  intros Hb. pose proof (decode_a_header o MFull g bs tm) as H. destruct (header_stage_m bs tm) as [e|] eqn:Ehs.
  { destruct H as (h & used & ->). intros [= <-]. discriminate. }
  destruct H as [-> _]. unfold body_a, buffered_a. set (h := parse_header bs).
  destruct (run_a _ _ _) as [u x s|e x s|e x s|w|] eqn:Er; try discriminate; try (intros [= <-]; discriminate).
  destruct (wps_sound_a _ _ (mk_ast _ _ _ _) _ _ _ _ (data_prog_at h o _ _ (new_file_at h g)) (Forall_skipn _ _ Hb) Er)
    as (ft & Hh & Hi & Hinv).
  cbv zeta. destruct (negb _); [discriminate|]. intros [= <-] _. cbn [ar_file ar_hdr].
  split; [|exact (header_stage_facts bs tm Hb Ehs)].
  eexists. split; [reflexivity|]. unfold file_inv in Hinv. rewrite Hi in Hinv.
  unfold file_ok, finalize_unknown, with_file, crc_a. destruct (rf_err _ _ _); cbn [fst snd ds_file f_slots f_inited f_header set_crc];
    rewrite Hi; (split; [exists ft; split; [reflexivity|exact Hinv]|exact Hh]).
Qed.

(* for every reader and every fuel: C10Frame.decode_abs_free *)
Theorem decode_full_ok : forall o g rd fuel r,
  bytes_lt (rd_data rd) -> decode o MFull g rd fuel = TDone r -> dr_err r = None ->
  (exists f, dr_file r = Some f /\ file_ok f /\ f_header f = dr_hdr r) /\ bytes_lt (rd_data (dr_rd r)) /\
  wf_header (dr_hdr r) = true /\ proto_ok (h_proto (dr_hdr r)) = true /\ h_profile (dr_hdr r) < 65536.
Proof.
  intros o g rd fuel r Hb Hd He. destruct (decode_done_a o MFull g rd fuel r Hd) as (a & Ea & M).
  destruct (mt_adv _ _ _ M) as [k Ha]. rewrite (mt_err _ _ _ M) in He. rewrite (mt_hdr _ _ _ M), (mt_file _ _ _ M), (adv_data _ _ _ Ha).
  destruct (decode_a_full_ok o g _ _ a Hb Ea He) as [Hf Hh]. split; [exact Hf|]. split; [apply Forall_skipn, Hb|exact Hh].
Qed.

Theorem decode_slots_wf : forall o g rd fuel h file' rd' g' q,
  Forall (fun b => b < 256) (rd_data rd) ->
  entry_Decode o g rd fuel = TDone (mk_dres None h (Some file') rd' g' q) ->
  exists ft, f_inited file' = Some ft /\ In ft valid_file_types /\
             slots_wf 0 (slots_of ft) (f_slots file') = true.
Proof.
  intros o g rd fuel h file' rd' g' q Hb Hd.
  destruct (decode_full_ok o g rd fuel _ Hb Hd eq_refl) as [(f & Hf & Hok & _) _].
  cbn [dr_file] in Hf. inversion Hf; subst f. exact Hok.
Qed.

Lemma file_ok_wf f : file_ok f -> exists ft, f_inited f = Some ft /\ wf_file f = (ft =? file_type f).
Proof.
  intros (ft & Hi & Hft & Hw). exists ft. split; [exact Hi|]. unfold wf_file. rewrite Hi.
  destruct (valid_entry ft Hft) as [cn ->]. rewrite Hw. apply andb_true_r.
Qed.

(* C07 decode_wf: the returned File is a wf_file exactly when FileId.Type still
   names the container File.init created (otherwise: known finding second_file_id) *)
Theorem decode_wf_iff : forall o g rd fuel h file' rd' g' q,
  Forall (fun b => b < 256) (rd_data rd) ->
  entry_Decode o g rd fuel = TDone (mk_dres None h (Some file') rd' g' q) ->
  exists ft, f_inited file' = Some ft /\ wf_file file' = (ft =? file_type file').
Proof.
  intros o g rd fuel h file' rd' g' q Hb Hd. apply file_ok_wf. eapply decode_slots_wf; eassumption.
Qed.

Theorem decode_wf : forall o g rd fuel h file' rd' g' q,
  Forall (fun b => b < 256) (rd_data rd) ->
  entry_Decode o g rd fuel = TDone (mk_dres None h (Some file') rd' g' q) ->
  forall ft, f_inited file' = Some ft -> file_type file' = ft -> wf_file file' = true.
Proof.
  intros o g rd fuel h file' rd' g' q Hb Hd ft Hi Ht.
  destruct (decode_wf_iff _ _ _ _ _ _ _ _ _ Hb Hd) as (ft0 & Hi0 & ->).
  rewrite Hi in Hi0. inversion Hi0; subst ft0. rewrite Ht. apply N.eqb_refl.
Qed.

Theorem decode_chained_ok o fuel : forall files g rd i acc q res,
  bytes_lt (rd_data rd) -> Forall file_ok acc ->
  decode_chained o g rd fuel i files acc q = TDone res -> cr_err res = None -> Forall file_ok (cr_files res).
Proof.
  induction files as [|k IH]; intros g rd i acc q res Hb Hacc; cbn [decode_chained]; [discriminate|].
  destruct (decode o MFull g rd fuel) as [r| |] eqn:Ed; try discriminate.
  destruct (dr_err r) as [e|] eqn:Ee.
  - (* the chain ends here: with the error, or at a clean end of input with the Files so far *)
    destruct e; try (intros [= <-]; discriminate). destruct i; intros [= <-]; [discriminate|intros _; exact Hacc].
  - destruct (decode_full_ok o g rd fuel r Hb Ed Ee) as [(f & Hf & Hok & _) [Hb' _]].
    rewrite Hf. apply IH; [exact Hb'|]. apply Forall_app. split; [exact Hacc|]. constructor; [exact Hok|constructor].
Qed.


(* the file of StreamDenoteDecode.ok_reader: Decode succeeds, FileId.Type names the container, the File is a wf_file *)
Example decode_wf_example :
  Forall (fun b => b < 256) (rd_data ok_reader) /\
  match entry_Decode no_opts g_init ok_reader 200 with
  | TDone r =>
      match dr_err r, dr_file r with
      | None, Some f => opt_n_eqb (f_inited f) (Some (file_type f)) && wf_file f
      | _, _ => false
      end
  | _ => false
  end = true.
Proof. split; [apply all_bytes_is_bytes; vm_compute; reflexivity|vm_compute; reflexivity]. Qed.

(* known finding second_file_id: an activity file_id followed by a settings file_id record.  On it
   (Props.C07.C07_decode_wf_needs_single_file_id, by evaluation) Decode succeeds, the container is ActivityFile (4),
   FileId.Type reads 2: not a wf_file *)
Definition sfid_hdr : header := mk_header 12 16 2215 13 fit_dtype 0.
Definition sfid_reader : reader :=
  mk_reader (frame_bytes sfid_hdr [64; 0; 0; 0; 0; 1; 0; 1; 0;  0; 4;  0; 2]) [] TEOF false 0.
