(* Stream-level decode = denote: one data record, File.add apart.  Running parse_data_message on the
   payload and developer bytes of a data record the reference semantics accepts consumes exactly those bytes,
   cannot fail, panic or hit an I/O error, returns the message the record denotes and re-establishes the part of
   the invariant that does not speak of the File (Rel) with the state denote_data returns (data_message_ok).
   StreamDenoteLoop.v adds File.add, the header byte and the definition records; StreamDenoteLift.v uses the same
   lemma for the file_id record, which is decoded before File.init. *)
From Coq Require Import NArith ZArith List Bool Lia Arith.
From Coq Require Import ZifyN ZifyNat ZifyBool.
From FitV Require Import Proofs.Util Model.Values Model.Bytes Model.Base Model.Profile Model.Reflect Model.IO
  Model.Route Model.Components Model.Decode Spec.FitSyntax Spec.RouteSpec Spec.ProfileWf Proofs.ProfileProofs
  Proofs.RouteProofs Proofs.DecodeLemmas Gen.Consts
  Proofs.StreamDenoteBase Proofs.StreamDenoteArith Proofs.StreamDenoteDefs Proofs.StreamDenoteDef
  Proofs.StreamDenoteField Proofs.DecodeFrame Proofs.StreamDenoteData.
Import ListNotations.
Local Open Scope N_scope.
Ltac Zify.zify_post_hook ::= Z.div_mod_to_equations.

Lemma data_fields_consumes o dm d known msgv pay dev s a s' : dm_ok dm d -> List.length dev = sd_devsize d ->
  consumes (parse_fields o dm known (map to_fdef (sd_fds d)) msgv) pay s a s' ->
  consumes (parse_data_fields o dm known msgv) (pay ++ dev) s a s'.
Proof.
  intros (_ & _ & Hfds & Hdev & _) Hld Hrun. unfold parse_data_fields. rewrite Hfds. rewrite <- Hdev in Hld.
  eapply consumes_bind; [exact Hrun|].
  rewrite <- (app_nil_r dev). eapply consumes_bind; [exact (skip_dev_ok _ dev _ Hld)|apply consumes_ret].
Qed.

Record Rel (o : dopts) (s : dstate) (ss : sstate) : Prop := {
  rel_len : List.length (ds_defs s) = 16%nat;
  rel_defs : forall l, l < 16 -> slot_rel (nth (N.to_nat l) (ds_defs s) None) (lookup_def (ss_env ss) l);
  rel_env16 : forall l d, lookup_def (ss_env ss) l = Some d -> l < 16;
  rel_c : crel o s (ss_ref ss) (ss_unkm ss) (ss_unkf ss)
}.

(* pre, fb, gb, ft, here and in Inv: the File is described from File.init on.  fb and gb are the File and the
   accumulators right after it, ft the file type it found, pre the messages added before it (the file_id message);
   the messages denoted since, added to fb and gb in order, give the decoder's File and accumulators
   (StreamDenoteLift.prologue_consumes is where the four are fixed) *)
Definition Filed (pre : list msg) (fb : file) (gb : gstate) (ft : N) (s : dstate) (ss : sstate) : Prop :=
  In ft valid_file_types /\ f_inited (ds_file s) = Some ft /\
  exists ms, ss_msgs ss = pre ++ ms /\ adds fb gb ms = AddOk (ds_file s) (ds_g s).

(* Inv (StreamDenoteDefs.v) is what the theorems are stated with; the proofs use its two halves, divided by what
   each part of the decoder stores to.  A definition record writes the slots, a data record the clock and the
   counters (crel): both keep Rel and leave the File alone (frame).  File.add and File.init write the File and the
   accumulators only: Filed.  The file_id record is decoded before File.init, where Filed cannot hold yet. *)
Lemma Inv_iff o pre fb gb ft s ss : Inv o pre fb gb ft s ss <-> Rel o s ss /\ Filed pre fb gb ft s ss.
Proof.
  split.
  - intros [H1 H2 H3 H4 H5 H6 H7 H8 H9]. repeat split; assumption.
  - intros [[H1 H2 H3 (H4 & H5 & H6)] (H7 & H8 & H9)]. constructor; assumption.
Qed.

Lemma Rel_upd o s ss s' ss' : Rel o s ss -> ds_defs s' = ds_defs s -> ss_env ss' = ss_env ss ->
  crel o s' (ss_ref ss') (ss_unkm ss') (ss_unkf ss') -> Rel o s' ss'.
Proof. intros [H1 H2 H3 _] Ed Ee Hc. constructor; rewrite ?Ed, ?Ee; assumption. Qed.

Lemma Rel_init o f g : Rel o (init_dstate f g) ss_init.
Proof.
  constructor; cbn [init_dstate ss_init ds_defs ss_env]; try reflexivity.
  - intros l _. now rewrite nth_repeat.
  - discriminate.
  - repeat split.
Qed.

Lemma Rel_def o s ss l be gmn fds (devflag : bool) (devs : list (N * N * N)) :
  Rel o s ss -> l < 16 -> forallb (compat gmn) fds = true -> forallb canon_bt fds = true ->
  Rel o
    (with_defs s (set_nth (N.to_nat l) (Some (mk_defmsg l be gmn (map to_fdef fds) (if devflag then devs else []))) (ds_defs s)))
    (mk_sstate ((l, mk_sdef be gmn fds (dev_size (if devflag then devs else []))) :: ss_env ss)
               (ss_ref ss) (ss_msgs ss) (ss_unkm ss) (ss_unkf ss)).
Proof.
  intros [H1 H2 H3 H4] Hl Hc Hcan.
  constructor; cbn [with_defs ds_defs ss_env]; try assumption.
  - now rewrite set_nth_length.
  - intros l' Hl'. rewrite lookup_def_cons.
    destruct (N.eqb_spec l l') as [<-|Hne].
    + rewrite nth_set_nth_eq by (rewrite H1; lia). cbn [slot_rel]. unfold dm_ok.
      cbn [dm_be dm_gmn dm_fdefs dm_devs sd_be sd_gmn sd_fds sd_devsize]. repeat split; try assumption; reflexivity.
    + rewrite nth_set_nth_neq by (intros E; apply Hne; now apply N2Nat.inj). now apply H2.
  - intros l' d. rewrite lookup_def_cons. destruct (N.eqb_spec l l') as [<-|Hne]; [intros _; exact Hl|apply H3].
Qed.

(* what denote_record and rec_wf demand of a definition record, and the state it yields *)
Lemma def_accepted ss l be gmn fds (devflag : bool) devs ss' :
  rec_wf (RDef l be gmn fds devflag devs) = true -> denote_record ss (RDef l be gmn fds devflag devs) = Some ss' ->
  l < 16 /\ gmn < 65536 /\ gmn <> c_MesgNumInvalid /\ forallb (compat gmn) fds = true /\ forallb canon_bt fds = true /\
  ss' = mk_sstate ((l, mk_sdef be gmn fds (dev_size (if devflag then devs else []))) :: ss_env ss)
                  (ss_ref ss) (ss_msgs ss) (ss_unkm ss) (ss_unkf ss).
Proof.
  unfold rec_wf. intros Hwf (El & Eg & Ec & ->)%denote_def_iff.
  apply andb_prop in Hwf as [_ Hx]. apply andb_prop in Hx as [Hg Hcan]. apply N.ltb_lt in Hg. now repeat split.
Qed.

(* a data record of a known message appends one message, numbered as its definition says *)
Lemma known_data_msg ss l offo pay dev ss' d :
  denote_data ss l offo pay dev = Some ss' -> lookup_def (ss_env ss) l = Some d -> known_msg (sd_gmn d) = true ->
  exists m, ss_msgs ss' = ss_msgs ss ++ [m] /\ m_num m = sd_gmn d.
Proof.
  rewrite denote_data_effect. intros H El Ek. rewrite El in H. destruct (_ || _); [discriminate|].
  unfold data_effect in H. rewrite Ek in H.
  destruct (mesg_all_invalid (sd_gmn d)) as [m0|] eqn:Em; [|discriminate].
  match type of H with context [denote_fields ?be ?g ?f ?p ?m1 ?r []] =>
    pose proof (proj2 (denote_fields_length be g f p m1 r [])) as Hn; destruct (denote_fields be g f p m1 r []) as [[m2 ref2] unl] end.
  injection H as <-. exists m2. split; [reflexivity|]. cbn [fst] in Hn. rewrite Hn.
  unfold mesg_all_invalid in Em. destruct (find_msg (sd_gmn d)) as [md|]; [|discriminate].
  destruct (md_has_ctor md); [|discriminate]. injection Em as <-.
  unfold stamp_msg. destruct offo, (ss_ref ss), (get_field (sd_gmn d) c_fieldNumTimeStamp); reflexivity.
Qed.

Lemma Inv_data_unknown o pre fb gb ft s ss hs' ts' lo' q' gmn ref2 :
  Inv o pre fb gb ft s ss ->
  time_rel hs' ts' lo' ref2 ->
  Inv o pre fb gb ft
      (mk_dstate (ds_defs s) ts' lo' (ds_unkf s) (if o_unkm o then bump1 gmn (ds_unkm s) else ds_unkm s) (ds_file s) (ds_g s) q' hs')
      (mk_sstate (ss_env ss) ref2 (ss_msgs ss) (count1 gmn (ss_unkm ss)) (ss_unkf ss)).
Proof.
  intros HI Ht. apply Inv_iff in HI. destruct HI as [HR HF]. apply Inv_iff. split; [|exact HF].
  apply (Rel_upd o s ss _ _ HR); [reflexivity..|]. destruct (rel_c _ _ _ HR) as (_ & Hm & Hf).
  split; [exact Ht|]. split; [|exact Hf]. intros Ho. cbn [ds_unkm ss_unkm]. now rewrite Ho, bump1_count1, (Hm Ho).
Qed.

(* File.add of the message a data record returns *)
Lemma Filed_add pre fb gb ft s ss s' ss' m :
  Filed pre fb gb ft s ss -> frame s s' -> ss_msgs ss' = ss_msgs ss ++ [m] ->
  exists f' g', consumes (add_msg m) [] s' tt (with_file s' f' g') /\ Filed pre fb gb ft (with_file s' f' g') ss'.
Proof.
  intros (Hft & Hi & ms & Hms & Hadds) (_ & Ef & Eg) Hm. rewrite <- Ef in Hi.
  destruct (add_no_panic ft Hft (ds_file s') (ds_g s') m Hi) as (f' & g' & Ha & Hi' & _).
  exists f', g'. split.
  - unfold add_msg, get_st, put_st. cbn [bind]. apply consumes_get. rewrite Ha. apply consumes_put, consumes_ret.
  - split; [exact Hft|]. split; [exact Hi'|]. exists (ms ++ [m]).
    split; [now rewrite Hm, Hms, app_assoc|]. rewrite adds_app, Hadds, <- Ef, <- Eg. exact Ha.
Qed.

Lemma roll_rel r off : off < 32 -> time_rel true (roll r off) off (Some (roll r off)).
Proof.
  intros Ho. cbn [time_rel]. split; [reflexivity|]. split; [reflexivity|].
  unfold roll. change (2 ^ 32) with 4294967296. lia.
Qed.

Lemma model_roll ts lo r off : ts = r -> lo = r mod 32 ->
  (ts + (off + 32 - lo) mod 32) mod 2 ^ 32 = roll r off.
Proof. intros -> ->. reflexivity. Qed.

(* offo is the offset the compressed-timestamp header b carries; a normal header carries none
   (DecodeLemmas.local_of b compressed is the local type either addresses) *)
Definition header_offset (b : N) (compressed : bool) (offo : option N) : Prop :=
  match offo with
  | None => compressed = false
  | Some off => compressed = true /\ N.land b c_compressedTimeMask = off /\ off < 32
  end.

Lemma data_message_unknown o b compressed dm s l a s' : known_msg (dm_gmn dm) = false ->
  consumes (stamp_view o b compressed dm None) l (if o_unkm o then with_unkm s (bump1 (dm_gmn dm) (ds_unkm s)) else s) a s' ->
  consumes (data_message_with o b compressed dm s) l s a s'.
Proof.
  intros Hk. rewrite (dmw_unknown o b compressed dm s Hk). destruct (o_unkm o); intros H; [apply consumes_put|]; exact H.
Qed.

Lemma stamp_step o s ref um uf b compressed offo dm msgv :
  crel o s ref um uf -> header_offset b compressed offo ->
  exists s1,
    (forall l a s',
       consumes (parse_data_fields o dm (known_msg (dm_gmn dm)) (option_map (stamp_msg (dm_gmn dm) offo ref) msgv)) l s1 a s' ->
       consumes (stamp_view o b compressed dm msgv) l s a s') /\
    crel o s1 (ref_after offo ref) um uf.
Proof.
  intros Hc Hoff. unfold stamp_view, header_offset in *.
  assert (Hid : forall r, option_map (stamp_msg (dm_gmn dm) None r) msgv = msgv) by (destruct msgv; reflexivity).
  destruct offo as [off|]; [destruct Hoff as (-> & Hoffb & Hoff32)|subst compressed]; cbn [negb].
  2: { exists s. rewrite Hid. split; [intros l a s' H; exact H|exact Hc]. }
  destruct ref as [r|]; pose proof (proj1 Hc) as Ht; cbn [time_rel] in Ht.
  2: { exists s. split; [|exact Hc].
       intros l a s' H. unfold get_st. cbn [bind]. apply consumes_get. rewrite Ht. destruct msgv; exact H. }
  destruct Ht as (Hh & Hts & Hlo).
  exists (with_time s (roll r off) off). split.
  2: { split; [|exact (proj2 Hc)]. cbn [with_time ds_hasts ds_ts ds_lastoff ref_after]. rewrite Hh. exact (roll_rel r off Hoff32). }
  intros l a s' H. unfold get_st. cbn [bind]. apply consumes_get. rewrite Hh, Hoffb, (model_roll _ _ r off Hts Hlo). cbn [negb].
  unfold put_st. cbn [bind]. apply consumes_put. revert H. unfold stamp_msg, stamped.
  destruct (get_field (dm_gmn dm) c_fieldNumTimeStamp); destruct msgv; exact (fun H => H).
Qed.

Lemma data_message_ok o s ss b (compressed : bool) l offo pay dev ss' :
  Rel o s ss ->
  local_of b compressed = l ->
  header_offset b compressed offo -> all_bytes pay = true ->
  denote_data ss l offo pay dev = Some ss' ->
  exists om s',
    consumes (parse_data_message o b compressed) (pay ++ dev) s om s' /\ Rel o s' ss' /\ frame s s' /\
    ss_msgs ss' = ss_msgs ss ++ match om with Some m => [m] | None => [] end.
Proof.
  intros HR Hloc Hoff Hbytes Hden.
  (* the slots, the File and the accumulators: a data record stores to none of them (DecodeFrame.v) *)
  enough (exists om s', consumes (parse_data_message o b compressed) (pay ++ dev) s om s' /\
            crel o s' (ss_ref ss') (ss_unkm ss') (ss_unkf ss') /\ ss_env ss' = ss_env ss /\
            ss_msgs ss' = ss_msgs ss ++ match om with Some m => [m] | None => [] end) as (om & s' & Hrun & Hc & He & Hm).
  { exists om, s'. destruct (frame_free s) as [Fk Fc].
    pose proof (consumes_keeps (frame s) _ _ _ _ _ Hrun (okp_data_message _ o b compressed Fk Fc) (frame_refl s)) as Hfr.
    split; [exact Hrun|]. split; [exact (Rel_upd o s ss s' ss' HR (proj1 Hfr) He Hc)|split; [exact Hfr|exact Hm]]. }
  rewrite denote_data_effect in Hden.
  destruct (lookup_def (ss_env ss) l) as [d|] eqn:El; [|discriminate].
  pose proof (rel_env16 _ _ _ HR l d El) as Hl16.
  pose proof (rel_defs _ _ _ HR l Hl16) as Hslot. rewrite El in Hslot.
  destruct (nth (N.to_nat l) (ds_defs s) None) as [dm|] eqn:Enth; [|contradiction]. cbn [slot_rel] in Hslot.
  destruct (negb (Nat.eqb (List.length pay) (payload_size d)) || negb (Nat.eqb (List.length dev) (sd_devsize d))) eqn:Elen;
    [discriminate|].
  apply orb_false_elim in Elen. destruct Elen as [Elp Eld].
  apply negb_false_iff, Nat.eqb_eq in Elp. apply negb_false_iff, Nat.eqb_eq in Eld.
  pose proof Hslot as (_ & Hgmn & _).
  rewrite <- Hloc in Enth.
  assert (Hown : forall a s', consumes (data_message_with o b compressed dm s) (pay ++ dev) s a s' ->
                              consumes (parse_data_message o b compressed) (pay ++ dev) s a s').
  { intros a s' H. unfold local_of in Enth. unfold parse_data_message, get_st. cbn [bind]. apply consumes_get. now rewrite Enth. }
  unfold data_effect in Hden. rewrite <- Hgmn in Hden. pose proof (rel_c _ _ _ HR) as Hc.
  destruct (known_msg (dm_gmn dm)) eqn:Ekn.
  - destruct (dmw_known o b compressed dm s Ekn) as (m0 & Emai & Hdk). rewrite Emai in Hden. rewrite Hdk in Hown.
    destruct (stamp_step o s _ _ _ b compressed offo dm (Some m0) Hc Hoff) as (s1 & Hstep & Hc1).
    rewrite Ekn in Hstep. cbn [option_map] in Hstep. rewrite Hgmn in *.
    pose proof Hslot as (Hbe & _ & _ & _ & Hcompat & Hcanon).
    destruct (fields_known o dm _ _ (ss_unkf ss) _ Hgmn Hbe (sd_fds d) pay (stamp_msg (sd_gmn d) offo (ss_ref ss) m0) _ [] s1
                Hcompat Hcanon Elp Hbytes Hc1) as (s' & Hrun & Hc2).
    apply (data_fields_consumes o dm d true _ pay dev s1 _ _ Hslot Eld) in Hrun.
    destruct (denote_fields (sd_be d) (sd_gmn d) (sd_fds d) pay _ _ []) as [[m2 ref2] unl]. cbn [fst snd] in *.
    injection Hden as <-. exists (Some m2), s'.
    split; [exact (Hown _ _ (Hstep _ _ _ Hrun))|]. split; [exact Hc2|split; reflexivity].
  - (* unknown message: counted, skipped; the compressed header still advances the reference *)
    pose proof (fun a s' => data_message_unknown o b compressed dm s (pay ++ dev) a s' Ekn) as Hunk.
    set (s0 := if o_unkm o then with_unkm s (bump1 (dm_gmn dm) (ds_unkm s)) else s) in *.
    assert (Hc0 : crel o s0 (ss_ref ss) (count1 (dm_gmn dm) (ss_unkm ss)) (ss_unkf ss)).
    { destruct Hc as (Ht & Hm & Hf).
      unfold crel, s0. rewrite <- bump1_count1. destruct (o_unkm o); repeat split; try assumption; try (intros [=]).
      cbn [with_unkm ds_unkm ss_unkm]. now rewrite (Hm eq_refl). }
    destruct (stamp_step o s0 _ _ _ b compressed offo dm None Hc0 Hoff) as (s1 & Hstep & Hc1).
    rewrite Ekn in Hstep. cbn [option_map] in Hstep. rewrite Hgmn in *.
    injection Hden as <-. exists None, s1. rewrite app_nil_r.
    split; [|split; [exact Hc1|split; reflexivity]].
    apply Hown, Hunk, Hstep.
    apply (data_fields_consumes o dm d false None pay dev s1 _ _ Hslot Eld).
    rewrite <- Hgmn in Ekn. exact (fields_unknown o dm Ekn _ pay s1 Elp).
Qed.
