(* C20 -- Every profile constant prints its profile name; string tables match the types. *)
From Coq Require Import NArith List String Bool.
From FitV Require Import Model.Stringer Spec.StringSpec Proofs.StringerProofs Proofs.StringerInstance
  Proofs.StringSpecProofs Proofs.StringerModelProofs Gen.TypesData.
Import ListNotations.
Local Open Scope N_scope.
Local Open Scope string_scope.

(* for every named constant of every generated FIT type, String returns the
   constant's name without the type prefix (any one of the names sharing the value) *)
Theorem C20_string_of_const : forall T, In T types -> forall n v, In (n, v) (t_consts T) ->
  exists s, type_string T v = Some s /\ In s (names_of (t_name T) (t_consts T) v).
Proof. exact string_of_const. Qed.
Print Assumptions C20_string_of_const.

Example C20_const_example :
  In ty_ActivityClass types /\ In ("ActivityClassLevelMax", 100) (t_consts ty_ActivityClass) /\
  type_string ty_ActivityClass 100 = Some "LevelMax" /\
  names_of "ActivityClass" (t_consts ty_ActivityClass) 100 = ["LevelMax"] /\
  In ty_GarminProduct types /\ type_string ty_GarminProduct 65534 = Some "Connect".
Proof.
  split; [apply (in_types_by_name "ActivityClass"); reflexivity|]. split; [vm_compute; tauto|].
  split; [vm_compute; reflexivity|]. split; [vm_compute; reflexivity|].
  split; [apply (in_types_by_name "GarminProduct"); reflexivity|vm_compute; reflexivity].
Qed.

(* every other value of the type's width -- all 2^8, 2^16 and 2^32 alike -- prints as Type(n) *)
Theorem C20_string_of_other : forall T, In T types -> forall v, v < 2 ^ t_bits T ->
  ~ is_const_value (t_consts T) v -> type_string T v = Some (other_text (t_name T) v).
Proof. exact string_of_other. Qed.
Print Assumptions C20_string_of_other.

(* the generic lemma behind it: ANY String method of the three shapes falls back
   outside the intervals / keys it tests, including the unsigned wrap of i -= lo *)
Theorem C20_string_of_outside : forall bits m v,
  shape_ok bits m = true -> v < 2 ^ bits -> in_domain v (domain m) = false ->
  string_of bits m v = Some (fallback m v).
Proof. exact string_of_outside. Qed.
Print Assumptions C20_string_of_outside.

Example C20_other_example :
  In ty_Weight types /\ t_bits ty_Weight = 16 /\ ~ is_const_value (t_consts ty_Weight) 5 /\
  type_string ty_Weight 5 = Some "Weight(5)" /\
  In ty_LocaltimeIntoDay types /\ t_bits ty_LocaltimeIntoDay = 32 /\
  type_string ty_LocaltimeIntoDay 4294967294 = Some "LocaltimeIntoDay(4294967294)" /\
  other_text "LocaltimeIntoDay" 4294967294 = "LocaltimeIntoDay(4294967294)".
Proof.
  split; [apply (in_types_by_name "Weight"); reflexivity|]. split; [reflexivity|].
  split; [vm_compute; intuition discriminate|]. split; [vm_compute; reflexivity|].
  split; [apply (in_types_by_name "LocaltimeIntoDay"); reflexivity|]. split; [reflexivity|].
  split; vm_compute; reflexivity.
Qed.

(* the intervals / keys tested by each String method are exactly the type's constant values *)
Theorem C20_runs_cover : forall T, In T types -> forall v,
  in_domain v (domain (t_rep T)) = true <-> is_const_value (t_consts T) v.
Proof. exact runs_cover. Qed.
Print Assumptions C20_runs_cover.

(* the checked-in string tables are what the modelled stringer algorithm
   (stable sort, de-duplication, runs, choice of shape) produces from the
   checked-in type definitions *)
Theorem C20_tables_are_stringer_output : forall T, In T types ->
  t_rep T = stringer_model (t_name T) (t_consts T).
Proof. exact tables_are_stringer_output. Qed.
Print Assumptions C20_tables_are_stringer_output.

Example C20_tables_example :
  stringer_model "Weight" [("WeightCalculating", 65534); ("WeightInvalid", 65535)] =
  mk_strmethod "Weight(" ")" (SOne (Some 65534) (Some 65534) "CalculatingInvalid" 8 [0; 11; 18]) /\
  t_rep ty_Weight = stringer_model "Weight" [("WeightCalculating", 65534); ("WeightInvalid", 65535)].
Proof. split; vm_compute; reflexivity. Qed.

(* the stringer is asked for exactly the declared types *)
Theorem C20_listed_are_declared : listed_types = map t_name types.
Proof. reflexivity. Qed.

(* no String method of a generated type panics *)
Theorem C20_string_of_total : forall T, In T types -> forall v, v < 2 ^ t_bits T -> type_string T v <> None.
Proof.
  intros T HT v Hv.
  destruct (in_dec N.eq_dec v (map snd (t_consts T))) as [Hin|Hnot].
  - apply in_map_iff in Hin as [[n v'] [E Hin]]. simpl in E. subst v'.
    destruct (string_of_const T HT n v Hin) as [s [E _]]. now rewrite E.
  - now rewrite (string_of_other T HT v Hv Hnot).
Qed.
Print Assumptions C20_string_of_total.

(* the model's strconv.FormatInt is the spec's decimal numeral *)
Theorem C20_format_int64_small : forall v, v < 2 ^ 63 -> format_int64 v = decimal v.
Proof. exact format_int64_small. Qed.

(* GENERIC over all constant sets (not only the checked-in ones): the String
   method built by the modelled stringer prints Type(n) for every value of the
   type's width that is not the value of a constant *)
Theorem C20_stringer_model_other : forall bits tname consts v,
  bits <= 63 -> (forall c, In c consts -> snd c < 2 ^ bits) -> v < 2 ^ bits -> ~ In v (map snd consts) ->
  string_of bits (stringer_model tname consts) v = Some (other_text tname v).
Proof. exact stringer_model_other. Qed.
Print Assumptions C20_stringer_model_other.

Example C20_stringer_model_other_example :
  let consts := [("TA", 1); ("TB", 2); ("TC", 2); ("TD", 7); ("TZ", 255)] in
  (forall c, In c consts -> snd c < 2 ^ 8) /\ ~ In 3 (map snd consts) /\
  string_of 8 (stringer_model "T" consts) 3 = Some "T(3)" /\
  string_of 8 (stringer_model "T" consts) 2 = Some "B".
Proof.
  cbv zeta. split; [|split; [|split]].
  - intros c H. simpl in H. repeat (destruct H as [<-|H]; [reflexivity|]). contradiction.
  - simpl. intuition discriminate.
  - vm_compute. reflexivity.
  - vm_compute. reflexivity.
Qed.

(* the spec means what it says: names_of collects the prefix-less names of the
   constants with value v; decimal is the canonical numeral of its argument *)
Theorem C20_names_of_spec : forall T consts v s,
  In s (names_of T consts v) <-> exists n, In (n, v) consts /\ s = short_name T n.
Proof. exact names_of_spec. Qed.

Theorem C20_short_name_prefixed : forall T r, short_name T (T ++ r) = r.
Proof. intros T r. unfold short_name. now rewrite (proj2 (strip_spec T (T ++ r) r) eq_refl). Qed.

Theorem C20_decimal_value : forall n, numeral_value (decimal n) = Some n.
Proof.
  intros n. unfold decimal.
  destruct (decimal_fuel_value _ n (lt_pow10_size n)) as [k Hk].
  unfold numeral_value.
  pose proof (decimal_fuel_nonempty (N.size_nat n) n) as Hne.
  remember (decimal_fuel (S (N.size_nat n)) n) as s eqn:E. clear E.
  destruct s as [|c s]; [congruence|].
  rewrite Hk, N.mul_0_l, N.add_0_l. reflexivity.
Qed.
Print Assumptions C20_decimal_value.

Theorem C20_decimal_canonical : forall n, no_leading_zero (decimal n) = true.
Proof.
  intros n. unfold decimal. simpl decimal_fuel.
  destruct (N.ltb_spec n 10) as [Hlt|Hge]; [reflexivity|].
  pose proof (lt_pow10_size n) as Hn. rewrite pow10_succ in Hn. destruct (div10_bounds _ _ Hge Hn) as [Hq0 Hq].
  destruct (decimal_fuel_head _ _ Hq0 Hq) as [c [r [E Hc]]]. rewrite E. simpl.
  destruct r; simpl; apply negb_true_iff, Ascii.eqb_neq; assumption.
Qed.
