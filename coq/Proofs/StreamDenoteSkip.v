(* Corollaries of the reference semantics (Spec/FitSyntax.v) that the properties
   C02 -- unknown content is skipped -- and C12 -- compressed timestamps -- need.
   Everything here is about [denote_from] / [denote_data] / [denote_fields] only;
   the decoder model is related to them by the stream theorem. *)
From Coq Require Import NArith ZArith List Bool Lia Arith.
From Coq Require Import ZifyN ZifyNat ZifyBool.
From FitV Require Import Model.Values Model.Bytes Model.Base Model.Profile Spec.FitSyntax Gen.Consts
  Proofs.Util Proofs.DecodeLemmas Proofs.StreamDenoteDefs Proofs.StreamDenoteData.
Import ListNotations.
Local Open Scope N_scope.
Ltac Zify.zify_post_hook ::= Z.div_mod_to_equations.

Lemma set_at_length {A} (x : A) : forall l i, List.length (set_at i x l) = List.length l.
Proof. intros l i. apply Util.set_nth_length. Qed.

Definition same_core (a b : sstate) : Prop :=
  ss_env a = ss_env b /\ ss_ref a = ss_ref b /\ ss_msgs a = ss_msgs b /\ ss_unkf a = ss_unkf b.

Lemma same_core_refl a : same_core a a.
Proof. unfold same_core. auto. Qed.

Lemma same_core_sym a b : same_core a b -> same_core b a.
Proof. unfold same_core. intros (H1 & H2 & H3 & H4). auto. Qed.

Lemma same_core_unkm s u : same_core s (mk_sstate (ss_env s) (ss_ref s) (ss_msgs s) u (ss_unkf s)).
Proof. unfold same_core. auto. Qed.

Lemma same_core_trans a b c : same_core a b -> same_core b c -> same_core a c.
Proof.
  unfold same_core. intros (H1 & H2 & H3 & H4) (K1 & K2 & K3 & K4).
  repeat split; etransitivity; eassumption.
Qed.

(* a data record of an unknown message only bumps its counter and, compressed, advances the reference by the rule *)
Theorem unknown_data_skipped : forall s l off pay dev d,
  lookup_def (ss_env s) l = Some d -> known_msg (sd_gmn d) = false ->
  denote_data s l off pay dev =
  if negb (Nat.eqb (List.length pay) (payload_size d)) || negb (Nat.eqb (List.length dev) (sd_devsize d)) then None
  else Some (mk_sstate (ss_env s) (ref_after off (ss_ref s)) (ss_msgs s) (count1 (sd_gmn d) (ss_unkm s)) (ss_unkf s)).
Proof.
  intros s l off pay dev d Hl Hk. rewrite denote_data_effect, Hl. unfold data_effect. rewrite Hk, app_nil_r. reflexivity.
Qed.

(* the unknown-message counters never influence anything else *)
Lemma denote_record_same_core : forall r a b a',
  same_core a b -> denote_record a r = Some a' ->
  exists b', denote_record b r = Some b' /\ same_core a' b'.
Proof.
  intros r a b a' (He & Hr & Hm & Hf) Ha.
  destruct (denote_record_frame a b r a' (fun l _ => f_equal (fun e => lookup_def e l) He) Hr Ha)
    as (b' & Eb & Ea' & Eb' & R & (ms & Ma & Mb) & _ & F).
  exists b'. split; [exact Eb|]. unfold same_core. rewrite Ea', Eb', He, Ma, Mb, Hm. auto.
Qed.

Lemma denote_from_sim (R : sstate -> sstate -> Prop) (P : record -> bool) :
  (forall r a b a', R a b -> P r = true -> denote_record a r = Some a' ->
     exists b', denote_record b r = Some b' /\ R a' b') ->
  forall rs a b a', R a b -> forallb P rs = true -> denote_from a rs = Some a' ->
    exists b', denote_from b rs = Some b' /\ R a' b'.
Proof.
  intros Hstep. induction rs as [|r rs IH]; intros a b a' Hab Hall Ha; cbn [denote_from forallb] in *.
  - injection Ha as <-. exists b. split; [reflexivity|exact Hab].
  - apply andb_prop in Hall. destruct Hall as [Hr Hall].
    destruct (denote_record a r) as [a1|] eqn:Ea; [|discriminate].
    destruct (Hstep r a b a1 Hab Hr Ea) as (b1 & Eb & Hab1). rewrite Eb. eapply IH; eassumption.
Qed.

Lemma denote_from_keeps {X} (f : sstate -> X) (P : record -> bool) :
  (forall r s s', P r = true -> denote_record s r = Some s' -> f s' = f s) ->
  forall rs sa sb, denote_from sa rs = Some sb -> forallb P rs = true -> f sb = f sa.
Proof.
  intros Hstep rs sa sb H Hall.
  exact (denote_from_inv (fun s => f s = f sa) P (fun r s s' Hr E Hs => eq_trans (Hstep r s s' Hr E) Hs) rs sa sb Hall H eq_refl).
Qed.

Theorem denote_from_same_core : forall rs a b a',
  same_core a b -> denote_from a rs = Some a' ->
  exists b', denote_from b rs = Some b' /\ same_core a' b'.
Proof.
  intros rs a b a' Hab. apply (denote_from_sim same_core (fun _ => true)); [|exact Hab|now apply forallb_forall].
  intros r x y x' H _. now apply denote_record_same_core.
Qed.

(* a data record of an unknown message can be deleted from the stream *)
Theorem unknown_record_deletable : forall rs1 l pay dev rs2 s sm d s1,
  denote_from s rs1 = Some sm -> lookup_def (ss_env sm) l = Some d -> known_msg (sd_gmn d) = false ->
  denote_from s (rs1 ++ RData l pay dev :: rs2) = Some s1 ->
  exists s2, denote_from s (rs1 ++ rs2) = Some s2 /\ same_core s1 s2.
Proof.
  intros rs1 l pay dev rs2 s sm d s1 Hsm Hl Hk H1.
  rewrite denote_from_app, Hsm in *. cbn [denote_from denote_record] in H1.
  rewrite (unknown_data_skipped sm l None pay dev d Hl Hk) in H1.
  destruct (negb _ || negb _); [discriminate|].
  exact (denote_from_same_core rs2 _ sm s1 (same_core_sym _ _ (same_core_unkm sm _)) H1).
Qed.

(* the surviving stream is well-formed exactly when the original one is, too: the converse direction *)
Theorem unknown_record_insertable : forall rs1 l pay dev rs2 s sm d s2,
  denote_from s rs1 = Some sm -> lookup_def (ss_env sm) l = Some d -> known_msg (sd_gmn d) = false ->
  List.length pay = payload_size d -> List.length dev = sd_devsize d ->
  denote_from s (rs1 ++ rs2) = Some s2 ->
  exists s1, denote_from s (rs1 ++ RData l pay dev :: rs2) = Some s1 /\ same_core s1 s2.
Proof.
  intros rs1 l pay dev rs2 s sm d s2 Hsm Hl Hk Hp Hd H2.
  rewrite denote_from_app, Hsm in *. cbn [denote_from denote_record].
  rewrite (unknown_data_skipped sm l None pay dev d Hl Hk), Hp, Hd, !Nat.eqb_refl. cbn [negb orb].
  destruct (denote_from_same_core rs2 sm _ s2 (same_core_unkm sm (count1 (sd_gmn d) (ss_unkm sm))) H2) as (s1 & E1 & Hc).
  exists s1. split; [exact E1|]. apply same_core_sym. exact Hc.
Qed.

Lemma denote_fields_unl_irrelevant : forall be gmn fds pay m ref unl unl',
  fst (denote_fields be gmn fds pay m ref unl) = fst (denote_fields be gmn fds pay m ref unl').
Proof.
  intros be gmn. induction fds as [|f r IH]; intros pay m ref unl unl'; cbn [denote_fields]; [reflexivity|].
  destruct (get_field gmn (sf_num f)) as [p|]; apply IH.
Qed.

Lemma denote_fields_app be gmn f2 p2 : forall f1 p1 m ref unl, List.length p1 = psize f1 ->
  denote_fields be gmn (f1 ++ f2) (p1 ++ p2) m ref unl =
  let '(m1, ref1, unl1) := denote_fields be gmn f1 p1 m ref unl in denote_fields be gmn f2 p2 m1 ref1 unl1.
Proof.
  induction f1 as [|a f1 IH]; intros p1 m ref unl Hp1.
  - destruct p1; [reflexivity|discriminate].
  - cbn [psize fold_right] in Hp1. fold (psize f1) in Hp1. set (sz := N.to_nat (sf_size a)) in *.
    assert (Hpa : List.length (firstn sz p1) = sz) by (rewrite firstn_length; lia).
    rewrite <- (firstn_skipn sz p1), <- app_assoc. cbn [app]. rewrite !denote_fields_cons. fold sz.
    rewrite !(firstn_app_len _ _ sz Hpa), !(skipn_app_len _ _ sz Hpa).
    destruct (dstep be gmn a (firstn sz p1) m ref unl) as [[m1 ref1] unl1].
    apply IH. rewrite skipn_length. lia.
Qed.

Lemma denote_fields_ref_no_ts : forall be gmn fds pay m ref unl m' ref' unl',
  (forall f, In f fds -> sf_num f <> c_fieldNumTimeStamp) ->
  denote_fields be gmn fds pay m ref unl = (m', ref', unl') -> ref' = ref.
Proof.
  intros be gmn. induction fds as [|f r IH]; intros pay m ref unl m' ref' unl' Hno; cbn [denote_fields].
  - intros E. injection E as _ <- _. reflexivity.
  - assert (Hf : (sf_num f =? c_fieldNumTimeStamp) = false) by (apply N.eqb_neq, Hno; left; reflexivity).
    assert (Hr : forall g, In g r -> sf_num g <> c_fieldNumTimeStamp) by (intros g Hg; apply Hno; right; exact Hg).
    destruct (get_field gmn (sf_num f)) as [p|]; [|apply IH; exact Hr].
    rewrite Hf. cbn [andb]. apply IH; exact Hr.
Qed.

Lemma denote_fields_keeps_index : forall be gmn i fds pay m ref unl m' ref' unl',
  (forall f q, In f fds -> get_field gmn (sf_num f) = Some q -> pf_sindex q <> i) ->
  denote_fields be gmn fds pay m ref unl = (m', ref', unl') ->
  nth_error (m_fields m') i = nth_error (m_fields m) i.
Proof.
  intros be gmn i. induction fds as [|f r IH]; intros pay m ref unl m' ref' unl' Hno; cbn [denote_fields].
  - intros E. injection E as <- _ _. reflexivity.
  - assert (Hr : forall g q, In g r -> get_field gmn (sf_num g) = Some q -> pf_sindex q <> i)
      by (intros g q Hg; apply Hno; right; exact Hg).
    destruct (get_field gmn (sf_num f)) as [p|] eqn:Eg; [|apply IH; exact Hr].
    intros E. rewrite (IH _ _ _ _ _ _ _ Hr E).
    destruct (denote_field _ _ _ _ _ _) as [x|]; [|reflexivity].
    cbn [m_fields]. apply Util.nth_error_set_nth_other.
    intros E'. apply (Hno f p (or_introl eq_refl) Eg). symmetry. exact E'.
Qed.

(* with no explicit timestamp in the record, the reference after a compressed record is the rule *)
Theorem compressed_ref_rule : forall s l off pay dev s' d r,
  lookup_def (ss_env s) l = Some d -> ss_ref s = Some r ->
  (forall f, In f (sd_fds d) -> sf_num f <> c_fieldNumTimeStamp) ->
  denote_data s l (Some off) pay dev = Some s' ->
  ss_ref s' = Some (roll r off).
Proof.
  intros s l off pay dev s' d r Hl Hr Hno. rewrite denote_data_effect, Hl, Hr. unfold data_effect.
  destruct (negb _ || negb _); [discriminate|].
  destruct (known_msg (sd_gmn d)).
  - destruct (mesg_all_invalid (sd_gmn d)) as [m0|]; [|discriminate].
    destruct (denote_fields _ _ _ _ _ _ _) as [[m2 ref2] unl] eqn:E.
    intros Hd. injection Hd as <-. exact (denote_fields_ref_no_ts _ _ _ _ _ _ _ _ _ _ Hno E).
  - intros Hd. injection Hd as <-. reflexivity.
Qed.

(* and the message carries that instant in its timestamp field *)
Theorem compressed_stamp : forall s l off pay dev s' d r p m0,
  lookup_def (ss_env s) l = Some d -> ss_ref s = Some r ->
  known_msg (sd_gmn d) = true -> get_field (sd_gmn d) c_fieldNumTimeStamp = Some p ->
  (forall f q, In f (sd_fds d) -> get_field (sd_gmn d) (sf_num f) = Some q -> pf_sindex q <> pf_sindex p) ->
  mesg_all_invalid (sd_gmn d) = Some m0 -> (pf_sindex p < List.length (m_fields m0))%nat ->
  denote_data s l (Some off) pay dev = Some s' ->
  exists m, ss_msgs s' = ss_msgs s ++ [m] /\
            nth_error (m_fields m) (pf_sindex p) = Some (time_of (roll r off)).
Proof.
  intros s l off pay dev s' d r p m0 Hl Hr Hk Hp Hno Hm0 Hlt.
  rewrite denote_data_effect, Hl, Hr. unfold data_effect, stamp_msg. rewrite Hk, Hm0, Hp.
  destruct (negb _ || negb _); [discriminate|].
  destruct (denote_fields _ _ _ _ _ _ _) as [[m2 ref2] unl] eqn:E.
  intros Hd. injection Hd as <-. exists m2. split; [reflexivity|].
  rewrite (denote_fields_keeps_index _ _ _ _ _ _ _ _ _ _ _ Hno E). apply Util.nth_error_set_nth_same. exact Hlt.
Qed.

(* DecodeLemmas.rollover_rule read for [roll]: below the wrap the reduction mod 2^32 does nothing *)
Theorem roll_rule : forall r off, off < 32 -> r + 32 < 2 ^ 32 ->
  roll r off mod 32 = off /\ r <= roll r off < r + 32.
Proof.
  intros r off Ho Hr. unfold roll.
  pose proof (rollover_rule r off Ho) as H. cbv zeta in H.
  rewrite (N.mod_small (r + _)) by lia. exact H.
Qed.

(* before any timestamp, compressed records are decoded as plain ones *)
Theorem no_reference_unstamped : forall s l off pay dev,
  ss_ref s = None -> denote_data s l (Some off) pay dev = denote_data s l None pay dev.
Proof. intros s l off pay dev Hr. unfold denote_data. rewrite Hr. reflexivity. Qed.

Print Assumptions unknown_record_deletable.
Print Assumptions compressed_ref_rule.
Print Assumptions compressed_stamp.
