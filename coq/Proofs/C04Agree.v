(* C04: CRC verdicts agree across entry points.  An IntegrityError returned by Decode is the verdict the
   bytes determine, i.e. the one CheckIntegrity returns on the same bytes: it can only come from the header
   stage or from checkCRC after the records were read to the end (record parsing never fails with an
   IntegrityError: Proofs/C04Leaves.v, through decode_full_spec of Proofs/C04Verdict.v). *)
From Coq Require Import NArith List.
From FitV Require Import Model.IO Model.Decode Proofs.C04IO Proofs.C04Corrupt.

(* in terms of the entry points: Decode's IntegrityError is CheckIntegrity's, under any two schedules *)
Theorem integrity_verdicts_agree : forall o g fuel rd r e, (measure rd < fuel)%nat ->
  decode o MFull g rd fuel = TDone r -> dr_err r = Some e -> is_integrity e = true ->
  forall o2 g2 fuel2 rd2, rd_data rd2 = rd_data rd -> (measure rd2 < fuel2)%nat ->
  exists r2, decode o2 MCrcOnly g2 rd2 fuel2 = TDone r2 /\ dr_err r2 = Some e.
Proof.
  intros o g fuel rd r e _ Hd He Hi o2 g2 fuel2 rd2 Hdata Hm2.
  destruct (decode_agrees_check o g fuel rd r Hd ltac:(congruence) o2 g2 fuel2 rd2 Hdata Hm2) as (r2 & E2 & Hv2 & _).
  exists r2. split; [exact E2|congruence].
Qed.
