(* C10 / C11 for the whole entry points of Model/Decode.v.

   [decode_a] is the decoder over a plain byte list (no reader, no chunk
   schedule, no fuel): a proof device, not part of the trusted model.
   [decode_abs_free] shows that [decode] over any reader oracle and for any fuel
   gives up for want of fuel (never under [wf rd fuel]: [decode_abs]) or
   computes [decode_a] of the reader's data and terminal condition, and that the
   reader only advances, by exactly [ar_used] bytes on every path where the
   position is determined.  Everything else (exact consumption, never past the
   frame, schedule independence, independence of chained files, truncation and
   faults; in other files totality and the well-formedness of decoded Files) is
   derived from it and from the prefix lemmas of C10IO.v.  DecodeChained is
   followed on the readers themselves ([chain_then], [decode_chained_sched]),
   one [decode] at a time. *)
From Coq Require Import NArith ZArith List Bool Arith Lia.
From FitV Require Import Model.Values Model.Bytes Model.Crc Model.IO Model.Header Model.Route Model.Components
  Model.Decode Gen.Consts Spec.Integrity Proofs.Util Proofs.IOSim Proofs.C10IO Proofs.DecodeBuffered.
Import ListNotations.

Lemma firstn_firstn_min {A} (l : list A) a b : firstn a (firstn b l) = firstn (Nat.min a b) l.
Proof. apply firstn_firstn. Qed.

Definition adv_some (rd rd' : reader) : Prop := exists k, adv rd rd' k.

Lemma adv_some_pos rd rd' : adv_some rd rd' -> rd_pos rd' <= rd_pos rd + length (rd_data rd).
Proof. intros [k [_ _ _ Hp _]]. lia. Qed.

Lemma adv_some_wf rd rd' fuel : adv_some rd rd' -> wf rd fuel -> wf rd' fuel.
Proof. intros [k H]. eapply adv_wf; eassumption. Qed.

Local Open Scope N_scope.

(* the part of decodeHeader after the two reads: sz is the size byte, t the sz - 1 bytes after it *)
Definition hdr_pure (sz : N) (t : list N) : option err * header * N :=
  let h0 := mk_header sz 0 0 0 [0; 0; 0; 0] 0 in
  if negb (proto_ok (b_at t 0)) then (Some EProto, h0, 0) else
  let h1 := mk_header sz (b_at t 0) (le16 (firstn 2 (skipn 1 t))) (le32 (firstn 4 (skipn 3 t))) [0; 0; 0; 0] 0 in
  let dt := firstn 4 (skipn 7 t) in
  if negb (list_eqb dt fit_dtype) then (Some ENotFit, h1, 0) else
  let h2 := mk_header sz (h_proto h1) (h_profile h1) (h_dsize h1) dt 0 in
  let crc := crc_write (crc_write crc_new [sz]) t in
  if sz =? c_headerSizeNoCRC then (None, h2, crc) else
  let hc := le16 (firstn 2 (skipn 11 t)) in
  let h3 := mk_header sz (h_proto h1) (h_profile h1) (h_dsize h1) dt hc in
  if hc =? 0 then (None, h3, crc)
  else if negb (crc_sum16 crc =? 0) then (Some EHdrCRC, h3, crc)
  else (None, h3, crc).

(* decodeHeader over a byte list: error, header as far as filled in, checksum register, bytes consumed *)
Definition hdr_a (data : list N) (t : term) : option err * header * N * nat :=
  match data with
  | [] => (Some (match t with TEOF => EReadSizeEOF | TFault => EReadSize end), zero_header, 0, O)
  | sz :: rest =>
      let h0 := mk_header sz 0 0 0 [0; 0; 0; 0] 0 in
      if negb ((sz =? c_headerSizeCRC) || (sz =? c_headerSizeNoCRC)) then (Some EHeaderSize, h0, 0, 1%nat) else
      let n := (N.to_nat sz - 1)%nat in
      if Nat.leb n (length rest) then (hdr_pure sz (firstn n rest), (1 + n)%nat)
      else (Some EReadData, h0, 0, (1 + length rest)%nat)
  end.

Lemma hdr_pure_size sz t e h crc : hdr_pure sz t = (e, h, crc) -> h_size h = sz.
Proof.
  unfold hdr_pure.
  repeat match goal with |- context [if ?c then _ else _] => destruct c end; intros H; inversion H; reflexivity.
Qed.

Lemma sz_ok_nat sz : (sz =? c_headerSizeCRC) || (sz =? c_headerSizeNoCRC) = true -> (1 <= N.to_nat sz)%nat.
Proof.
  intros H. apply orb_true_iff in H. destruct H as [H|H]; apply N.eqb_eq in H; subst; cbv; lia.
Qed.

Lemma hdr_a_used data t e h crc used : hdr_a data t = (e, h, crc, used) ->
  (used <= length data)%nat /\ (used <= Nat.max 1 (N.to_nat (h_size h)))%nat /\
  (e = None -> used = N.to_nat (h_size h) /\ (1 <= used)%nat).
Proof.
  unfold hdr_a. destruct data as [|sz rest].
  - intros H; inversion H; subst. cbn. repeat split; try lia; discriminate.
  - destruct (negb ((sz =? c_headerSizeCRC) || (sz =? c_headerSizeNoCRC))) eqn:Esz.
    + intros H; inversion H; subst. cbn [length h_size]. repeat split; try lia; discriminate.
    + apply negb_false_iff in Esz. pose proof (sz_ok_nat sz Esz) as Hsz.
      destruct (Nat.leb_spec (N.to_nat sz - 1) (length rest)) as [L|L].
      * destruct (hdr_pure sz (firstn (N.to_nat sz - 1) rest)) as [[e' h'] crc'] eqn:Ep.
        intros H; inversion H; subst. rewrite (hdr_pure_size _ _ _ _ _ Ep). cbn [length]. repeat split; lia.
      * intros H; inversion H; subst. cbn [length h_size]. repeat split; try lia; discriminate.
Qed.

(* decodeHeader reads the size byte x, then the rest of the header, and takes the fields from the rest:
   a field of a long enough prefix of l is the field one byte further on in x :: l *)
Lemma tail_field {A} (j k m : nat) (x : A) l : (j + k <= m)%nat ->
  firstn k (skipn j (firstn m l)) = firstn k (skipn (S j) (x :: l)).
Proof. intros H. cbn [skipn]. rewrite skipn_firstn_comm, firstn_firstn, Nat.min_l by lia. reflexivity. Qed.

Lemma tail_b_at (i m : nat) x l : (i < m)%nat -> b_at (firstn m l) i = b_at (x :: l) (S i).
Proof.
  unfold b_at. cbn [nth]. revert i l. induction m as [|m IH]; intros i l H; [lia|].
  destruct l as [|y l], i as [|i]; try reflexivity. cbn [firstn nth]. apply IH. lia.
Qed.

(* the stage stops with the error the bytes determine; nothing is claimed of the Header then *)
Local Ltac stop := eexists _, _, _; split; [reflexivity|discriminate].
(* ... or accepts (the size byte is known by then), and the Header is the parsed one *)
Local Ltac accept := eexists _, _, _; split; [reflexivity|intros _; split; [reflexivity|split; reflexivity]].

Lemma hdr_a_stage bs tm : exists h crc used, hdr_a bs tm = (header_stage_with checksum bs tm, h, crc, used) /\
  (header_stage_with checksum bs tm = None ->
     h = parse_header bs /\ crc = checksum (firstn (hdr_size bs) bs) /\ used = hdr_size bs).
Proof.
  destruct bs as [|sz tail]; [destruct tm; stop|]. unfold hdr_a, header_stage_with.
  destruct ((sz =? c_headerSizeCRC) || (sz =? c_headerSizeNoCRC)) eqn:Esz; cbn [negb]; [|stop].
  assert (Hsz : sz = 14 \/ sz = 12) by (apply orb_true_iff in Esz; now rewrite !N.eqb_eq in Esz).
  set (bs := sz :: tail). set (m := (N.to_nat sz - 1)%nat).
  destruct (Nat.leb_spec m (length tail)) as [L|L].
  2:{ replace (Nat.ltb (length bs) (N.to_nat sz)) with true by (symmetry; apply Nat.ltb_lt; unfold bs; cbn [length]; lia).
      stop. }
  replace (Nat.ltb (length bs) (N.to_nat sz)) with false by (symmetry; apply Nat.ltb_ge; unfold bs; cbn [length]; lia).
  unfold hdr_pure.
  rewrite (tail_b_at 0 m sz), (tail_field 1 2 m sz), (tail_field 3 4 m sz), (tail_field 7 4 m sz) by lia.
  fold bs.
  destruct (proto_ok (b_at bs 1)); cbn [negb]; [|stop].
  destruct (list_eqb (firstn 4 (skipn 8 bs)) fit_dtype); cbn [negb]; [|stop].
  cbn [h_proto h_profile h_dsize]. unfold parse_header, crc_sum16. change (b_at bs 0) with sz.
  destruct Hsz as [-> | ->]; cbn [N.eqb Pos.eqb c_headerSizeCRC c_headerSizeNoCRC]; [|accept].
  rewrite (tail_field 11 2 m 14) by lia. fold bs. fold (stored_hdr_crc bs).
  change (crc_write (crc_write crc_new [14]) (firstn m tail)) with (checksum (firstn 14 bs)).
  destruct (stored_hdr_crc bs =? 0); [accept|].
  destruct (checksum (firstn 14 bs) =? 0); cbn [negb]; [accept|stop].
Qed.

Local Close Scope N_scope.

Lemma decode_header_spec fuel rd :
  match decode_header fuel rd with
  | OutOfFuel => ~ wf rd fuel
  | Done (e, h, crc, rd1) =>
      (e, h, crc) = fst (hdr_a (rd_data rd) (rd_term rd)) /\ adv rd rd1 (snd (hdr_a (rd_data rd) (rd_term rd)))
  end.
Proof.
  unfold decode_header. pose proof (io_read_full_spec fuel rd 1) as H1.
  destruct (io_read_full fuel rd 1 []) as [[[bs e] rd1]|]; [|exact H1]. destruct H1 as (-> & -> & A1).
  unfold hdr_a. destruct (rd_data rd) as [|sz rest] eqn:Ed.
  - change (firstn 1 (@nil N)) with (@nil N). unfold rf_err. cbn [length Nat.leb].
    assert (A0 : adv rd rd1 0) by (apply (adv_min _ _ _ _ A1); rewrite Ed; reflexivity).
    destruct (rd_term rd); cbn [fst snd]; (split; [reflexivity|exact A0]).
  - change (firstn 1 (sz :: rest)) with [sz]. change (rf_err 1 (sz :: rest) (rd_term rd)) with (@None rerr). cbn [hd].
    destruct (negb ((sz =? c_headerSizeCRC)%N || (sz =? c_headerSizeNoCRC)%N)) eqn:Esz; [split; [reflexivity|exact A1]|].
    apply negb_false_iff in Esz. pose proof (sz_ok_nat sz Esz) as Hsz.
    pose proof (io_read_full_spec fuel rd1 (N.to_nat sz - 1)) as H2.
    destruct (io_read_full fuel rd1 (N.to_nat sz - 1) []) as [[[t e2] rd2]|]; [|intros W; exact (H2 (adv_wf _ _ _ _ A1 W))].
    destruct H2 as (-> & -> & A2).
    assert (Hd1 : rd_data rd1 = rest) by (rewrite (adv_data _ _ _ A1), Ed; reflexivity).
    rewrite Hd1, (adv_term _ _ _ A1). unfold rf_err. pose proof (adv_trans _ _ _ _ _ A1 A2) as A12.
    destruct (Nat.leb_spec (N.to_nat sz - 1) (length rest)) as [L|L].
    + unfold hdr_pure. cbn [fst snd].
      repeat match goal with |- context [if ?c then _ else _] => destruct c end; (split; [reflexivity|exact A12]).
    + split; [reflexivity|]. cbn [snd]. replace (1 + length rest) with (length (rd_data rd)) by (rewrite Ed; reflexivity).
      apply (adv_min _ _ _ _ A12). rewrite Ed. cbn [length]. lia.
Qed.

Definition crc_a (rest : list N) (t : term) (crc : N) (f : file) : option err * file * nat :=
  match rf_err 2 rest t with
  | Some _ => (Some EFileCRCRead, f, length rest)
  | None =>
      let bs := firstn 2 rest in
      let f' := set_crc f (le16 bs) in
      (if negb (crc_sum16 (crc_write crc bs) =? 0)%N then Some EFileCRC else None, f', 2)
  end.

Lemma check_crc_spec fuel rd crc f :
  match check_crc fuel rd crc f with
  | OutOfFuel => ~ wf rd fuel
  | Done (e, f', rd') => (e, f') = fst (crc_a (rd_data rd) (rd_term rd) crc f) /\
                         adv rd rd' (snd (crc_a (rd_data rd) (rd_term rd) crc f)) /\
                         snd (crc_a (rd_data rd) (rd_term rd) crc f) <= length (rd_data rd)
  end.
Proof.
  unfold check_crc, crc_a. pose proof (io_read_full_spec fuel rd 2) as H.
  destruct (io_read_full fuel rd 2 []) as [[[bs e] rd']|]; [|exact H]. destruct H as (-> & -> & A).
  unfold rf_err. destruct (Nat.leb_spec 2 (length (rd_data rd))) as [L|L]; cbn [fst snd].
  - destruct (negb _); (split; [reflexivity|split; [exact A|exact L]]).
  - split; [reflexivity|]. split; [|lia]. apply (adv_min _ _ _ _ A). lia.
Qed.

Lemma crc_a_ok rest t crc f : snd (crc_a rest t crc f) <= 2 /\
  (fst (fst (crc_a rest t crc f)) = None -> snd (crc_a rest t crc f) = 2 /\ 2 <= length rest).
Proof.
  unfold crc_a, rf_err. destruct (Nat.leb_spec 2 (length rest)); cbn [fst snd]; (split; [lia|]); [intros _; split; [reflexivity|assumption]|discriminate].
Qed.

Lemma crc_a_short c t crc f : length c < 2 -> crc_a c t crc f = (Some EFileCRCRead, f, length c).
Proof. intros H. unfold crc_a, rf_err. destruct (Nat.leb_spec 2 (length c)); [lia|reflexivity]. Qed.

Lemma crc_a_ext rest t crc f : fst (fst (crc_a rest t crc f)) = None ->
  forall rest' t', firstn 2 rest' = firstn 2 rest -> 2 <= length rest' -> crc_a rest' t' crc f = crc_a rest t crc f.
Proof.
  unfold crc_a, rf_err. destruct (Nat.leb_spec 2 (length rest)) as [L|L]; [|discriminate].
  intros _ rest' t' Hf Hl. destruct (Nat.leb_spec 2 (length rest')); [|lia]. rewrite Hf. reflexivity.
Qed.

Record ares := mk_ares {
  ar_err : option err; ar_hdr : header; ar_file : option file;
  ar_used : nat;        (* bytes taken from the input (an upper bound when ar_exact is false) *)
  ar_g : gstate; ar_quirks : list N;
  ar_exact : bool       (* false: the buffered phase stopped with read-ahead in the buffer *)
}.

(* the checksum stage that ends [buffered_a] in full mode and [body_a] in checksum-only mode, on top of a run that
   took u bytes so far; fin is what the mode makes of the File *)
Definition crc_tail (h : header) (fin : file -> file) (u : nat) (g : gstate) (q : list N) (crc : N) (f : file)
    (rest : list N) (t : term) : tout ares :=
  let c := crc_a rest t crc f in
  TDone (mk_ares (fst (fst c)) h (Some (fin (snd (fst c)))) (u + snd c) g q true).

(* the buffered phase over a byte list: what [decode_buffered] computes, by [decode_buffered_free] *)
Definition buffered_a (o : dopts) (fid : bool) (g : gstate) (h : header) (crc : N) (used : nat) (rest : list N) (t : term)
  : tout ares :=
  let limit := N.to_nat (h_dsize h) in
  match run_a (data_prog o fid (S limit)) (mk_ast rest t 0 limit) (init_dstate (new_file h) g) with
  | ROutOfFuel => TOutOfFuel
  | RPanic w => TPanic w
  | RFail e x s =>
      TDone (mk_ares (Some e) h (Some (finalize_unknown o s)) (used + limit) (ds_g s) (ds_quirks s) false)
  | RIOErr e x s =>
      TDone (mk_ares (Some (EIO e)) h (Some (finalize_unknown o s)) (used + Nat.min limit (length rest)) (ds_g s) (ds_quirks s) true)
  | ROk _ x s =>
      if fid then TDone (mk_ares None h (Some (finalize_unknown o s)) (used + limit) (ds_g s) (ds_quirks s) false) else
      if negb (Nat.eqb (a_n x) (a_limit x)) then TPanic 7 else
      crc_tail h (fun f' => finalize_unknown o (with_file s f' (ds_g s))) (used + limit) (ds_g s) (ds_quirks s)
               (crc_write crc (firstn limit rest)) (ds_file s) (a_rest x) t
  end.

(* what follows a good header (h, checksum register crc, [used] bytes long) on the rest of the input *)
Definition body_a (o : dopts) (md : mode) (g : gstate) (h : header) (crc : N) (used : nat) (rest : list N) (t : term)
  : tout ares :=
  let f0 := new_file h in
  let limit := N.to_nat (h_dsize h) in
  match md with
  | MFull => buffered_a o false g h crc used rest t
  | MFileIdOnly => buffered_a o true g h crc used rest t
  | MHeaderOnly => TDone (mk_ares None h (Some f0) used g [] true)
  | MCrcOnly =>
      match cp_err limit rest t with
      | Some _ => TDone (mk_ares (Some EParseData) h (Some f0) (used + length rest) g [] true)
      | None => crc_tail h (fun f => f) (used + limit) g [] (crc_write crc (firstn limit rest)) f0 (skipn limit rest) t
      end
  end.

Definition decode_a (o : dopts) (md : mode) (g : gstate) (data : list N) (t : term) : tout ares :=
  match hdr_a data t with
  | (Some e, h, _, used) => TDone (mk_ares (Some e) h None used g [] true)
  | (None, h, crc, used) => body_a o md g h crc used (skipn used data) t
  end.

(* r, returned by decode on the reader rd, against a, returned by decode_a on the bytes of rd *)
Record matches (rd : reader) (r : dres) (a : ares) : Prop := {
  mt_err : dr_err r = ar_err a;
  mt_hdr : dr_hdr r = ar_hdr a;
  mt_file : dr_file r = ar_file a;
  mt_g : dr_g r = ar_g a;
  mt_quirks : dr_quirks r = ar_quirks a;
  mt_adv : adv_some rd (dr_rd r);
  mt_progress : ar_err a = None -> rd_pos rd < rd_pos (dr_rd r);  (* a call without error has taken input (the header
                                                                    at least): the chain fuel of DecodeChained rests on it *)
  mt_bound : rd_pos (dr_rd r) <= rd_pos rd + ar_used a;
  mt_exact : ar_exact a = true -> adv rd (dr_rd r) (ar_used a) /\ ar_used a <= length (rd_data rd)
}.

Definition tmatch (rd : reader) (x : tout dres) (y : tout ares) : Prop :=
  match x, y with
  | TDone r, TDone a => matches rd r a
  | TPanic w, TPanic w' => w = w'
  | _, _ => False
  end.

(* for any fuel: decode gives up for want of it, or agrees with decode_a *)
Definition tmatch_free (rd : reader) (fuel : nat) (x : tout dres) (y : tout ares) : Prop :=
  match x with TOutOfFuel => ~ wf rd fuel | _ => tmatch rd x y end.

Lemma matches_exact rd r a :
  dr_err r = ar_err a -> dr_hdr r = ar_hdr a -> dr_file r = ar_file a -> dr_g r = ar_g a -> dr_quirks r = ar_quirks a ->
  adv rd (dr_rd r) (ar_used a) -> ar_used a <= length (rd_data rd) -> (ar_err a = None -> 1 <= ar_used a) -> matches rd r a.
Proof.
  intros H1 H2 H3 H4 H5 HA HL HU. pose proof (adv_full _ _ _ HA HL) as HP.
  constructor; try assumption; [eexists; exact HA|intros He; specialize (HU He); lia|lia|intros _; split; [exact HA|exact HL]].
Qed.

Lemma matches_pos rd r a : matches rd r a -> ar_exact a = true ->
  rd_pos (dr_rd r) = rd_pos rd + ar_used a /\ rd_data (dr_rd r) = skipn (ar_used a) (rd_data rd).
Proof.
  intros M Hx. destruct (mt_exact _ _ _ M Hx) as [HA HL].
  split; [exact (adv_full _ _ _ HA HL)|exact (adv_data _ _ _ HA)].
Qed.

Ltac fields := cbn [dr_err dr_hdr dr_file dr_g dr_quirks dr_rd ar_err ar_hdr ar_file ar_g ar_quirks ar_used ar_exact].

Lemma crc_tail_free rd rd2 u fuel h fin g q crc f : adv rd rd2 u -> 1 <= u <= length (rd_data rd) ->
  tmatch_free rd fuel (match check_crc fuel rd2 crc f with
                       | OutOfFuel => TOutOfFuel
                       | Done (e, f', rd3) => TDone (mk_dres e h (Some (fin f')) rd3 g q)
                       end)
              (crc_tail h fin u g q crc f (rd_data rd2) (rd_term rd2)).
Proof.
  intros A U. pose proof (check_crc_spec fuel rd2 crc f) as H.
  destruct (check_crc fuel rd2 crc f) as [[[e f'] rd3]|]; [|intros W; exact (H (adv_wf _ _ _ _ A W))].
  destruct H as (E & AC & UC). unfold crc_tail. rewrite <- E.
  pose proof (f_equal (@length N) (adv_data _ _ _ A)) as HL. rewrite skipn_length in HL.
  apply matches_exact; cbn; try reflexivity; [exact (adv_trans _ _ _ _ _ A AC)|lia..].
Qed.

Lemma decode_buffered_free o fid g h crc rd rd1 used fuel : adv rd rd1 used -> 1 <= used <= length (rd_data rd) ->
  tmatch_free rd fuel (decode_buffered o fid h crc rd1 fuel g) (buffered_a o fid g h crc used (rd_data rd1) (rd_term rd1)).
Proof.
  intros AH U1. unfold decode_buffered, buffered_a. set (limit := N.to_nat (h_dsize h)).
  pose proof (run_c_abs rd1 crc (data_prog o fid (S limit)) _ (init_dstate (new_file h) g) (BInv_start rd1 limit crc fuel)) as BP.
  unfold start_c, abs in BP. cbn [c_n c_limit skipn] in BP. unfold run_rel, err_at in BP. cbn [c_rd c_fuel c_limit] in BP.
  assert (Hlen1 : length (rd_data rd1) = length (rd_data rd) - used) by (rewrite (adv_data _ _ _ AH); apply skipn_length).
  pose proof (adv_full _ _ _ AH (proj2 U1)) as Hpos1.
  (* when the run stops before the end of the data section, the reader is somewhere inside the frame *)
  assert (INEX : forall (c' : cst) e f g' q, BInv rd1 crc c' -> c_limit c' = limit ->
            matches rd (mk_dres e h f (c_rd c') g' q) (mk_ares e h f (used + limit) g' q false)).
  { intros c' e0 f g' q HI HL. pose proof (BInv_len _ _ _ HI). destruct HI as [HA _ _ HB _]. pose proof (adv_pos _ _ _ HA).
    constructor; cbn; try reflexivity; [eexists; exact (adv_trans _ _ _ _ _ AH HA)|lia..|discriminate]. }
  destruct (run_c (data_prog o fid (S limit)) (mk_cst rd1 [] 0 limit crc fuel) (init_dstate (new_file h) g)) as [x c' s'|e c' s'|e c' s'|w|];
    [| | | |intros W; exact (BP (adv_wf _ _ _ _ AH W))];
    destruct (run_a (data_prog o fid (S limit)) (mk_ast (rd_data rd1) (rd_term rd1) 0 limit) (init_dstate (new_file h) g)) as [y a' s''|e' a' s''|e' a' s''|w'|];
    try contradiction.
  - destruct BP as (-> & -> & HI & -> & L & _). destruct fid; [exact (INEX _ _ _ _ _ HI L)|]. cbn [abs a_n a_limit a_rest].
    destruct (Nat.eqb_spec (c_n c') (c_limit c')) as [En|En]; cbn [negb]; [|reflexivity].
    pose proof (BInv_len _ _ _ HI) as Hall. destruct HI as [HA HR _ HB HC]. cbn [c_limit] in L.
    assert (Hbuf : c_buf c' = []) by (destruct (c_buf c'); [reflexivity|cbn [length] in HB; lia]).
    rewrite Hbuf, Nat.add_0_r, En, L in *. cbn [app length] in *. rewrite HR, HC, <- (adv_term _ _ _ HA).
    apply (crc_tail_free rd (c_rd c') (used + limit)); [exact (adv_trans _ _ _ _ _ AH HA)|lia].
  - destruct BP as (-> & -> & HI & _ & L & _). exact (INEX _ _ _ _ _ HI L).
  - destruct BP as (-> & -> & HA & _). apply matches_exact; cbn; try reflexivity; [exact (adv_trans _ _ _ _ _ AH HA)|lia..].
  - exact BP.
Qed.

Theorem decode_abs_free o md g rd fuel :
  tmatch_free rd fuel (decode o md g rd fuel) (decode_a o md g (rd_data rd) (rd_term rd)).
Proof.
  unfold decode_a. pose proof (decode_header_spec fuel rd) as HH.
  destruct (decode_header fuel rd) as [[[[e h] crc] rd1]|] eqn:EH; [|unfold decode; rewrite EH; exact HH].
  destruct (hdr_a (rd_data rd) (rd_term rd)) as [[[e0 h0] crc0] used] eqn:Eh. cbn [fst snd] in HH.
  destruct HH as [[= <- <- <-] AH]. destruct (hdr_a_used _ _ _ _ _ _ Eh) as (U1 & _ & U3).
  destruct e as [e|].
  { unfold decode. rewrite EH. apply matches_exact; cbn; try reflexivity; try assumption. discriminate. }
  destruct (U3 eq_refl) as [_ U5]. pose proof (conj U5 U1) as U.
  assert (Hlen1 : length (rd_data rd1) = length (rd_data rd) - used) by (rewrite (adv_data _ _ _ AH); apply skipn_length).
  rewrite <- (adv_data _ _ _ AH), <- (adv_term _ _ _ AH).
  destruct (decode_buffered_eq o g rd fuel h crc rd1 EH) as [EF EI].
  unfold body_a. destruct md.
  - rewrite EF. apply decode_buffered_free; assumption.
  - unfold decode. rewrite EH. apply matches_exact; cbn; try reflexivity; try assumption. intros _; exact U5.
  - rewrite EI. apply decode_buffered_free; assumption.
  - unfold decode. rewrite EH. set (limit := N.to_nat (h_dsize h)).
    pose proof (io_copy_n_spec fuel rd1 limit) as HC.
    destruct (io_copy_n fuel rd1 limit []) as [[[bs ec] rd2]|]; [|intros W; exact (HC (adv_wf _ _ _ _ AH W))].
    destruct HC as (-> & -> & A2). unfold cp_err.
    destruct (Nat.leb_spec limit (length (rd_data rd1))) as [L|L].
    + rewrite <- (adv_data _ _ _ A2), <- (adv_term _ _ _ A2).
      apply (crc_tail_free rd rd2 (used + limit) fuel h (fun f => f)); [exact (adv_trans _ _ _ _ _ AH A2)|lia].
    + pose proof (adv_trans _ _ _ _ _ AH (adv_min rd1 rd2 limit (length (rd_data rd1)) A2 ltac:(lia))) as A3.
      apply matches_exact; cbn; try reflexivity; [exact A3|lia..].
Qed.

(* the forms in which the theorems about decode use it *)
Corollary decode_done_a o md g rd fuel r : decode o md g rd fuel = TDone r ->
  exists a, decode_a o md g (rd_data rd) (rd_term rd) = TDone a /\ matches rd r a.
Proof.
  intros Hd. pose proof (decode_abs_free o md g rd fuel) as HA. rewrite Hd in HA. cbn in HA.
  destruct (decode_a o md g (rd_data rd) (rd_term rd)) as [a|w|]; try contradiction. exists a. split; [reflexivity|exact HA].
Qed.

Corollary decode_abs o md g rd fuel : wf rd fuel ->
  tmatch rd (decode o md g rd fuel) (decode_a o md g (rd_data rd) (rd_term rd)).
Proof.
  intros W. pose proof (decode_abs_free o md g rd fuel) as H. unfold tmatch_free in H.
  destruct (decode o md g rd fuel); try exact H. contradiction.
Qed.

Corollary decode_of_a o md g rd fuel a : wf rd fuel -> decode_a o md g (rd_data rd) (rd_term rd) = TDone a ->
  exists r, decode o md g rd fuel = TDone r /\ matches rd r a.
Proof.
  intros Hwf Ha. pose proof (decode_abs o md g rd fuel Hwf) as HA. rewrite Ha in HA.
  destruct (decode o md g rd fuel) as [r|w|]; try contradiction. exists r. split; [reflexivity|exact HA].
Qed.

(* closes the conjuncts of body_a_used and decode_a_used once the fields of the result stand in the goal: each is
   arithmetic, an impossible mode or error, or an equation already among the hypotheses *)
Local Ltac fin := repeat split; intros; try lia; try discriminate; try congruence;
  try (match goal with H : _ \/ _ |- _ => destruct H; discriminate end).

Lemma crc_tail_used h fin u g q crc f rest t a : crc_tail h fin u g q crc f rest t = TDone a ->
  ar_hdr a = h /\ ar_exact a = true /\ ar_used a <= u + 2 /\ (ar_err a = None -> ar_used a = u + 2).
Proof.
  intros [= <-]. fields. destruct (crc_a_ok rest t crc f) as [C1 C2].
  repeat split; [lia|]. intros He. rewrite (proj1 (C2 He)). reflexivity.
Qed.

Lemma body_a_used o md g h crc used rest t a : body_a o md g h crc used rest t = TDone a ->
  ar_hdr a = h /\ ar_used a <= used + N.to_nat (h_dsize h) + 2 /\
  (md = MHeaderOnly -> ar_used a = used) /\
  (ar_err a = None -> md <> MFileIdOnly -> ar_exact a = true) /\
  (ar_err a = None -> md = MFull \/ md = MCrcOnly -> ar_used a = used + N.to_nat (h_dsize h) + 2).
Proof.
  set (limit := N.to_nat (h_dsize h)). unfold body_a, buffered_a. fold limit. destruct md.
  - destruct (run_a _ _ _) as [y x s|e x s|e x s|w|]; try discriminate.
    + destruct (negb _); [discriminate|]. intros H.
      destruct (crc_tail_used h (fun f' => finalize_unknown o (with_file s f' (ds_g s))) (used + limit) _ _ _ _ _ _ _ H) as (T1 & T2 & T3 & T4).
      fin. auto.
    + intros [= <-]; fields. fin.
    + intros [= <-]; fields. fin.
  - intros [= <-]; fields. fin.
  - destruct (run_a _ _ _) as [y x s|e x s|e x s|w|]; try discriminate; intros [= <-]; fields; fin.
  - unfold cp_err. destruct (Nat.leb_spec limit (length rest)) as [L|L].
    + intros H. destruct (crc_tail_used h (fun f => f) (used + limit) _ _ _ _ _ _ _ H) as (T1 & T2 & T3 & T4). fin. auto.
    + intros [= <-]; fields. fin.
Qed.

Lemma decode_a_used o md g data t a : decode_a o md g data t = TDone a ->
  ar_used a <= Nat.max 1 (N.to_nat (h_size (ar_hdr a))) + N.to_nat (h_dsize (ar_hdr a)) + 2 /\
  (md = MHeaderOnly -> ar_used a <= Nat.max 1 (N.to_nat (h_size (ar_hdr a)))) /\
  (ar_err a = None -> md <> MFileIdOnly -> ar_exact a = true) /\
  (ar_err a = None -> md = MHeaderOnly -> ar_used a = N.to_nat (h_size (ar_hdr a))) /\
  (ar_err a = None -> md = MFull \/ md = MCrcOnly ->
   ar_used a = N.to_nat (h_size (ar_hdr a)) + N.to_nat (h_dsize (ar_hdr a)) + 2).
Proof.
  unfold decode_a. destruct (hdr_a data t) as [[[e h] crc] used] eqn:Eh.
  destruct (hdr_a_used _ _ _ _ _ _ Eh) as (U1 & U2 & U3).
  destruct e as [e|].
  { intros H; inversion H; subst; fields. fin. }
  destruct (U3 eq_refl) as [U4 U5]. intros H.
  destruct (body_a_used _ _ _ _ _ _ _ _ _ H) as (B0 & B1 & B2 & B3 & B4). rewrite B0.
  split; [lia|]. split; [intros Hm; rewrite (B2 Hm); lia|]. split; [exact B3|].
  split; [intros _ Hm; rewrite (B2 Hm); exact U4|]. intros He Hm. rewrite (B4 He Hm). lia.
Qed.

Lemma decode_ok_a o md g rd fuel r : decode o md g rd fuel = TDone r -> dr_err r = None -> md <> MFileIdOnly ->
  exists a, decode_a o md g (rd_data rd) (rd_term rd) = TDone a /\ matches rd r a /\ ar_err a = None /\
            rd_pos (dr_rd r) = rd_pos rd + ar_used a /\ rd_data (dr_rd r) = skipn (ar_used a) (rd_data rd).
Proof.
  intros Hd He Hm. destruct (decode_done_a o md g rd fuel r Hd) as (a & Ea & M). exists a.
  assert (Ha : ar_err a = None) by (rewrite <- (mt_err _ _ _ M); exact He).
  destruct (decode_a_used _ _ _ _ _ _ Ea) as (_ & _ & D3 & _).
  split; [exact Ea|]. split; [exact M|]. split; [exact Ha|]. exact (matches_pos _ _ _ M (D3 Ha Hm)).
Qed.

(* a successful Decode / CheckIntegrity consumes exactly header size + data size + 2 bytes *)
Theorem decode_consumed_exact o md g rd fuel r : md = MFull \/ md = MCrcOnly ->
  decode o md g rd fuel = TDone r -> dr_err r = None ->
  rd_pos (dr_rd r) = rd_pos rd + N.to_nat (h_size (dr_hdr r)) + N.to_nat (h_dsize (dr_hdr r)) + 2.
Proof.
  intros Hmd Hd He. assert (Hmd' : md <> MFileIdOnly) by (destruct Hmd; subst; discriminate).
  destruct (decode_ok_a o md g rd fuel r Hd He Hmd') as (a & Ea & M & Ha & -> & _). rewrite (mt_hdr _ _ _ M).
  destruct (decode_a_used _ _ _ _ _ _ Ea) as (_ & _ & _ & _ & D5). rewrite (D5 Ha Hmd). lia.
Qed.

(* header-only calls consume exactly the header *)
Theorem decode_header_only_exact o g rd fuel r : decode o MHeaderOnly g rd fuel = TDone r -> dr_err r = None ->
  rd_pos (dr_rd r) = rd_pos rd + N.to_nat (h_size (dr_hdr r)).
Proof.
  intros Hd He.
  destruct (decode_ok_a o MHeaderOnly g rd fuel r Hd He ltac:(discriminate)) as (a & Ea & M & Ha & -> & _).
  rewrite (mt_hdr _ _ _ M). destruct (decode_a_used _ _ _ _ _ _ Ea) as (_ & _ & _ & D4 & _). rewrite (D4 Ha eq_refl). reflexivity.
Qed.

(* no mode, no outcome ever takes a byte beyond the frame the header announces (beyond the header for the
   header-only mode); the reader is never rewound; decode never runs out of fuel *)
Theorem decode_never_past_frame o md g rd fuel : wf rd fuel ->
  match decode o md g rd fuel with
  | TDone r =>
      rd_pos rd <= rd_pos (dr_rd r) /\
      rd_pos (dr_rd r) <= rd_pos rd + length (rd_data rd) /\
      rd_pos (dr_rd r) <= rd_pos rd + Nat.max 1 (N.to_nat (h_size (dr_hdr r))) + N.to_nat (h_dsize (dr_hdr r)) + 2 /\
      (md = MHeaderOnly -> rd_pos (dr_rd r) <= rd_pos rd + Nat.max 1 (N.to_nat (h_size (dr_hdr r)))) /\
      wf (dr_rd r) fuel /\ rd_term (dr_rd r) = rd_term rd /\ rd_ewd (dr_rd r) = rd_ewd rd
  | TPanic _ => True
  | TOutOfFuel => False
  end.
Proof.
  intros Hwf. pose proof (decode_abs o md g rd fuel Hwf) as HA.
  destruct (decode o md g rd fuel) as [r|w|]; destruct (decode_a o md g (rd_data rd) (rd_term rd)) as [a|w'|] eqn:Ea; try contradiction; try exact I.
  pose proof (adv_some_pos _ _ (mt_adv _ _ _ HA)) as Hp. destruct (mt_adv _ _ _ HA) as [k A]. pose proof (mt_bound _ _ _ HA) as Hb.
  destruct (decode_a_used _ _ _ _ _ _ Ea) as (D1 & D2 & _). rewrite (mt_hdr _ _ _ HA).
  split; [destruct (adv_pos_le _ _ _ A); lia|]. split; [exact Hp|]. split; [lia|]. split; [intros Hm; specialize (D2 Hm); lia|].
  split; [eapply adv_wf; eassumption|]. split; [apply (adv_term _ _ _ A)|apply (adv_ewd _ _ _ A)].
Qed.

(* the whole decode does not depend on the chunk schedule, on data-with-EOF, on the fuel or on where the
   reader started: results agree field by field; the bytes consumed and the bytes left agree whenever the call
   succeeds outside the file_id-only mode (there, and after a decoder-level failure, the read-ahead of the
   4096-byte buffer depends on the chunking) *)
Definition same_result (p1 p2 : nat) (md : mode) (x y : tout dres) : Prop :=
  match x, y with
  | TDone r1, TDone r2 =>
      dr_err r1 = dr_err r2 /\ dr_hdr r1 = dr_hdr r2 /\ dr_file r1 = dr_file r2 /\ dr_g r1 = dr_g r2 /\ dr_quirks r1 = dr_quirks r2 /\
      (dr_err r1 = None -> md <> MFileIdOnly ->
       rd_pos (dr_rd r1) - p1 = rd_pos (dr_rd r2) - p2 /\ rd_data (dr_rd r1) = rd_data (dr_rd r2))
  | TPanic w1, TPanic w2 => w1 = w2
  | _, _ => False
  end.

Theorem decode_same_bytes o md g rd1 rd2 fuel1 fuel2 : rd_data rd1 = rd_data rd2 -> rd_term rd1 = rd_term rd2 ->
  wf rd1 fuel1 -> wf rd2 fuel2 ->
  same_result (rd_pos rd1) (rd_pos rd2) md (decode o md g rd1 fuel1) (decode o md g rd2 fuel2).
Proof.
  intros Hd Ht H1 H2. pose proof (decode_abs o md g rd1 fuel1 H1) as A1. pose proof (decode_abs o md g rd2 fuel2 H2) as A2.
  rewrite Hd, Ht in A1. unfold same_result.
  destruct (decode o md g rd1 fuel1) as [r1|w1|];
    destruct (decode_a o md g (rd_data rd2) (rd_term rd2)) as [a|w|] eqn:Ea; try contradiction;
    destruct (decode o md g rd2 fuel2) as [r2|w2|]; try contradiction; [|congruence].
  destruct (decode_a_used _ _ _ _ _ _ Ea) as (_ & _ & D3 & _).
  rewrite (mt_err _ _ _ A1), (mt_hdr _ _ _ A1), (mt_file _ _ _ A1), (mt_g _ _ _ A1), (mt_quirks _ _ _ A1),
          (mt_err _ _ _ A2), (mt_hdr _ _ _ A2), (mt_file _ _ _ A2), (mt_g _ _ _ A2), (mt_quirks _ _ _ A2).
  do 5 (split; [reflexivity|]). intros He Hm. specialize (D3 He Hm).
  destruct (matches_pos _ _ _ A1 D3) as [P1 ->]. destruct (matches_pos _ _ _ A2 D3) as [P2 ->].
  split; [lia|rewrite Hd; reflexivity].
Qed.

Theorem decode_schedule_independent o md g data t sched1 sched2 ewd1 ewd2 pos1 pos2 fuel1 fuel2 :
  length data + length sched1 < fuel1 -> length data + length sched2 < fuel2 ->
  same_result pos1 pos2 md (decode o md g (mk_reader data sched1 t ewd1 pos1) fuel1)
                           (decode o md g (mk_reader data sched2 t ewd2 pos2) fuel2).
Proof. exact (decode_same_bytes o md g (mk_reader data sched1 t ewd1 pos1) (mk_reader data sched2 t ewd2 pos2) fuel1 fuel2 eq_refl eq_refl). Qed.

Lemma hdr_a_ext data t h crc used : hdr_a data t = (None, h, crc, used) ->
  forall data' t', firstn used data' = firstn used data -> used <= length data' -> hdr_a data' t' = (None, h, crc, used).
Proof.
  unfold hdr_a. destruct data as [|sz rest]; [discriminate|].
  destruct (negb ((sz =? c_headerSizeCRC)%N || (sz =? c_headerSizeNoCRC)%N)) eqn:Esz; [discriminate|].
  destruct (Nat.leb_spec (N.to_nat sz - 1) (length rest)) as [L|L]; [|discriminate].
  intros H data' t' Hf Hl. injection H as Hp Hu. subst used.
  destruct data' as [|sz' rest']; [cbn in Hl; lia|].
  cbn [firstn Nat.add] in Hf. injection Hf as Hsz Hrest. subst sz'. rewrite Esz.
  cbn [length] in Hl.
  destruct (Nat.leb_spec (N.to_nat sz - 1) (length rest')) as [L'|L']; [|lia].
  rewrite Hrest, Hp. reflexivity.
Qed.

Lemma hdr_a_cut data t h crc used : hdr_a data t = (None, h, crc, used) ->
  forall k t', k < used ->
  exists e h' crc' used', hdr_a (firstn k data) t' = (Some e, h', crc', used') /\
                          (e = EReadSizeEOF -> k = 0 /\ t' = TEOF).
Proof.
  unfold hdr_a. destruct data as [|sz rest]; [discriminate|].
  destruct (negb ((sz =? c_headerSizeCRC)%N || (sz =? c_headerSizeNoCRC)%N)) eqn:Esz; [discriminate|].
  destruct (Nat.leb_spec (N.to_nat sz - 1) (length rest)) as [L|L]; [|discriminate].
  intros H k t' Hk. injection H as Hp Hu. subst used.
  destruct k as [|k].
  - cbn [firstn]. destruct t'; do 4 eexists; (split; [reflexivity|]); [intros _; split; reflexivity|discriminate].
  - cbn [firstn]. rewrite Esz.
    destruct (Nat.leb_spec (N.to_nat sz - 1) (length (firstn k rest))) as [L'|L']; [rewrite firstn_length in L'; lia|].
    do 4 eexists. split; [reflexivity|discriminate].
Qed.

(* F takes exactly the first n bytes of bs and goes on as G: on any input that starts with these n bytes it gives
   what G gives on the rest of that input, and on a shorter prefix of bs it ends as bad says *)
Definition reads {R} (bad : nat -> term -> R -> Prop) (F : list N -> term -> R) (bs : list N) (n : nat)
    (G : list N -> term -> R) : Prop :=
  n <= length bs /\
  (forall k t, k < n -> bad k t (F (firstn k bs) t)) /\
  (forall bs' t, firstn n bs' = firstn n bs -> n <= length bs' -> F bs' t = G (skipn n bs') t).

Lemma reads_seq {R} (bad bad' : nat -> term -> R -> Prop) F G H bs n m :
  reads bad F bs n G -> reads bad' G (skipn n bs) m H -> (forall k t r, bad' k t r -> bad (n + k) t r) ->
  reads bad F bs (n + m) H.
Proof.
  intros (L1 & C1 & E1) (L2 & C2 & E2) Hb. rewrite skipn_length in L2. split; [lia|]. split.
  - intros k t Hk. destruct (Nat.lt_ge_cases k n) as [Hlt|Hge]; [exact (C1 k t Hlt)|].
    specialize (C2 (k - n) t ltac:(lia)). apply Hb in C2. replace (n + (k - n)) with k in C2 by lia.
    rewrite (E1 (firstn k bs) t), skipn_firstn_comm; [exact C2| |rewrite firstn_length; lia].
    rewrite firstn_firstn, Nat.min_l by lia. reflexivity.
  - intros bs' t Hf Hl. destruct (firstn_eq_split bs bs' n m Hf) as [F1 F2].
    rewrite (E1 bs' t F1), (E2 (skipn n bs') t F2), skipn_skipn_add by (rewrite ?skipn_length; lia). reflexivity.
Qed.

(* how decode_a ends on an input cut short: in an error, of the end-of-chain class only for the empty input and a
   clean EOF; the stages after the header never end in that class *)
Definition cut_err (k : nat) (t : term) (r : tout ares) : Prop :=
  exists a e, r = TDone a /\ ar_err a = Some e /\ (e = EReadSizeEOF -> k = 0 /\ t = TEOF).
Definition fails (r : tout ares) : Prop :=
  match r with TDone a => exists e, ar_err a = Some e /\ e <> EReadSizeEOF | _ => False end.

Lemma fails_cut_err n k t r : fails r -> cut_err (n + k) t r.
Proof.
  destruct r as [a| |]; try contradiction. intros (e & Ee & Hne).
  exists a, e. split; [reflexivity|]. split; [exact Ee|]. intros; contradiction.
Qed.

Lemma decode_a_reads_hdr o md g bs t h crc used : hdr_a bs t = (None, h, crc, used) ->
  reads cut_err (decode_a o md g) bs used (body_a o md g h crc used).
Proof.
  intros Eh. split; [exact (proj1 (hdr_a_used _ _ _ _ _ _ Eh))|]. split.
  - intros k t' Hk. destruct (hdr_a_cut _ _ _ _ _ Eh k t' Hk) as (e & h' & crc' & used' & E & Heof).
    unfold decode_a. rewrite E. eexists. exists e. split; [reflexivity|]. split; [reflexivity|exact Heof].
  - intros bs' t' Hf Hl. unfold decode_a. rewrite (hdr_a_ext _ _ _ _ _ Eh bs' t' Hf Hl). reflexivity.
Qed.

Lemma reads_then_crc F rest limit h fin u g q crc f t a : reads (fun _ _ => fails) F rest limit (crc_tail h fin u g q crc f) ->
  crc_tail h fin u g q crc f (skipn limit rest) t = TDone a -> ar_err a = None ->
  ar_used a = u + 2 /\ reads (fun _ _ => fails) F rest (limit + 2) (fun _ _ => TDone a).
Proof.
  unfold crc_tail at 2. intros D [= <-] He. fields. cbn [ar_err] in He. destruct (proj2 (crc_a_ok _ _ _ _) He) as [C1 C2].
  split; [rewrite C1; reflexivity|]. refine (reads_seq _ (fun _ _ => fails) _ _ _ _ _ _ D _ (fun _ _ _ x => x)).
  split; [exact C2|]. split.
  - intros k t' Hk. unfold crc_tail. rewrite crc_a_short by (rewrite firstn_length; lia).
    exists EFileCRCRead. split; [reflexivity|discriminate].
  - intros rest' t' Hf Hl. unfold crc_tail. rewrite (crc_a_ext _ _ _ _ He rest' t' Hf Hl). reflexivity.
Qed.

Lemma buffered_a_reads o fid g h crc used rest t a : buffered_a o fid g h crc used rest t = TDone a -> ar_err a = None ->
  exists nb, (fid = false -> ar_used a = used + nb) /\
             reads (fun _ _ => fails) (buffered_a o fid g h crc used) rest nb (fun _ _ => TDone a).
Proof.
  set (limit := N.to_nat (h_dsize h)). unfold buffered_a at 1. fold limit.
  destruct (run_a (data_prog o fid (S limit)) (mk_ast rest t 0 limit) (init_dstate (new_file h) g)) as [y x s|e' x s|e' x s|w|] eqn:Er;
    try discriminate; try (intros [= <-]; discriminate).
  pose proof (run_a_prefix (data_prog o fid (S limit)) rest t 0 limit (init_dstate (new_file h) g)) as HP.
  rewrite Er in HP. pose proof (po_len _ _ _ _ _ HP) as Plen. pose proof (po_rest _ _ _ _ _ HP) as Prest.
  pose proof (po_limit _ _ _ _ _ HP) as Plim.
  (* the records take a_n x bytes; what follows them matters to the checksum stage only *)
  assert (Cut : forall k t', k < a_n x -> fails (buffered_a o fid g h crc used (firstn k rest) t')).
  { intros k t' Hk. destruct (run_a_firstn _ _ _ _ _ _ _ _ _ Er k t') as (e & x' & s'' & E); [lia|].
    unfold buffered_a. fold limit. rewrite E. exists (EIO e). split; [reflexivity|discriminate]. }
  pose proof (run_a_ext_ok _ _ _ _ _ _ _ _ _ Er) as Ext. rewrite Nat.sub_0_r in *.
  destruct fid.
  - intros H _. exists (a_n x). split; [discriminate|]. split; [exact Plen|]. split; [exact Cut|].
    intros rest' t' Hf Hl. unfold buffered_a. fold limit. rewrite (Ext rest' t' Hf Hl). exact H.
  - destruct (Nat.eqb_spec (a_n x) (a_limit x)) as [En|En]; cbn [negb]; [|discriminate].
    rewrite Plim in En. rewrite En in *. rewrite Prest. intros H He. exists (limit + 2).
    destruct (reads_then_crc (buffered_a o false g h crc used) rest limit h (fun f' => finalize_unknown o (with_file s f' (ds_g s)))
                (used + limit) (ds_g s) (ds_quirks s) (crc_write crc (firstn limit rest)) (ds_file s) t a) as [Hu C];
      [|exact H|exact He|split; [intros _; lia|exact C]].
    split; [exact Plen|]. split; [exact Cut|]. intros rest' t' Hf Hl.
    unfold buffered_a. fold limit. rewrite (Ext rest' t' Hf Hl). cbn [a_n a_limit a_rest]. rewrite Nat.eqb_refl, Hf. reflexivity.
Qed.

Lemma body_a_reads o md g h crc used rest t a : body_a o md g h crc used rest t = TDone a -> ar_err a = None ->
  exists nb, (md <> MFileIdOnly -> ar_used a = used + nb) /\
             reads (fun _ _ => fails) (body_a o md g h crc used) rest nb (fun _ _ => TDone a).
Proof.
  set (limit := N.to_nat (h_dsize h)). destruct md.
  - intros H He. destruct (buffered_a_reads o false g h crc used rest t a H He) as (nb & Hn & R). exists nb. auto.
  - intros H _. exists 0. split; [injection H as <-; fields; lia|]. split; [lia|]. split; [intros; lia|intros; exact H].
  - intros H He. destruct (buffered_a_reads o true g h crc used rest t a H He) as (nb & _ & R). exists nb. split; [contradiction|exact R].
  - unfold body_a at 1, cp_err. fold limit. destruct (Nat.leb_spec limit (length rest)) as [L|L]; [|intros [= <-]; discriminate].
    intros H He. exists (limit + 2).
    destruct (reads_then_crc (body_a o MCrcOnly g h crc used) rest limit h (fun f => f) (used + limit) g []
                (crc_write crc (firstn limit rest)) (new_file h) t a) as [Hu C]; [|exact H|exact He|split; [intros _; lia|exact C]].
    split; [exact L|]. split.
    + intros k t' Hk. unfold body_a, cp_err. fold limit.
      destruct (Nat.leb_spec limit (length (firstn k rest))) as [L'|L']; [rewrite firstn_length in L'; lia|].
      exists EParseData. split; [reflexivity|discriminate].
    + intros rest' t' Hf Hl. unfold body_a, cp_err. fold limit.
      destruct (Nat.leb_spec limit (length rest')); [|lia]. rewrite Hf. reflexivity.
Qed.

(* a successful decode_a needs a definite number of bytes of its input (all it consumed, outside the file_id-only
   mode): whatever follows them, and whatever the reader would answer at the end, the result is the same; on any
   shorter prefix the call fails, with the end-of-chain class only for the empty input and a clean EOF *)
Theorem decode_a_need o md g bs t a : decode_a o md g bs t = TDone a -> ar_err a = None ->
  exists need, need <= length bs /\ (md <> MFileIdOnly -> need = ar_used a) /\
    (forall k t', k < need -> exists a' e, decode_a o md g (firstn k bs) t' = TDone a' /\ ar_err a' = Some e /\
                                           (e = EReadSizeEOF -> k = 0 /\ t' = TEOF)) /\
    (forall data' t', firstn need data' = firstn need bs -> need <= length data' -> decode_a o md g data' t' = TDone a).
Proof.
  unfold decode_a at 1. destruct (hdr_a bs t) as [[[e h] crc] used] eqn:Eh.
  destruct e as [e|]; [intros [= <-]; discriminate|]. intros Hb He.
  destruct (body_a_reads _ _ _ _ _ _ _ _ _ Hb He) as (nb & Hn & Rb).
  destruct (reads_seq _ _ _ _ _ _ _ _ (decode_a_reads_hdr o md g bs t h crc used Eh) Rb (fails_cut_err used)) as (L & C & E).
  exists (used + nb). split; [exact L|]. split; [intros Hm; symmetry; exact (Hn Hm)|]. split; [exact C|exact E].
Qed.

(* a call that succeeds on an input and takes the bytes bs of it succeeds, with the same results, through every reader
   whose data begin with bs, and advances it by exactly bs *)
Corollary decode_frame_step o md g bs tl0 t a : decode_a o md g (bs ++ tl0) t = TDone a -> ar_err a = None ->
  md <> MFileIdOnly -> ar_used a = length bs ->
  forall tl rd fuel, rd_data rd = bs ++ tl -> wf rd fuel ->
  exists r, decode o md g rd fuel = TDone r /\ matches rd r a /\ adv rd (dr_rd r) (length bs).
Proof.
  intros Hd He Hm Hu tl rd fuel Hdata Hwf. destruct (decode_a_need o md g _ t a Hd He) as (need & _ & Hn & _ & Hext).
  rewrite (Hn Hm), Hu in Hext. specialize (Hext (rd_data rd) (rd_term rd)).
  rewrite Hdata, !firstn_len_app, app_length, <- Hdata in Hext.
  destruct (decode_of_a o md g rd fuel a Hwf (Hext eq_refl (Nat.le_add_r _ _))) as (r & Er & M).
  destruct (decode_a_used _ _ _ _ _ _ Hd) as (_ & _ & D3 & _). destruct (mt_exact _ _ _ M (D3 He Hm)) as [A _]. rewrite Hu in A.
  exists r. auto.
Qed.

Corollary decode_a_cut o md g bs t a : decode_a o md g bs t = TDone a -> ar_err a = None -> md <> MFileIdOnly ->
  ar_used a = length bs ->
  forall k t', k < length bs ->
  exists a' e, decode_a o md g (firstn k bs) t' = TDone a' /\ ar_err a' = Some e /\
               (e = EReadSizeEOF -> k = 0 /\ t' = TEOF).
Proof.
  intros Hd He Hm Hu k t' Hk. destruct (decode_a_need o md g bs t a Hd He) as (need & _ & Hn & Hcut & _).
  apply Hcut. rewrite (Hn Hm), Hu. exact Hk.
Qed.

(* DecodeChained reads the same bytes to the same result whatever the chunking: so does each decode, and after a file
   without error both readers hold the same rest *)
Lemma decode_chained_sched o : forall k g rd1 rd2 fuel1 fuel2 i acc q,
  rd_data rd1 = rd_data rd2 -> rd_term rd1 = rd_term rd2 -> wf rd1 fuel1 -> wf rd2 fuel2 ->
  match decode_chained o g rd1 fuel1 i k acc q, decode_chained o g rd2 fuel2 i k acc q with
  | TDone c1, TDone c2 => cr_err c1 = cr_err c2 /\ cr_files c1 = cr_files c2 /\ cr_g c1 = cr_g c2 /\ cr_quirks c1 = cr_quirks c2
  | TPanic w1, TPanic w2 => w1 = w2
  | TOutOfFuel, TOutOfFuel => True
  | _, _ => False
  end.
Proof.
  induction k as [|k IH]; intros g rd1 rd2 fuel1 fuel2 i acc q Hd Ht W1 W2; cbn [decode_chained]; [exact I|].
  pose proof (decode_same_bytes o MFull g rd1 rd2 fuel1 fuel2 Hd Ht W1 W2) as S.
  pose proof (decode_never_past_frame o MFull g _ fuel1 W1) as N1. pose proof (decode_never_past_frame o MFull g _ fuel2 W2) as N2.
  destruct (decode o MFull g _ fuel1) as [r1|w1|], (decode o MFull g _ fuel2) as [r2|w2|]; try contradiction; [|exact S].
  destruct S as (-> & _ & -> & -> & -> & S), N1 as (_ & _ & _ & _ & W1' & T1 & _), N2 as (_ & _ & _ & _ & W2' & T2 & _).
  destruct (dr_err r2) as [e|]; [destruct e; try (repeat split; fail); destruct i; repeat split|].
  apply IH; [exact (proj2 (S eq_refl ltac:(discriminate)))|congruence|assumption..].
Qed.

(* a file decoded alone: one read returning everything, clean EOF after it *)
Definition solo (bs : list N) : reader := mk_reader bs [] TEOF false 0.
Definition solo_fuel (bs : list N) : nat := S (length bs).

Lemma solo_wf bs : wf (solo bs) (solo_fuel bs).
Proof. unfold wf, solo, solo_fuel. cbn. lia. Qed.

(* [chain_ok o g bss fs g' q]: decoding the files bss one after the other, each alone, starting with the
   package-level accumulator state g and handing the state left by one decode to the next, succeeds on each,
   consumes each completely, returns the Files fs, ends in state g' and raises the quirk tags q *)
Inductive chain_ok (o : dopts) : gstate -> list (list N) -> list file -> gstate -> list N -> Prop :=
| chain_nil g : chain_ok o g [] [] g []
| chain_cons g bs r f rest fs g' q :
    decode o MFull g (solo bs) (solo_fuel bs) = TDone r -> dr_err r = None -> dr_file r = Some f ->
    rd_data (dr_rd r) = [] ->
    chain_ok o (dr_g r) rest fs g' q ->
    chain_ok o g (bs :: rest) (f :: fs) g' (dr_quirks r ++ q).

Lemma solo_step o md g bs r : decode o md g (solo bs) (solo_fuel bs) = TDone r -> dr_err r = None -> md <> MFileIdOnly ->
  rd_data (dr_rd r) = [] ->
  exists a, decode_a o md g bs TEOF = TDone a /\ ar_err a = None /\ ar_used a = length bs /\
            ar_file a = dr_file r /\ ar_g a = dr_g r /\ ar_quirks a = dr_quirks r /\ ar_hdr a = dr_hdr r.
Proof.
  intros Hd He Hm Hnil.
  destruct (decode_ok_a o md g _ _ r Hd He Hm) as (a & Ea & M & Ha & _ & Hdata).
  destruct (decode_a_used _ _ _ _ _ _ Ea) as (_ & _ & D3 & _). destruct (mt_exact _ _ _ M (D3 Ha Hm)) as [_ M9].
  destruct M as [_ Ehdr Efile Eg Eq _ _ _ _]. exists a. split; [exact Ea|]. repeat split; try congruence.
  cbn [solo rd_data] in Hdata, M9. rewrite Hnil in Hdata.
  apply (f_equal (@length N)) in Hdata. rewrite skipn_length in Hdata. cbn [length] in Hdata. lia.
Qed.

(* after the files of a chain that decode alone, DecodeChained continues on what follows them, with the reader
   behind them *)
Lemma chain_then o g pre fs1 g1 q1 : chain_ok o g pre fs1 g1 q1 ->
  forall tail rd fuel i k acc q0, rd_data rd = concat pre ++ tail -> wf rd fuel -> length pre < k ->
  exists rd1, adv rd rd1 (length (concat pre)) /\ rd_data rd1 = tail /\
    decode_chained o g rd fuel i k acc q0 =
    decode_chained o g1 rd1 fuel (length pre + i) (k - length pre) (acc ++ fs1) (q0 ++ q1).
Proof.
  induction 1 as [g|g bs r f rest fs g' q Hd He Hf Hnil Hc IH]; intros tail rd fuel i k acc q0 Hdata Hwf Hk.
  - exists rd. split; [apply adv_refl|]. split; [exact Hdata|]. cbn. rewrite !app_nil_r, Nat.sub_0_r. reflexivity.
  - destruct k as [|k]; [cbn in Hk; lia|]. cbn [length] in Hk. cbn [concat] in Hdata. rewrite <- app_assoc in Hdata.
    destruct (solo_step o MFull g bs r Hd He ltac:(discriminate) Hnil) as (a & Ea & A1 & A2 & A3 & A4 & A5 & _).
    rewrite <- (app_nil_r bs) in Ea.
    destruct (decode_frame_step o MFull g bs [] TEOF a Ea A1 ltac:(discriminate) A2 _ rd fuel Hdata Hwf) as (r' & Er & M & A).
    destruct (IH tail (dr_rd r') fuel (S i) k (acc ++ [f]) (q0 ++ dr_quirks r)) as (rd1 & A' & D1 & E);
      [rewrite (adv_data _ _ _ A), Hdata; apply skipn_len_app|exact (adv_wf _ _ _ _ A Hwf)|lia|].
    exists rd1. split; [cbn [concat]; rewrite app_length; exact (adv_trans _ _ _ _ _ A A')|]. split; [exact D1|].
    cbn [decode_chained]. rewrite Er, (mt_err _ _ _ M), A1, (mt_file _ _ _ M), A3, Hf, (mt_g _ _ _ M), A4, (mt_quirks _ _ _ M), A5, E.
    rewrite <- !app_assoc. cbn [app length Nat.sub]. f_equal. lia.
Qed.

Lemma chain_ok_lengths o g bss fs g' q : chain_ok o g bss fs g' q -> length bss <= length (concat bss) /\ length fs = length bss.
Proof.
  induction 1 as [g|g bs r f rest fs g' q Hd He Hf Hnil Hc IH]; [cbn; lia|].
  destruct (solo_step o MFull g bs r Hd He ltac:(discriminate) Hnil) as (a & Ea & A1 & A2 & _).
  destruct (decode_a_used _ _ _ _ _ _ Ea) as (_ & _ & _ & _ & D5).
  specialize (D5 A1 (or_introl eq_refl)). cbn [concat length]. rewrite app_length. lia.
Qed.

(* DecodeChained over a concatenation of files that decode alone returns one File per input, each the File of
   the solo decode (in the accumulator state left by the files before it), whatever the chunking, and leaves the
   reader empty *)
Lemma chained_concat_empty o g bss fs g' q : chain_ok o g bss fs g' q -> bss <> [] ->
  forall rd fuel, rd_data rd = concat bss -> rd_term rd = TEOF -> wf rd fuel ->
  exists rd', entry_DecodeChained o g rd fuel = TDone (mk_cres None fs rd' g' q) /\
              rd_pos rd' = rd_pos rd + length (concat bss) /\ rd_data rd' = [].
Proof.
  intros Hc Hne rd fuel Hd Ht Hwf. unfold entry_DecodeChained. destruct (chain_ok_lengths _ _ _ _ _ _ Hc) as [HL _].
  rewrite <- (app_nil_r (concat bss)) in Hd.
  destruct (chain_then o g bss fs g' q Hc [] rd fuel 0 (S (length (rd_data rd))) [] [] Hd Hwf) as (rd1 & A & D1 & ->);
    [rewrite Hd, app_nil_r; lia|].
  destruct (S (length (rd_data rd)) - length bss) as [|k] eqn:Ek; [rewrite Hd, app_nil_r in Ek; lia|]. cbn [decode_chained].
  (* where a further file would begin the input has ended: the clean end of a chain that has a file *)
  destruct (decode_of_a o MFull g' rd1 fuel (mk_ares (Some EReadSizeEOF) zero_header None 0 g' [] true) (adv_wf _ _ _ _ A Hwf))
    as (r & -> & M); [rewrite D1, (adv_term _ _ _ A), Ht; reflexivity|].
  destruct (matches_pos _ _ _ M eq_refl) as [P D]. rewrite (mt_err _ _ _ M), (mt_g _ _ _ M), (mt_quirks _ _ _ M). cbn in *.
  destruct (length bss + 0) eqn:En; [destruct bss; [contradiction|discriminate]|].
  exists (dr_rd r). rewrite !app_nil_r, P, D, D1, (adv_full _ _ _ A) by (rewrite Hd, app_nil_r; lia). repeat split. lia.
Qed.

Theorem chained_concat o g bss fs g' q : chain_ok o g bss fs g' q -> bss <> [] ->
  forall rd fuel, rd_data rd = concat bss -> rd_term rd = TEOF -> wf rd fuel ->
  exists cr, entry_DecodeChained o g rd fuel = TDone cr /\ cr_err cr = None /\ cr_files cr = fs /\ cr_g cr = g' /\
             cr_quirks cr = q /\ rd_pos (cr_rd cr) = rd_pos rd + length (concat bss).
Proof.
  intros Hc Hne rd fuel Hd Ht Hwf. destruct (chained_concat_empty o g bss fs g' q Hc Hne rd fuel Hd Ht Hwf) as (rd' & E & P & _).
  eexists. split; [exact E|]. repeat split. exact P.
Qed.

(* the header reported does not depend on the mode: DecodeHeader, DecodeHeaderAndFileID, CheckIntegrity and Decode
   report the same header on the same bytes *)
Lemma decode_a_hdr o md g data t a : decode_a o md g data t = TDone a -> ar_hdr a = snd (fst (fst (hdr_a data t))).
Proof.
  unfold decode_a. destruct (hdr_a data t) as [[[e h] crc] used]. cbn [fst snd].
  destruct e as [e|]; [intros [= <-]; reflexivity|]. intros H. exact (proj1 (body_a_used _ _ _ _ _ _ _ _ _ H)).
Qed.

Theorem header_agree o1 o2 md1 md2 g1 g2 rd1 rd2 fuel1 fuel2 r1 r2 : wf rd1 fuel1 -> wf rd2 fuel2 ->
  rd_data rd1 = rd_data rd2 -> rd_term rd1 = rd_term rd2 ->
  decode o1 md1 g1 rd1 fuel1 = TDone r1 -> decode o2 md2 g2 rd2 fuel2 = TDone r2 ->
  dr_hdr r1 = dr_hdr r2.
Proof.
  intros _ _ Hd Ht D1 D2.
  destruct (decode_done_a _ _ _ _ _ _ D1) as (a1 & E1 & M1). destruct (decode_done_a _ _ _ _ _ _ D2) as (a2 & E2 & M2).
  rewrite (mt_hdr _ _ _ M1), (mt_hdr _ _ _ M2). rewrite Hd, Ht in E1.
  rewrite (decode_a_hdr _ _ _ _ _ _ E1), (decode_a_hdr _ _ _ _ _ _ E2). reflexivity.
Qed.

(* a 12-byte header (the size without header checksum) announcing no data; the two bytes of the file checksum
   that would complete the file are not included *)
Definition tiny_file : list N := [12; 16; 100; 0; 0; 0; 0; 0; 46; 70; 73; 84]%N.

(* DecodeChained does not depend on the chunk schedule either *)
Corollary chained_schedule_independent o g data t sched1 sched2 ewd1 ewd2 pos1 pos2 fuel1 fuel2 :
  length data + length sched1 < fuel1 -> length data + length sched2 < fuel2 ->
  match entry_DecodeChained o g (mk_reader data sched1 t ewd1 pos1) fuel1,
        entry_DecodeChained o g (mk_reader data sched2 t ewd2 pos2) fuel2 with
  | TDone c1, TDone c2 => cr_err c1 = cr_err c2 /\ cr_files c1 = cr_files c2 /\ cr_g c1 = cr_g c2 /\ cr_quirks c1 = cr_quirks c2
  | TPanic w1, TPanic w2 => w1 = w2
  | TOutOfFuel, TOutOfFuel => True
  | _, _ => False
  end.
Proof.
  intros H1 H2. exact (decode_chained_sched o _ g (mk_reader data sched1 t ewd1 pos1) (mk_reader data sched2 t ewd2 pos2) fuel1 fuel2 0 [] [] eq_refl eq_refl H1 H2).
Qed.
