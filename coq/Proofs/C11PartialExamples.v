(* A concrete instance for the theorems of C11Partial.v: the in-domain stream of StreamDenoteWitness.v framed by
   ok_hdr (StreamDenoteDecode.v).  Their hypotheses hold of it ([ex_domain]); the conclusions are recomputed by
   vm_compute, offset by offset, in the Examples at the end of Props/C11.v and in [ex_partial_counts]. *)
From Coq Require Import NArith ZArith List Bool Lia Arith.
From FitV Require Import Model.Values Model.Bytes Model.Crc Model.IO Model.Header Model.Route Model.Components Model.Decode
  Spec.FitSyntax Spec.RouteSpec Gen.Consts Proofs.IOSim
  Proofs.StreamDenoteDefs Proofs.StreamDenoteLift Proofs.StreamDenoteMain Proofs.StreamDenoteFrame Proofs.StreamDenoteDecode
  Proofs.StreamDenoteWitness Proofs.C10IO Proofs.C10Frame Proofs.C11Cut Proofs.C11Partial.
Import ListNotations.
Local Open Scope N_scope.

(* the hypotheses shared by C11_partial_files, C11_partial_files_cut_in_crc and fileid_agree hold for ok_hdr / ok_stream *)
Lemma ex_domain :
  header_wf ok_hdr /\ h_dsize ok_hdr = N.of_nat (List.length (ser_records ok_stream)) /\
  starts_with_file_id ok_stream = true /\ stream_wf ok_stream = true /\
  exists ss f2 g1, denote ok_stream = Some ss /\ start_file ok_hdr g_init (hd dummy_msg (ss_msgs ss)) = Some (f2, g1) /\
                   no_file_id (List.tl (ss_msgs ss)) = true /\ (3 <= List.length (ss_msgs ss))%nat.
Proof.
  destruct Decode_denote_example as (H1 & H2 & H3 & H4 & (ss & f2 & g1 & H5 & H6) & _).
  split; [exact H1|]. split; [exact H2|]. split; [exact H3|]. split; [exact H4|].
  exists ss, f2, g1. split; [exact H5|]. split; [exact H6|].
  revert H5. vm_compute. intros E. injection E as <-. split; [reflexivity|lia].
Qed.

Definition is_io_error_with_file (x : tout dres) : bool :=
  match x with
  | TDone r => match dr_err r, dr_file r with Some (EIO _), Some _ => true | _, _ => false end
  | _ => false
  end.

(* the number of messages in the partial File beside the FileId slot: none at offset 5, inside the file_id
   records, and at offset 52 no fewer than at offset 40 *)
Definition count_msgs (x : tout dres) : nat :=
  match x with
  | TDone r => match dr_file r with Some f => List.length (concat (List.tl (f_slots f))) | None => 0%nat end
  | _ => 0%nat
  end.
Lemma ex_partial_counts :
  count_msgs (entry_Decode no_opts g_init (mk_reader (hdr_bytes ok_hdr ++ firstn 5 (ser_records ok_stream)) [] TEOF false 0) 200) = 0%nat /\
  (count_msgs (entry_Decode no_opts g_init (mk_reader (hdr_bytes ok_hdr ++ firstn 40 (ser_records ok_stream)) [] TEOF false 0) 200)
   <= count_msgs (entry_Decode no_opts g_init (mk_reader (hdr_bytes ok_hdr ++ firstn 52 (ser_records ok_stream)) [] TEOF false 0) 200))%nat.
Proof. split; vm_compute; [reflexivity|lia]. Qed.
