(* C10 -- Framing: a decode consumes exactly one file, so chained files are independent.
   Full statement (properties.jsonl): a successful Decode or CheckIntegrity consumes exactly header size + data
   size + 2 bytes from the reader, and no entry point ever reads past that frame, however reads are chunked; hence
   DecodeChained over a concatenation of valid files returns one File per input, each equal to decoding that file
   alone, and DecodeHeader and DecodeHeaderAndFileID return the same header and file_id that Decode reports.

   Model: Model/IO.v (reader oracle: data, chunk schedule with empty reads, EOF or fault, data-with-EOF; io.ReadFull,
   io.CopyN; the 4096-byte buffer with fill capped by limit - n) and Model/Decode.v (decodeHeader, checkCRC, decode in
   its four modes, the five entry points, DecodeChained).  [wf rd fuel] = the fuel exceeds data + schedule length
   (fuel only bounds the loops; no theorem below depends on its value, and none runs out of it).
   [solo bs] = a reader holding exactly bs that returns everything in one Read and then a clean EOF. *)
From Coq Require Import NArith List Bool Arith.
From FitV Require Import Model.Values Model.Crc Model.IO Model.Header Model.Route Model.Components Model.Decode
  Spec.FitSyntax Spec.RouteSpec Gen.Consts
  Proofs.IOSim Proofs.C10IO Proofs.C10Frame Proofs.C11Cut Proofs.C10Examples
  Proofs.StreamDenoteDefs Proofs.StreamDenoteLift Proofs.StreamDenoteMain Proofs.StreamDenoteFrame Proofs.StreamDenoteDecode
  Proofs.StreamDenoteWitness Proofs.C11Partial Proofs.C11PartialExamples.
Import ListNotations.

(* however reads are chunked, the buffered phase computes what the abstract byte-list semantics computes *)
Theorem C10_buffered_run_abstract : forall S E A (p : prog S E A) rd limit crc fuel s,
  length (rd_data rd) + length (rd_sched rd) < fuel ->
  observe (run_c p (start_c rd limit crc fuel) s) = observe (run_a p (start_a rd limit) s).
Proof. exact @buffered_run_abstract. Qed.
Print Assumptions C10_buffered_run_abstract.

Theorem C10_schedule_independent : forall S E A (p : prog S E A) data t sched1 sched2 ewd1 ewd2 pos1 pos2 limit crc fuel1 fuel2 s,
  length data + length sched1 < fuel1 -> length data + length sched2 < fuel2 ->
  observe (run_c p (start_c (mk_reader data sched1 t ewd1 pos1) limit crc fuel1) s) =
  observe (run_c p (start_c (mk_reader data sched2 t ewd2 pos2) limit crc fuel2) s).
Proof.
  intros S E A p data t sched1 sched2 ewd1 ewd2 pos1 pos2 limit crc fuel1 fuel2 s H1 H2.
  rewrite !buffered_run_abstract by (cbn; assumption). reflexivity.
Qed.

(* no program ever reads past the frame: at most [limit] bytes after the header, however it ends; the bytes read
   are accounted for exactly (consumed + buffered), and the checksum register covers exactly the bytes read *)
Theorem C10_never_past_frame : forall S E A (p : prog S E A) rd limit crc fuel s,
  length (rd_data rd) + length (rd_sched rd) < fuel ->
  match run_c p (start_c rd limit crc fuel) s with
  | ROk _ c' _ | RFail _ c' _ => rd_pos (c_rd c') <= rd_pos rd + limit /\
                                 rd_pos (c_rd c') = rd_pos rd + c_n c' + length (c_buf c') /\
                                 c_crc c' = crc_write crc (firstn (c_n c' + length (c_buf c')) (rd_data rd))
  | RIOErr e c' _ => rd_pos (c_rd c') = rd_pos rd + Nat.min limit (length (rd_data rd)) /\
                     e = err_of limit (rd_data rd) (rd_term rd)
  | _ => True
  end.
Proof. exact @never_past_frame. Qed.
Print Assumptions C10_never_past_frame.

(* the raw stages: io.ReadFull (header, checksum bytes) and io.CopyN (CheckIntegrity) *)
(* with enough fuel they return, deliver the first n bytes of the data (all of it, with the error class of the
   terminal condition, when fewer are left), and advance the reader by exactly that, whatever the schedule *)
Theorem C10_io_read_full_spec : forall fuel rd n, wf rd fuel ->
  exists rd', io_read_full fuel rd n [] = Done (firstn n (rd_data rd), rf_err n (rd_data rd) (rd_term rd), rd') /\ adv rd rd' n.
Proof.
  intros fuel rd n Hwf. pose proof (io_read_full_spec fuel rd n) as H.
  destruct (io_read_full fuel rd n []) as [[[bs e] rd']|]; [|contradiction]. destruct H as (-> & -> & H). eauto.
Qed.

Theorem C10_io_copy_n_spec : forall fuel rd n, wf rd fuel ->
  exists rd', io_copy_n fuel rd n [] = Done (firstn n (rd_data rd), cp_err n (rd_data rd) (rd_term rd), rd') /\ adv rd rd' n.
Proof.
  intros fuel rd n Hwf. pose proof (io_copy_n_spec fuel rd n) as H.
  destruct (io_copy_n fuel rd n []) as [[[bs e] rd']|]; [|contradiction]. destruct H as (-> & -> & H). eauto.
Qed.
Print Assumptions C10_io_read_full_spec.

(* consumed_exact: a successful Decode / CheckIntegrity takes exactly header size + data size + 2 bytes *)
Theorem C10_consumed_exact : forall o md g rd fuel r, wf rd fuel -> md = MFull \/ md = MCrcOnly ->
  decode o md g rd fuel = TDone r -> dr_err r = None ->
  rd_pos (dr_rd r) = rd_pos rd + N.to_nat (h_size (dr_hdr r)) + N.to_nat (h_dsize (dr_hdr r)) + 2.
Proof. intros o md g rd fuel r _. apply decode_consumed_exact. Qed.
Print Assumptions C10_consumed_exact.

Theorem C10_Decode_consumed_exact : forall o g rd fuel r, wf rd fuel -> entry_Decode o g rd fuel = TDone r -> dr_err r = None ->
  rd_pos (dr_rd r) = rd_pos rd + N.to_nat (h_size (dr_hdr r)) + N.to_nat (h_dsize (dr_hdr r)) + 2.
Proof. intros o g rd fuel r _ D E. exact (decode_consumed_exact o MFull g rd fuel r (or_introl eq_refl) D E). Qed.

Theorem C10_CheckIntegrity_consumed_exact : forall g rd fuel r, wf rd fuel ->
  entry_CheckIntegrity false g rd fuel = TDone r -> dr_err r = None ->
  rd_pos (dr_rd r) = rd_pos rd + N.to_nat (h_size (dr_hdr r)) + N.to_nat (h_dsize (dr_hdr r)) + 2.
Proof. intros g rd fuel r _ D E. exact (decode_consumed_exact no_opts MCrcOnly g rd fuel r (or_intror eq_refl) D E). Qed.

Theorem C10_DecodeHeader_consumed_exact : forall g rd fuel r, wf rd fuel -> entry_DecodeHeader g rd fuel = TDone r -> dr_err r = None ->
  rd_pos (dr_rd r) = rd_pos rd + N.to_nat (h_size (dr_hdr r)).
Proof. intros g rd fuel r _ D E. exact (decode_header_only_exact no_opts g rd fuel r D E). Qed.

(* never past the frame, for every mode (all five entry points are instances of decode) and every outcome,
   failing ones included: the reader ends no further than the frame the header announces (no further than the
   header for the header-only mode; Nat.max 1 accounts for the size byte itself when it is not a header size);
   it is never rewound; the call never runs out of fuel *)
Theorem C10_decode_never_past_frame : forall o md g rd fuel, wf rd fuel ->
  match decode o md g rd fuel with
  | TDone r =>
      rd_pos rd <= rd_pos (dr_rd r) /\
      rd_pos (dr_rd r) <= rd_pos rd + length (rd_data rd) /\
      rd_pos (dr_rd r) <= rd_pos rd + Nat.max 1 (N.to_nat (h_size (dr_hdr r))) + N.to_nat (h_dsize (dr_hdr r)) + 2 /\
      (md = MHeaderOnly -> rd_pos (dr_rd r) <= rd_pos rd + Nat.max 1 (N.to_nat (h_size (dr_hdr r)))) /\
      wf (dr_rd r) fuel /\ rd_term (dr_rd r) = rd_term rd /\ rd_ewd (dr_rd r) = rd_ewd rd
  | TPanic _ => True
  | TOutOfFuel => False
  end.
Proof. exact decode_never_past_frame. Qed.
Print Assumptions C10_decode_never_past_frame.

(* schedule independence of the whole decode: error, header, File, accumulator state and quirk tags never depend
   on the chunking; bytes consumed and bytes left agree whenever the call succeeds outside the file_id-only mode
   (in that mode, and after a decoder-level failure, how far the 4096-byte buffer read ahead inside the frame
   does depend on the chunking: that is what the code does, and why only "never past the frame" is claimed there) *)
Theorem C10_decode_schedule_independent : forall o md g data t sched1 sched2 ewd1 ewd2 pos1 pos2 fuel1 fuel2,
  length data + length sched1 < fuel1 -> length data + length sched2 < fuel2 ->
  same_result pos1 pos2 md (decode o md g (mk_reader data sched1 t ewd1 pos1) fuel1)
                           (decode o md g (mk_reader data sched2 t ewd2 pos2) fuel2).
Proof. exact decode_schedule_independent. Qed.
Print Assumptions C10_decode_schedule_independent.

Theorem C10_chained_schedule_independent : forall o g data t sched1 sched2 ewd1 ewd2 pos1 pos2 fuel1 fuel2,
  length data + length sched1 < fuel1 -> length data + length sched2 < fuel2 ->
  match entry_DecodeChained o g (mk_reader data sched1 t ewd1 pos1) fuel1,
        entry_DecodeChained o g (mk_reader data sched2 t ewd2 pos2) fuel2 with
  | TDone c1, TDone c2 => cr_err c1 = cr_err c2 /\ cr_files c1 = cr_files c2 /\ cr_g c1 = cr_g c2 /\ cr_quirks c1 = cr_quirks c2
  | TPanic w1, TPanic w2 => w1 = w2
  | TOutOfFuel, TOutOfFuel => True
  | _, _ => False
  end.
Proof. exact chained_schedule_independent. Qed.

(* frame locality: what follows a file that decodes alone (and whatever the reader answers after it) is never
   looked at: same results, exactly |bs| bytes taken, the rest left in the reader *)
Theorem C10_frame_local : forall o md g bs r, md <> MFileIdOnly ->
  decode o md g (solo bs) (solo_fuel bs) = TDone r -> dr_err r = None -> rd_data (dr_rd r) = [] ->
  forall tl rd fuel, rd_data rd = bs ++ tl -> wf rd fuel ->
  exists r', decode o md g rd fuel = TDone r' /\ dr_err r' = None /\ dr_hdr r' = dr_hdr r /\ dr_file r' = dr_file r /\
             dr_g r' = dr_g r /\ dr_quirks r' = dr_quirks r /\
             rd_pos (dr_rd r') = rd_pos rd + length bs /\ rd_data (dr_rd r') = tl.
Proof. exact decode_frame_local. Qed.
Print Assumptions C10_frame_local.

(* chained_concat.  [chain_ok o g bss fs g' q] (Proofs/C10Frame.v) says: decoding the byte strings bss one after the
   other, each ALONE, succeeds on each and consumes each completely, where the first decode starts in the package-
   level accumulator state g, every decode starts in the state the previous one left (exactly what happens to the
   process-wide accumulators of the library), the Files returned are fs, the final state is g'.  Then DecodeChained
   on ANY reader holding the concatenation (any chunking, empty reads, data-with-EOF) returns exactly fs, no error,
   ends in g' and has consumed the whole concatenation. *)
Theorem C10_chained_concat : forall o g bss fs g' q, chain_ok o g bss fs g' q -> bss <> [] ->
  forall rd fuel, rd_data rd = concat bss -> rd_term rd = TEOF -> wf rd fuel ->
  exists cr, entry_DecodeChained o g rd fuel = TDone cr /\ cr_err cr = None /\ cr_files cr = fs /\ cr_g cr = g' /\
             cr_quirks cr = q /\ rd_pos (cr_rd cr) = rd_pos rd + length (concat bss).
Proof. exact chained_concat. Qed.
Print Assumptions C10_chained_concat.

(* header agreement: every mode (DecodeHeader, DecodeHeaderAndFileID, CheckIntegrity, Decode), under any options,
   accumulator state and chunking, reports the same header for the same bytes *)
Theorem C10_header_agree : forall o1 o2 md1 md2 g1 g2 rd1 rd2 fuel1 fuel2 r1 r2, wf rd1 fuel1 -> wf rd2 fuel2 ->
  rd_data rd1 = rd_data rd2 -> rd_term rd1 = rd_term rd2 ->
  decode o1 md1 g1 rd1 fuel1 = TDone r1 -> decode o2 md2 g2 rd2 fuel2 = TDone r2 ->
  dr_hdr r1 = dr_hdr r2.
Proof. exact header_agree. Qed.
Print Assumptions C10_header_agree.

(* the hypotheses are satisfiable: a concrete 25-byte file decodes alone; two of them form a chain; the chained decode
   of their concatenation read one byte at a time returns two Files after 50 bytes *)
Example C10_example_file : exists r, decode no_opts MFull g_init (solo ex_file) (solo_fuel ex_file) = TDone r /\
  dr_err r = None /\ rd_data (dr_rd r) = [] /\ rd_pos (dr_rd r) = 25 /\ dr_g r = g_init.
Proof. exact ex_file_decodes. Qed.
Example C10_example_chain : exists fs q, chain_ok no_opts g_init [ex_file; ex_file] fs g_init q /\ length fs = 2.
Proof.
  eexists. eexists. split.
  - eapply chain_cons; [vm_compute; reflexivity|reflexivity|reflexivity|reflexivity|].
    eapply chain_cons; [vm_compute; reflexivity|reflexivity|reflexivity|reflexivity|].
    cbn [dr_g]. apply chain_nil.
  - reflexivity.
Qed.
(* the chained decode of the concatenation, read one byte at a time, with the last byte delivered together with EOF *)
Example C10_example_chained : exists cr,
  entry_DecodeChained no_opts g_init (mk_reader (ex_file ++ ex_file) (repeat 1 50) TEOF true 0) 120 = TDone cr /\
  cr_err cr = None /\ length (cr_files cr) = 2 /\ rd_pos (cr_rd cr) = 50.
Proof. eexists. split; [vm_compute; reflexivity|]. repeat split. Qed.

(* fileid_agree.  The domain is that of Decode_denote (Proofs/StreamDenoteDecode.v): a well-formed header h announcing
   exactly the bytes of the record list rs, rs serialisable (stream_wf), beginning with the file_id definition and its
   data record, accepted by the reference semantics (denote rs = Some ss1), of a file type with a container
   (start_file).  Side condition [no_file_id (tl (ss_msgs ss1))]: the only file_id message of the stream is the leading
   one.  Then DecodeHeaderAndFileID and Decode, each through any reader (any chunking, anything after the file), both
   succeed, report the header h, and the FileId slot (slot 0 of the File) holds the same message. *)
Theorem C10_fileid_agree : forall o g rdD fuelD rdF fuelF h rs ss1 f2 g1 extraD extraF,
  header_wf h -> h_dsize h = N.of_nat (List.length (ser_records rs)) ->
  starts_with_file_id rs = true -> stream_wf rs = true -> denote rs = Some ss1 ->
  start_file h g (hd dummy_msg (ss_msgs ss1)) = Some (f2, g1) ->
  no_file_id (List.tl (ss_msgs ss1)) = true ->
  rd_data rdD = fit_file h rs ++ extraD -> wf rdD fuelD ->
  rd_data rdF = fit_file h rs ++ extraF -> wf rdF fuelF ->
  exists rD rF fD fF,
    entry_Decode o g rdD fuelD = TDone rD /\ entry_DecodeHeaderAndFileID g rdF fuelF = TDone rF /\
    dr_err rD = None /\ dr_err rF = None /\ dr_hdr rD = h /\ dr_hdr rF = h /\
    dr_file rD = Some fD /\ dr_file rF = Some fF /\
    nth 0 (f_slots fF) [] = nth 0 (f_slots fD) [] /\ f_header fF = f_header fD.
Proof. exact fileid_agree. Qed.
Print Assumptions C10_fileid_agree.

(* the side condition is necessary: with a second file_id data record (type 4, then type 2) both calls succeed,
   DecodeHeaderAndFileID reports the first file_id message and Decode the last one (File.add overwrites the FileId
   field: the finding recorded under C03) *)
Theorem C10_fileid_agree_refuted_without_side_condition :
  exists m1 m2, slot0_of (entry_DecodeHeaderAndFileID g_init (solo two_fid_file) (solo_fuel two_fid_file)) = Some [m1] /\
                slot0_of (entry_Decode no_opts g_init (solo two_fid_file) (solo_fuel two_fid_file)) = Some [m2] /\
                m1 <> m2.
Proof.
  eexists. eexists. split; [vm_compute; reflexivity|]. split; [vm_compute; reflexivity|]. discriminate.
Qed.

(* the domain and the side condition are satisfiable (a stream with three messages, one file_id) *)
Example C10_example_fileid_domain :
  header_wf ok_hdr /\ h_dsize ok_hdr = N.of_nat (List.length (ser_records ok_stream)) /\
  starts_with_file_id ok_stream = true /\ stream_wf ok_stream = true /\
  exists ss f2 g1, denote ok_stream = Some ss /\ start_file ok_hdr g_init (hd dummy_msg (ss_msgs ss)) = Some (f2, g1) /\
                   no_file_id (List.tl (ss_msgs ss)) = true /\ (3 <= List.length (ss_msgs ss))%nat.
Proof. exact ex_domain. Qed.

(* Outside Coq: the theorems speak about the model; that reader.go/header.go behave as the model is established by
   the lock-step correspondence run (bytes consumed from a counting reader, Files, header, error class) on every
   input x partition x entry point of the harness.  The reserved-bits and container side conditions of the
   Decode_denote domain are explained in docs/notes-C02-stream.md. *)
