(* The encoder model (Model/Encode.v), from the inside out: the numbers its writers put on the wire, as the
   recogniser (Spec/Grammar.v) reads them back; every writer, up to encode_slots, produces bytes or fails
   (ok_bytes); the fields a definition carries are profile entries of its message (from_profile,
   def_fields_cases, collect_fields_Forall), and what the proofs read off such an entry is evaluated once
   (msg_ok0); what Encode returns is the framed stream and the File with the
   sizes and CRCs written back (encode_layout), hence the framing the grammar demands (encode_framing, C05). *)
From Coq Require Import NArith ZArith List Bool Lia String.
From Coq Require Import ZifyN ZifyNat ZifyBool.
From FitV Require Proofs.ProfileProofs Proofs.EncExamples.
From FitV Require Import Model.Values Model.Bytes Model.Base Model.Profile Model.Crc Model.Header
  Model.Route Model.Encode Spec.CrcSpec Spec.FitSyntax Spec.Grammar Spec.EncLayout
  Proofs.Util Proofs.BytesUtil Proofs.CrcProofs Gen.Consts Gen.ProfileData.
Import ListNotations.
Local Open Scope N_scope.
Ltac Zify.zify_post_hook ::= Z.div_mod_to_equations.

Lemma le_bytes_length n : forall x, List.length (le_bytes n x) = n.
Proof. induction n as [|n IH]; intros x; simpl; [reflexivity|now rewrite IH]. Qed.

Lemma put_int_length be n x : List.length (put_int be n x) = n.
Proof. unfold put_int. destruct be; [rewrite rev_length|]; apply le_bytes_length. Qed.

Lemma le_bytes_bytes n : forall x, is_bytes (le_bytes n x).
Proof.
  induction n as [|n IH]; intros x; simpl; constructor.
  - apply N.mod_lt. discriminate.
  - apply IH.
Qed.

Lemma put_int_bytes be n x : is_bytes (put_int be n x).
Proof. unfold put_int. destruct be; [apply Forall_rev|]; apply le_bytes_bytes. Qed.

(* the number the recogniser reads off the bytes of put_int: its le_num (Spec/Grammar.v) is the model's le_val, the
   same fixpoint under another name, so what is proved of one applies to the other as it stands *)
Lemma le_val_le_bytes n : forall x, le_val (le_bytes n x) = x mod 256 ^ N.of_nat n.
Proof.
  induction n as [|n IH]; intros x.
  - cbn [le_bytes le_val N.of_nat]. now rewrite N.pow_0_r, N.mod_1_r.
  - cbn [le_bytes le_val]. rewrite IH, Nat2N.inj_succ, N.pow_succ_r'.
    rewrite N.mod_mul_r; [reflexivity|discriminate|apply N.pow_nonzero; discriminate].
Qed.

Lemma num_of_put_int be n x : num_of be (put_int be n x) = x mod 256 ^ N.of_nat n.
Proof.
  unfold num_of, put_int, be_num. destruct be; [rewrite rev_involutive|]; apply le_val_le_bytes.
Qed.

Lemma num_of_put_int_small be n x : x < 256 ^ N.of_nat n -> num_of be (put_int be n x) = x.
Proof. intros H. rewrite num_of_put_int. now apply N.mod_small. Qed.

Lemma le_num_put_le16 x : x < 65536 -> le_num (put_le16 x) = x.
Proof. exact (num_of_put_int_small false 2 x). Qed.

Lemma le_num_put_le32 x : x < 4294967296 -> le_num (put_le32 x) = x.
Proof.
  intros H. replace (put_le32 x) with (le_bytes 4 x); [exact (num_of_put_int_small false 4 x H)|].
  unfold put_le32. cbn [le_bytes]. rewrite !N.div_div by discriminate. reflexivity.
Qed.

Lemma ebind_ok {A B} (r : eres A) (f : A -> eres B) b :
  ebind r f = EOk b -> exists a, r = EOk a /\ f a = EOk b.
Proof. destruct r; simpl; intros H; try discriminate. eauto. Qed.

(* errors and panics satisfy it by [easy] *)
Definition ok_bytes (r : eres (list N)) : Prop := forall a, r = EOk a -> is_bytes a.

Lemma ok_bytes_ret a : is_bytes a -> ok_bytes (EOk a).
Proof. intros H b Hb. now inversion Hb; subst. Qed.

Lemma ok_bytes_bind {A} (r : eres A) f : (forall x, r = EOk x -> ok_bytes (f x)) -> ok_bytes (ebind r f).
Proof. intros H b Hb. apply ebind_ok in Hb as (x & Hx & Hb). exact (H x Hx b Hb). Qed.

Lemma econcat_ok_bytes l : Forall ok_bytes l -> ok_bytes (econcat l).
Proof.
  induction 1 as [|r l Hr Hl IH]; cbn [econcat]; [apply ok_bytes_ret; constructor|].
  apply ok_bytes_bind. intros x Hx. apply ok_bytes_bind. intros y Hy.
  apply ok_bytes_ret, is_bytes_app; [now apply Hr|now apply IH].
Qed.

(* an induction principle for goval that reaches the elements of VList *)
Fixpoint goval_ind2 (P : goval -> Prop)
  (HU : forall n, P (VU n)) (HI : forall z, P (VI z)) (HF : forall n, P (VF n)) (HS : forall s, P (VStr s))
  (HT : forall s n z, P (VTime s n z)) (HLa : forall z, P (VLat z)) (HLo : forall z, P (VLng z)) (HN : P VNil)
  (HL : forall l, Forall P l -> P (VList l)) (HO : P VOther) (v : goval) {struct v} : P v :=
  match v with
  | VU n => HU n | VI z => HI z | VF n => HF n | VStr s => HS s | VTime s n z => HT s n z
  | VLat z => HLa z | VLng z => HLo z | VNil => HN | VOther => HO
  | VList l =>
      HL l ((fix go (l : list goval) : Forall P l :=
               match l with
               | [] => Forall_nil P
               | x :: r => Forall_cons x (goval_ind2 P HU HI HF HS HT HLa HLo HN HL HO x) (go r)
               end) l)
  end.

Lemma bw_slice be t l : bw be (TSlice t) (VList l) = econcat (map (bw be t) l).
Proof. induction l as [|x r IH]; [reflexivity|]. cbn [map econcat]. rewrite <- IH. reflexivity. Qed.

Lemma bw_bytes be : forall v ty, ok_bytes (bw be ty v).
Proof.
  induction v using goval_ind2; intros ty; destruct ty; try easy; try (apply ok_bytes_ret, put_int_bytes).
  - apply ok_bytes_ret. constructor.
  - rewrite bw_slice. apply econcat_ok_bytes, Forall_map. eapply Forall_impl; [|eassumption]. intros x Hx. apply Hx.
Qed.

Lemma utf8_fuel_bytes : forall fuel s, utf8_valid_fuel fuel s = true -> is_bytes s.
Proof.
  induction fuel as [|f IH]; intros s H; simpl in H.
  - destruct s; [constructor|discriminate].
  - destruct s as [|b r]; [constructor|].
    unfold in_rng, cont in H.
    destruct (b <? 128) eqn:E1.
    { constructor; [apply N.ltb_lt in E1; lia|now apply IH]. }
    (* in each case H is the range checks on the continuation bytes, which lia reads, and the recursive call *)
    destruct ((194 <=? b) && (b <=? 223)) eqn:E2.
    { destruct r as [|c1 r']; [discriminate|]. apply andb_true_iff in H as [H Hr].
      constructor; [lia|]. constructor; [lia|now apply IH]. }
    destruct ((224 <=? b) && (b <=? 239)) eqn:E3.
    { destruct r as [|c1 [|c2 r']]; try discriminate. apply andb_true_iff in H as [H Hr].
      constructor; [lia|]. constructor.
      { destruct (b =? 224); [lia|]. destruct (b =? 237); lia. }
      constructor; [lia|now apply IH]. }
    destruct ((240 <=? b) && (b <=? 244)) eqn:E4; [|discriminate].
    destruct r as [|c1 [|c2 [|c3 r']]]; try discriminate. apply andb_true_iff in H as [H Hr].
    constructor; [lia|]. constructor.
    { destruct (b =? 240); [lia|]. destruct (b =? 244); lia. }
    constructor; [lia|]. constructor; [lia|now apply IH].
Qed.

Lemma encode_string_bytes s size : ok_bytes (encode_string s size).
Proof.
  unfold encode_string. destruct (size =? 0); [easy|].
  destruct (utf8_valid _) eqn:E; [|easy]. apply ok_bytes_ret. eapply utf8_fuel_bytes. exact E.
Qed.

Lemma encode_value_bytes be pf ty v : ok_bytes (encode_value be pf ty v).
Proof.
  unfold encode_value.
  repeat match goal with
         | |- ok_bytes (if ?c then _ else _) => destruct c
         | |- ok_bytes (match ?v with _ => _ end) => destruct v
         end; try easy; try (apply ok_bytes_ret, put_int_bytes).
  - apply encode_string_bytes.
  - apply bw_bytes.
Qed.

Lemma write_field_bytes be pf ty v : ok_bytes (write_field be pf ty v).
Proof.
  unfold write_field.
  destruct (negb (fit_array (pf_t pf))); [apply encode_value_bytes|].
  destruct (fit_base (pf_t pf) =? base_string); [easy|].
  destruct (b_known _) as [kn|]; [|easy].
  destruct (match v with VList l => Some l | VNil => Some [] | _ => None end) as [l|]; [|easy].
  apply econcat_ok_bytes, Forall_app. split.
  - apply Forall_map_all. intros x. apply encode_value_bytes.
  - destruct (N.to_nat _) as [|k]; [constructor|].
    destruct (negb kn); [repeat constructor; easy|].
    destruct (b_invalid _); [destruct (invalid_type _)|]; try (repeat constructor; easy).
    apply Forall_repeat, encode_value_bytes.
Qed.

Lemma write_mesg_bytes be m fields : ok_bytes (write_mesg be m fields).
Proof.
  unfold write_mesg. apply ok_bytes_bind. intros body Hb. apply ok_bytes_ret. constructor; [reflexivity|].
  eapply econcat_ok_bytes; [|exact Hb]. apply Forall_map_all. intros pf.
  destruct (nth_error _ _); [|easy]. destruct (field_type _ _); [|easy]. apply write_field_bytes.
Qed.

Lemma by_sindex_in gmn i pf :
  get_field_by_sindex gmn i = Some pf -> exists m e, In m messages /\ In e (md_entries m) /\ snd e = pf /\ find_msg gmn = Some m.
Proof.
  unfold get_field_by_sindex. destruct (find_msg gmn) as [m|] eqn:Em; [|discriminate].
  pose proof (proj1 (ProfileProofs.find_msg_in _ _ Em)) as Hm.
  destruct (find _ (md_entries m)) as [e|] eqn:E1.
  - intros [= <-]. apply find_some in E1 as [Hin _]. exists m, e. auto.
  - destruct (find (fun e => fst e =? 255) (md_entries m)) as [e|] eqn:E2; [|discriminate].
    intros [= <-]. apply find_some in E2 as [Hin _]. exists m, e. auto.
Qed.

(* every field a definition carries was returned by getFieldBySindex for the message type *)
Definition from_profile (gmn : N) (pf : pfield) : Prop := exists i, get_field_by_sindex gmn i = Some pf.

(* the loop of getEncodeMesgDef at struct field i: the lists end, or the field is unset and skipped,
   or the profile entry that owns it is taken *)
Lemma def_fields_cases gmn (P : nat -> list goval -> list goval -> list pfield -> Prop) :
  (forall i vals invs, vals = [] \/ invs = [] -> P i vals invs []) ->
  (forall i v vr iv ir fs, unset v iv = true -> P (S i) vr ir fs -> P i (v :: vr) (iv :: ir) fs) ->
  (forall i v vr iv ir pf fs, get_field_by_sindex gmn i = Some pf -> P (S i) vr ir fs -> P i (v :: vr) (iv :: ir) (pf :: fs)) ->
  forall vals invs i fs, def_fields gmn i vals invs = EOk fs -> P i vals invs fs.
Proof.
  intros Hend Hskip Htake. induction vals as [|v vr IH]; intros invs i fs H; cbn [def_fields] in H.
  - inversion H. apply Hend. now left.
  - destruct invs as [|iv ir]; [inversion H; apply Hend; now right|].
    assert (Hinc : forall fs, match get_field_by_sindex gmn i with
                   | Some pf => ebind (def_fields gmn (S i) vr ir) (fun r => EOk (pf :: r))
                   | None => EPanic 9 end = EOk fs -> P i (v :: vr) (iv :: ir) fs).
    { intros fs0 H0. destruct (get_field_by_sindex gmn i) as [pf|] eqn:E; [|discriminate].
      apply ebind_ok in H0 as (r & Hr & H0). inversion H0; subst. apply Htake; [exact E|now apply IH]. }
    destruct v; try (destruct (goval_eqb _ iv) eqn:Eq; [apply Hskip; [exact Eq|now apply IH]|now apply Hinc]).
    + apply Hskip; [reflexivity|now apply IH].
    + destruct (get_field_by_sindex gmn i) as [pf|] eqn:E; [|discriminate].
      destruct (b_known _); [|discriminate].
      destruct l; [apply Hskip; [reflexivity|now apply IH]|now apply Hinc].
Qed.

Lemma get_def_from m fs : get_encode_mesg_def m = EOk fs -> Forall (from_profile (m_num m)) fs.
Proof.
  unfold get_encode_mesg_def. destruct (mesg_all_invalid _); [|discriminate].
  destruct (negb _); [discriminate|].
  apply (def_fields_cases _ (fun _ _ _ fs => Forall (from_profile (m_num m)) fs)); intros; try constructor; try assumption.
  now exists i.
Qed.

Lemma ins_field_in pf : forall l x, In x (ins_field pf l) -> x = pf \/ In x l.
Proof.
  induction l as [|q r IH]; intros x; cbn [ins_field]; [simpl; intuition|].
  destruct (_ <? _); [|destruct (_ =? _)]; simpl; [intuition..|].
  intros [<-|H]; [|apply IH in H]; intuition.
Qed.

Lemma fold_ins_Forall (P : pfield -> Prop) : forall fs acc, Forall P fs -> Forall P acc ->
  Forall P (fold_left (fun a pf => ins_field pf a) fs acc).
Proof.
  induction fs as [|pf r IH]; intros acc Hf Ha; cbn [fold_left]; [assumption|].
  inversion Hf; subst. apply IH; [assumption|].
  apply Forall_forall. intros x Hx. apply ins_field_in in Hx as [->|Hx]; [assumption|].
  rewrite Forall_forall in Ha. now apply Ha.
Qed.

(* the merged definition of a slice holds nothing but fields of its elements' definitions *)
Lemma collect_fields_Forall (P : pfield -> Prop) : forall ms acc fs,
  Forall (fun m => forall d, get_encode_mesg_def m = EOk d -> Forall P d) ms ->
  Forall P acc -> collect_fields ms acc = EOk fs -> Forall P fs.
Proof.
  (* collect_fields is unfolded in the goal, before H is introduced: unfolded in H, the kernel unfolds ebind first and
     compares two separately reduced copies of get_encode_mesg_def's walk through the profile table *)
  induction ms as [|m r IH]; intros acc fs Hm Ha; cbn [collect_fields]; intros H.
  - inversion H; subst. assumption.
  - apply ebind_ok in H as (d & Hd & H). inversion Hm; subst. eapply IH; [eassumption| |exact H].
    apply fold_ins_Forall; auto.
Qed.

(* What the proofs about Encode need from the profile table beside the checkers that C05 states for itself
   (C05Grammar.msg_ok, C05Wire.msg_ok2), in one evaluation.  Per entry: field number and length are bytes; the base
   type byte is the canonical one; the definition writeDefMesg writes for it is compatible with the profile
   (Spec/FitSyntax.v); an array has a positive length and nil in the all-invalid message, a string "" there;
   coordinates are signed.  Per message: no entry under field number 255 (getFieldBySindex has nothing to fall
   through to) and no non-empty string in the all-invalid message. *)
Definition inv_ok (iv : goval) : bool := match iv with VStr (_ :: _) => false | _ => true end.

Definition entry_ok0 (m : msgdesc) (pf : pfield) : bool :=
  let t := pf_t pf in
  (pf_num pf <? 256) && (pf_length pf <? 256) && (N.land (fit_base t) 0x60 =? 0) && compat (md_num m) (sfdef_of pf) &&
  (if fit_array t then (0 <? pf_length pf) && match nth_error (md_invalid m) (pf_sindex pf) with Some VNil => true | _ => false end
   else if fit_base t =? base_string then
     match nth_error (md_invalid m) (pf_sindex pf) with Some (VStr []) => true | _ => false end
   else true) &&
  (if (fit_kind t =? kind_lat) || (fit_kind t =? kind_lng) then
     match b_signed (fit_base t) with Some true => true | _ => false end
   else true).

Definition msg_ok0 (m : msgdesc) : bool :=
  negb (existsb (fun e => fst e =? 255) (md_entries m)) && forallb inv_ok (md_invalid m) &&
  forallb (fun e => entry_ok0 m (snd e)) (md_entries m).

Lemma profile_msgs_ok0 : forallb msg_ok0 messages = true.
Proof. vm_compute. reflexivity. Qed.

(* entry_ok0, clause by clause *)
Record entry_facts0 (md : msgdesc) (pf : pfield) : Prop := {
  e0_num : pf_num pf < 256;
  e0_len : pf_length pf < 256;
  e0_base : N.land (fit_base (pf_t pf)) 0x60 = 0;
  e0_compat : compat (md_num md) (sfdef_of pf) = true;
  e0_array_pos : fit_array (pf_t pf) = true -> 0 < pf_length pf;
  e0_array_inv : fit_array (pf_t pf) = true -> nth_error (md_invalid md) (pf_sindex pf) = Some VNil;
  e0_string_inv : fit_array (pf_t pf) = false -> (fit_base (pf_t pf) =? base_string) = true ->
    nth_error (md_invalid md) (pf_sindex pf) = Some (VStr []);
  e0_coord : fit_kind (pf_t pf) = kind_lat \/ fit_kind (pf_t pf) = kind_lng -> b_signed (fit_base (pf_t pf)) = Some true }.

Lemma entry_ok0_parts md pf : entry_ok0 md pf = true -> entry_facts0 md pf.
Proof.
  unfold entry_ok0. cbv zeta. rewrite !andb_true_iff, !N.ltb_lt, N.eqb_eq. intros [[[[[Hn Hl] Hk] Hc] Ha] Hs].
  split; try assumption.
  - intros E. rewrite E in Ha. apply andb_true_iff in Ha as [Ha _]. now apply N.ltb_lt.
  - intros E. rewrite E in Ha. apply andb_true_iff in Ha as [_ Ha]. destruct (nth_error _ _) as [[]|]; try discriminate. reflexivity.
  - intros E Es. rewrite E, Es in Ha. destruct (nth_error _ _) as [[| | |[|]| | | | | |]|]; try discriminate. reflexivity.
  - intros K. replace (_ || _) with true in Hs by (destruct K as [-> | ->]; reflexivity).
    destruct (b_signed _) as [[|]|]; try discriminate. reflexivity.
Qed.

Lemma find_msg_ok0 gmn md : find_msg gmn = Some md ->
  (forall e, In e (md_entries md) -> fst e <> 255) /\ forallb inv_ok (md_invalid md) = true /\
  forall e, In e (md_entries md) -> entry_facts0 md (snd e).
Proof.
  intros Ef. pose proof (ProfileProofs.find_msg_checked msg_ok0 gmn md profile_msgs_ok0 Ef) as H. unfold msg_ok0 in H.
  apply andb_true_iff in H as [H He]. apply andb_true_iff in H as [Hno Hinv]. rewrite forallb_forall in He.
  split; [|split; [assumption|intros e Hin; apply entry_ok0_parts, He, Hin]]. intros e Hin E. apply negb_true_iff in Hno. rewrite <- not_true_iff_false in Hno.
  apply Hno, existsb_exists. exists e. split; [exact Hin|now apply N.eqb_eq].
Qed.

Lemma from_profile_ok0 gmn pf : from_profile gmn pf -> exists md, find_msg gmn = Some md /\ entry_facts0 md pf.
Proof.
  intros (i & H). apply by_sindex_in in H as (md & e & _ & He & <- & Ef). exists md. split; [exact Ef|].
  now apply (find_msg_ok0 _ _ Ef).
Qed.

(* in the short names: fp = from_profile, by = get_field_by_sindex (the encoder's lookup), pfs = pfield_of_sindex
   (the specification's), ok0 = entry_ok0 *)
Lemma fp_ok0 gmn md pf : find_msg gmn = Some md -> from_profile gmn pf -> entry_facts0 md pf.
Proof. intros Ef H. destruct (from_profile_ok0 _ _ H) as (md' & Ef' & Hok). rewrite Ef in Ef'. now injection Ef' as <-. Qed.

(* without an entry 255 the two lookups by struct index are the same function *)
Lemma by_pfs gmn i q : get_field_by_sindex gmn i = Some q -> pfield_of_sindex gmn i = Some q.
Proof.
  unfold get_field_by_sindex, pfield_of_sindex. destruct (find_msg gmn) as [md|] eqn:Ef; [|discriminate].
  destruct (find (fun e => Nat.eqb (pf_sindex (snd e)) i) (md_entries md)) as [e|]; [auto|].
  destruct (find (fun e => fst e =? 255) (md_entries md)) as [e|] eqn:E2; [|discriminate].
  intros _. exfalso. apply find_some in E2 as [Hin H255]. apply N.eqb_eq in H255.
  exact (proj1 (find_msg_ok0 _ _ Ef) e Hin H255).
Qed.

Lemma pfs_by gmn i q : pfield_of_sindex gmn i = Some q -> get_field_by_sindex gmn i = Some q /\ pf_sindex q = i.
Proof.
  unfold get_field_by_sindex, pfield_of_sindex. destruct (find_msg gmn) as [md|]; [|discriminate].
  destruct (find (fun e => Nat.eqb (pf_sindex (snd e)) i) (md_entries md)) as [e|] eqn:E1; [|discriminate].
  intros H. inversion H; subst. split; [reflexivity|]. apply find_some in E1 as [_ E1]. now apply Nat.eqb_eq in E1.
Qed.

Lemma pfs_from gmn i q : pfield_of_sindex gmn i = Some q -> from_profile gmn q.
Proof. intros H. apply pfs_by in H as [H _]. now exists i. Qed.

Lemma from_profile_sindex gmn pf : from_profile gmn pf -> pfield_of_sindex gmn (pf_sindex pf) = Some pf.
Proof. intros (i & Hi). apply by_pfs in Hi. pose proof (pfs_by _ _ _ Hi) as [_ E]. now rewrite E. Qed.

Definition pf_bytes (pf : pfield) : Prop := pf_num pf < 256 /\ pf_length pf < 256.

Lemma fdef_bytes_ok pf : pf_bytes pf -> ok_bytes (fdef_bytes pf).
Proof.
  intros [H1 H2]. unfold fdef_bytes. destruct (b_size _) as [bs|]; [|easy]. apply ok_bytes_ret.
  pose proof (ProfileProofs.fit_base_lt (pf_t pf)).
  constructor; [lia|]. constructor.
  { destruct (_ =? base_string); [lia|]. destruct (fit_array _); apply N.mod_lt; discriminate. }
  constructor; [assumption|constructor].
Qed.

Lemma write_def_mesg_bytes be gmn fields : Forall pf_bytes fields -> ok_bytes (write_def_mesg be gmn fields).
Proof.
  intros Hf. unfold write_def_mesg. apply ok_bytes_bind. intros fb Hfb. apply ok_bytes_ret.
  assert (Hb : is_bytes fb).
  { eapply econcat_ok_bytes; [|exact Hfb]. apply Forall_map. eapply Forall_impl; [|exact Hf]. apply fdef_bytes_ok. }
  constructor; [vm_compute; reflexivity|]. constructor; [lia|]. constructor; [destruct be; lia|].
  apply is_bytes_app; [apply put_int_bytes|]. constructor; [apply N.mod_lt; discriminate|assumption].
Qed.

Lemma from_profile_bytes gmn pf : from_profile gmn pf -> pf_bytes pf.
Proof. intros H. destruct (from_profile_ok0 _ _ H) as (md & _ & Hok). exact (conj (e0_num _ _ Hok) (e0_len _ _ Hok)). Qed.

Lemma encode_def_and_data_bytes be m : ok_bytes (encode_def_and_data be m).
Proof.
  unfold encode_def_and_data. apply ok_bytes_bind. intros fs Hfs. apply ok_bytes_bind. intros d Hd.
  apply ok_bytes_bind. intros w Hw. apply ok_bytes_ret, is_bytes_app.
  - eapply write_def_mesg_bytes; [|exact Hd]. eapply Forall_impl; [|exact (get_def_from _ _ Hfs)]. apply from_profile_bytes.
  - eapply write_mesg_bytes; eassumption.
Qed.

Lemma encode_slice_bytes be ms : ok_bytes (encode_slice be ms).
Proof.
  unfold encode_slice. destruct ms as [|m0 mr]; [apply ok_bytes_ret; constructor|].
  apply ok_bytes_bind. intros fs Hfs. apply ok_bytes_bind. intros d Hd. apply ok_bytes_bind. intros b Hb.
  apply ok_bytes_ret, is_bytes_app.
  - eapply write_def_mesg_bytes; [|exact Hd]. eapply collect_fields_Forall; [|constructor|exact Hfs].
    apply Forall_forall. intros m _ fs' Hfs'. eapply Forall_impl; [|exact (get_def_from _ _ Hfs')]. apply from_profile_bytes.
  - eapply econcat_ok_bytes; [|exact Hb]. apply Forall_map_all. intros m. apply write_mesg_bytes.
Qed.

Lemma encode_slot_bytes be multi ms : ok_bytes (encode_slot be multi ms).
Proof.
  unfold encode_slot. destruct multi; [apply encode_slice_bytes|].
  apply econcat_ok_bytes. apply Forall_map_all. intros m. apply encode_def_and_data_bytes.
Qed.

Lemma encode_slots_bytes be : forall descs i slots, ok_bytes (encode_slots be i descs slots).
Proof.
  induction descs as [|[[nm multi] mn] dr IH]; intros i slots; cbn [encode_slots]; [apply ok_bytes_ret; constructor|].
  destruct slots as [|s sr]; [apply ok_bytes_ret; constructor|].
  destruct (Nat.eqb i 3 || Nat.eqb i 4); [apply IH|].
  apply ok_bytes_bind. intros x Hx. apply ok_bytes_bind. intros y Hy.
  apply ok_bytes_ret, is_bytes_app; [eapply encode_slot_bytes; eassumption|eapply IH; eassumption].
Qed.

(* a header as NewHeader makes it *)
Definition wf_header (h : header) : bool :=
  ((h_size h =? 12) || (h_size h =? 14)) && (h_proto h <? 256) && list_eqb (h_dtype h) fit_dtype.

Lemma wf_header_inv h : wf_header h = true ->
  (h_size h = 12 \/ h_size h = 14) /\ h_proto h < 256 /\ h_dtype h = fit_dtype.
Proof.
  unfold wf_header. rewrite !andb_true_iff, orb_true_iff, !N.eqb_eq, N.ltb_lt. intros [[Hsz Hpr] Hdt].
  auto using (proj1 (list_eqb_iff _ _)).
Qed.

Definition hdr12 (sz proto prof dsz : N) : list N :=
  [sz; proto; prof mod 256; (prof / 256) mod 256;
   dsz mod 256; (dsz / 256) mod 256; (dsz / 65536) mod 256; (dsz / 16777216) mod 256; 46; 70; 73; 84].

Lemma hdr12_bytes sz proto prof dsz : sz < 256 -> proto < 256 -> is_bytes (hdr12 sz proto prof dsz).
Proof.
  intros. unfold hdr12. repeat (constructor; [first [assumption | apply N.mod_lt; discriminate | lia]|]). constructor.
Qed.

Lemma header_bytes12_eq h : h_dtype h = fit_dtype ->
  header_bytes12 h = hdr12 (h_size h) (h_proto h) (h_profile h) (h_dsize h).
Proof. intros E. unfold header_bytes12. rewrite E. reflexivity. Qed.

(* a framed stream: the 12 header bytes, [mid] (the header CRC of a 14-byte header, or nothing),
   the record section and the file CRC *)
Definition framed (sz proto prof : N) (mid data : list N) (crc : N) : list N :=
  (hdr12 sz proto prof (N.of_nat (List.length data)) ++ mid) ++ data ++ put_le16 crc.

(* what the recogniser's accessors (Spec/Grammar.v) read off a framed stream, the checksums left abstract *)
Lemma framed_facts sz proto prof hc data crc :
  sz = 12 \/ sz = 14 -> N.of_nat (List.length data) < 4294967296 -> hc < 65536 -> crc < 65536 ->
  let b12 := hdr12 sz proto prof (N.of_nat (List.length data)) in
  let mid := if sz =? 14 then put_le16 hc else [] in
  let bs := framed sz proto prof mid data crc in
  hdrsize bs = sz /\ datasize bs = N.of_nat (List.length data) /\ record_bytes bs = data /\
  firstn 4 (skipn 8 bs) = fit_magic /\ firstn 12 bs = b12 /\
  N.of_nat (List.length bs) = sz + N.of_nat (List.length data) + 2 /\
  filecrc bs = crc /\ firstn (List.length bs - 2) bs = (b12 ++ mid) ++ data /\
  (sz = 14 -> hdrcrc bs = hc).
Proof.
  intros Hsz Hd Hh Hc b12 mid bs. set (dsz := N.of_nat (List.length data)) in *.
  assert (Hds : datasize bs = dsz).
  { unfold datasize, bs, framed, hdr12. cbn [app skipn firstn].
    change (le_num [dsz mod 256; (dsz / 256) mod 256; (dsz / 65536) mod 256; (dsz / 16777216) mod 256]) with (le_num (put_le32 dsz)).
    now apply le_num_put_le32. }
  assert (Hhl : N.to_nat sz = List.length (b12 ++ mid)) by (subst mid; destruct Hsz as [-> | ->]; reflexivity).
  assert (Hpre : bs = ((b12 ++ mid) ++ data) ++ put_le16 crc) by apply app_assoc.
  assert (Hl2 : (List.length bs - 2)%nat = List.length ((b12 ++ mid) ++ data)).
  { rewrite Hpre, (app_length _ (put_le16 crc)). cbn [put_le16 List.length]. lia. }
  repeat split.
  - exact Hds.
  - unfold record_bytes. rewrite Hds. change (hdrsize bs) with sz. rewrite Hhl. unfold bs, framed.
    rewrite skipn_len_app. subst dsz. rewrite Nat2N.id. apply firstn_len_app.
  - rewrite Hpre, (app_length _ (put_le16 crc)), (app_length _ data), <- Hhl. cbn [put_le16 List.length]. lia.
  - unfold filecrc. rewrite Hl2, Hpre, skipn_len_app. now apply le_num_put_le16.
  - rewrite Hl2, Hpre. apply firstn_len_app.
  - intros ->. unfold hdrcrc, bs, mid, framed, hdr12, put_le16 at 1. cbn [N.eqb Pos.eqb app skipn firstn].
    change (le_num [hc mod 256; (hc / 256) mod 256]) with (le_num (put_le16 hc)). now apply le_num_put_le16.
Qed.

Definition enc_data (f : file) (be : bool) : eres (list N) :=
  match ft_entry (file_type f) with
  | Some (true, _, descs) => encode_slots be 0 descs (f_slots f)
  | _ => EErr EEFileType
  end.

(* No cbn/simpl/change may expose [checksum] of an explicit cons list to the kernel conversion (the
   register is used twice per byte: unfolding is exponential); pairs are taken apart by rewriting. *)
Lemma header_marshal_wf sz proto prof dsz dt c : dt = fit_dtype ->
  header_marshal (mk_header sz proto prof dsz dt c) =
  (if sz =? 14 then hdr12 sz proto prof dsz ++ put_le16 (checksum (hdr12 sz proto prof dsz)) else hdr12 sz proto prof dsz,
   checksum (hdr12 sz proto prof dsz)).
Proof.
  intros E. unfold header_marshal. rewrite header_bytes12_eq by exact E. reflexivity.
Qed.

Lemma encode_layout f be bs f' :
  wf_header (f_header f) = true -> encode f be = EOk (bs, f') -> N.of_nat (List.length bs) < 4294967296 ->
  exists data, enc_data f be = EOk data /\ is_bytes data /\ N.of_nat (List.length data) < 4294967296 /\
    let h := f_header f in
    let b12 := hdr12 (h_size h) (h_proto h) (h_profile h) (N.of_nat (List.length data)) in
    let mid := if h_size h =? 14 then put_le16 (checksum b12) else [] in
    let crc := checksum ((b12 ++ mid) ++ data) in
    bs = framed (h_size h) (h_proto h) (h_profile h) mid data crc /\
    f' = set_header f (mk_header (h_size h) (h_proto h) (h_profile h) (N.of_nat (List.length data)) (h_dtype h)
                                 (if h_size h =? 14 then checksum b12 else h_crc h)) crc.
Proof.
  intros Hwf Henc Hlen. destruct (wf_header_inv _ Hwf) as (_ & _ & Hdt).
  revert Henc. unfold encode, enc_data. destruct (ft_entry (file_type f)) as [[[[] cn] descs]|]; try discriminate.
  destruct (f_inited f); [|discriminate]. destruct (negb _); [discriminate|]. intros Henc.
  apply ebind_ok in Henc as (data & Hd & H). exists data. revert H. cbv zeta.
  rewrite (header_marshal_wf _ _ _ _ _ _ Hdt). cbv iota.
  change c_headerSizeCRC with 14. change (2 ^ 32) with 4294967296. rewrite write_split, <- checksum_is_write.
  intros H. injection H as Hbs Hf.
  assert (Hdl : N.of_nat (List.length data) < 4294967296) by (rewrite <- Hbs, !app_length in Hlen; lia).
  rewrite (N.mod_small _ _ Hdl) in Hbs, Hf.
  split; [exact Hd|]. split; [eapply encode_slots_bytes; exact Hd|]. split; [exact Hdl|].
  subst bs f'. unfold framed. destruct (h_size (f_header f) =? 14); [|rewrite app_nil_r]; split; reflexivity.
Qed.

Theorem encode_framing f be bs f' :
  wf_header (f_header f) = true ->
  encode f be = EOk (bs, f') ->
  N.of_nat (List.length bs) < 4294967296 ->
  forallb (fun b => b <? 256) bs = true /\
  header_ok bs = true /\ trailer_ok bs = true /\
  enc_data f be = EOk (record_bytes bs) /\
  h_dsize (f_header f') = datasize bs /\
  N.of_nat (List.length (record_bytes bs)) = datasize bs /\
  f_crc f' = filecrc bs /\
  (hdrsize bs = 14 -> h_crc (f_header f') = hdrcrc bs /\ hdrcrc bs = arc (firstn 12 bs)).
Proof.
  intros Hwf Henc Hlen. destruct (encode_layout f be bs f' Hwf Henc Hlen) as (data & Hdata & Hdb & Hdl & Hbs & ->).
  destruct (wf_header_inv _ Hwf) as (Hsz & Hpr & _). cbv zeta in Hbs.
  set (h := f_header f) in *. set (b12 := hdr12 (h_size h) (h_proto h) (h_profile h) (N.of_nat (List.length data))) in *.
  set (mid := if h_size h =? 14 then put_le16 (checksum b12) else []) in *.
  set (crc := checksum ((b12 ++ mid) ++ data)) in *.
  pose proof (framed_facts _ (h_proto h) (h_profile h) _ data _ Hsz Hdl (checksum_lt_all b12) (checksum_lt_all ((b12 ++ mid) ++ data))) as F.
  cbv zeta in F. fold b12 mid crc in F. rewrite <- Hbs in F. destruct F as (F1 & F2 & F3 & F4 & F5 & F6 & F7 & F8 & F9).
  assert (Hb12 : is_bytes b12) by (apply hdr12_bytes; [lia|exact Hpr]).
  assert (Hpre : is_bytes ((b12 ++ mid) ++ data)).
  { repeat apply is_bytes_app; try assumption. subst mid. destruct (_ =? 14); [apply put_le16_bytes|constructor]. }
  assert (Harc : checksum b12 = arc b12) by now apply checksum_is_arc.
  split; [apply is_bytes_all_bytes; rewrite Hbs; unfold framed; rewrite app_assoc; apply is_bytes_app; [exact Hpre|apply put_le16_bytes]|].
  split.
  { unfold header_ok. cbv zeta. rewrite F1, F2, F4, F5, F6, N.eqb_refl.
    destruct Hsz as [E|E]; rewrite E; [reflexivity|]. rewrite (F9 E), Harc, !N.eqb_refl, !orb_true_r. reflexivity. }
  split; [unfold trailer_ok; rewrite F7, F8; apply N.eqb_eq, checksum_is_arc, Hpre|].
  rewrite F1, F2, F3, F5, F7. repeat (split; [assumption || reflexivity|]).
  intros E. rewrite (F9 E). cbn [set_header f_header h_crc]. rewrite E. split; [reflexivity|exact Harc].
Qed.

(* the example File of EncExamples.v, for the non-vacuity examples of C04 to C07: evaluated here once *)
Lemma ex_file_wf : RoundTrip.wf_file EncExamples.ex_file = true.
Proof. vm_compute. reflexivity. Qed.

Lemma ex_file_encodes : exists f', encode EncExamples.ex_file true = EOk (EncExamples.ex_encoded true, f') /\
  N.of_nat (List.length (EncExamples.ex_encoded true)) < 4294967296.
Proof.
  unfold EncExamples.ex_encoded. remember (encode EncExamples.ex_file true) as r eqn:E. vm_compute in E. subst r.
  eexists. split; [reflexivity|]. vm_compute. reflexivity.
Qed.
