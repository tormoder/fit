(* Stream-level decode = denote: one field.  For every profile entry, every definition
   compatible with it ([compat]) and any wire bytes, the decoder's storing functions
   (parse_fit_field / parse_fit_field_array through the reflect setters) produce exactly the value
   the reference semantics assigns (denote_field): nothing is truncated, nothing panics.
   The profile is quantified over: the facts used come from profile_wf soundness (C15) and from
   finite checks over the 256 base-type bytes. *)
From Coq Require Import NArith ZArith List Bool Lia Arith.
From Coq Require Import ZifyN ZifyNat ZifyBool.
From FitV Require Import Proofs.Util Proofs.BytesUtil Model.Values Model.Bytes Model.Base Model.Profile Model.Reflect Model.IO
  Model.Decode Spec.FitSyntax Spec.ProfileWf Proofs.ProfileProofs Gen.BaseTables Gen.Consts
  Proofs.StreamDenoteBase Proofs.StreamDenoteArith Proofs.StreamDenoteStrings Proofs.StreamDenoteDefs.
Import ListNotations.
Local Open Scope N_scope.
Ltac Zify.zify_post_hook ::= Z.div_mod_to_equations.

Lemma fit_base_lt t : fit_base t < 256.
Proof. exact (ProfileProofs.fit_base_lt t). Qed.

(* the twelve base types a profile entry may have (base_storable of Spec/ProfileWf.v: known, not float, at most four
   bytes): enum, sint8, uint8, string, uint8z, byte, sint16, uint16, sint32, uint32, uint16z, uint32z; storable_cases
   and int_cases tie the list to the base-type tables by a check over the 256 bytes *)
Definition storable_list : list N := [0; 1; 2; 7; 10; 13; 131; 132; 133; 134; 139; 140].

Lemma storable_cases t : base_storable (fit_base t) = true -> In (fit_base t) storable_list.
Proof.
  intros Hs. unfold fit_base in *.
  assert (Hl : N.land t 0xFF < 256) by (change 256 with (2 ^ 8); apply land_lt_pow2; reflexivity).
  pose proof (forall_below 256
    (fun x => if base_storable (decompress x) then existsb (N.eqb (decompress x)) storable_list else true)
    ltac:(vm_compute; reflexivity) _ Hl) as H.
  cbv beta in H. rewrite Hs in H.
  apply existsb_exists in H. destruct H as (x & Hin & Hx). apply N.eqb_eq in Hx. now rewrite Hx.
Qed.

Lemma int_cases bt ds : b_known bt = Some true -> N.land bt 0x60 = 0 -> b_float bt = Some false ->
  b_size bt = Some ds -> ds <= 4 -> In bt storable_list.
Proof.
  intros Hk Hc Hf Hs Hle.
  pose proof (forall_below 256
    (fun b => match b_known b, b_float b, b_size b with
              | Some true, Some false, Some s =>
                  if (N.land b 0x60 =? 0) && (s <=? 4) then existsb (N.eqb b) storable_list else true
              | _, _, _ => true end) ltac:(vm_compute; reflexivity) bt (known_lt_256 bt Hk)) as H.
  cbv beta in H. rewrite Hk, Hf, Hs, Hc in H. apply N.leb_le in Hle. rewrite Hle in H. cbn [N.eqb andb] in H.
  apply existsb_exists in H. destruct H as (x & Hin & Hx). apply N.eqb_eq in Hx. now subst.
Qed.

Ltac int_types Hin Hns :=
  unfold storable_list in Hin; cbn [In] in Hin;
  repeat (destruct Hin as [<-|Hin]); try contradiction; try (exfalso; apply Hns; reflexivity).

Lemma pb_facts pb : In pb storable_list -> pb <> base_string ->
  exists ps sg, b_size pb = Some ps /\ b_signed pb = Some sg /\
                gotype_of_base pb = (if sg then TI (8 * ps) else TU (8 * ps)) /\ (ps = 1 \/ ps = 2 \/ ps = 4).
Proof.
  intros Hin Hns.
  int_types Hin Hns; do 2 eexists; (split; [vm_compute; reflexivity|]); (split; [vm_compute; reflexivity|]);
    (split; [vm_compute; reflexivity|]); tauto.
Qed.

Definition scalar_facts (bt pb size : N) : Prop :=
  exists ds ps sg,
    b_size bt = Some ds /\ b_size pb = Some ps /\ b_signed pb = Some sg /\ b_signed bt = Some sg /\
    b_float bt = Some false /\ size = ds /\ ds <= ps /\ bt <> base_string.

(* what compat says of a field definition: a known base type with a size, and by what the profile holds for the
   field's number (nothing for an unknown message) the conditions on base type and size *)
Lemma compat_inv gmn f : compat gmn f = true ->
  exists ds, b_known (sf_btype f) = Some true /\ b_size (sf_btype f) = Some ds /\
    match (if known_msg gmn then get_field gmn (sf_num f) else None) with
    | None => sf_btype f = base_string \/ 1 <= sf_size f /\ (sf_size f) mod ds = 0
    | Some p =>
        if fit_base (pf_t p) =? base_string then sf_btype f = base_string
        else if fit_array (pf_t p) then sf_btype f = fit_base (pf_t p) /\ ds <= sf_size f /\ (sf_size f) mod ds = 0
        else scalar_facts (sf_btype f) (fit_base (pf_t p)) (sf_size f)
    end.
Proof.
  unfold compat. intros Hc.
  destruct (b_known (sf_btype f)) as [[|]|]; try discriminate.
  destruct (b_size (sf_btype f)) as [ds|] eqn:Eds; try discriminate.
  exists ds. split; [reflexivity|]. split; [reflexivity|].
  destruct (if known_msg gmn then get_field gmn (sf_num f) else None) as [p|].
  2:{ apply orb_true_iff in Hc as [Hc|Hc]; [left; now apply N.eqb_eq|right].
      apply andb_true_iff in Hc as [H1 H2]. now rewrite <- N.leb_le, <- N.eqb_eq. }
  destruct (fit_base (pf_t p) =? base_string); [now apply N.eqb_eq|].
  destruct (fit_array (pf_t p)).
  - rewrite !andb_true_iff in Hc. destruct Hc as [[H1 H2] H3].
    apply N.eqb_eq in H1, H3. apply N.leb_le in H2. auto.
  - destruct (b_size (fit_base (pf_t p))) as [ps|] eqn:Eps; try discriminate.
    destruct (b_signed (fit_base (pf_t p))) as [sp|] eqn:Esp; try discriminate.
    destruct (b_signed (sf_btype f)) as [sd|] eqn:Esd; try discriminate.
    destruct (b_float (fit_base (pf_t p))) as [[|]|] eqn:Efp; try discriminate.
    destruct (b_float (sf_btype f)) as [[|]|] eqn:Efd; try discriminate.
    rewrite !andb_true_iff in Hc. destruct Hc as [[[H1 H2] H3] H4].
    apply N.eqb_eq in H1. apply N.leb_le in H2. apply eqb_prop in H3. subst sd.
    apply negb_true_iff, N.eqb_neq in H4.
    exists ds, ps, sp. repeat split; assumption.
Qed.

Lemma compat_listed gmn f p : compat gmn f = true -> known_msg gmn = true -> get_field gmn (sf_num f) = Some p ->
  b_known (sf_btype f) = Some true /\
  (if fit_base (pf_t p) =? base_string then sf_btype f = base_string
   else if fit_array (pf_t p) then
     sf_btype f = fit_base (pf_t p) /\ exists ds, b_size (sf_btype f) = Some ds /\ ds <= sf_size f /\ (sf_size f) mod ds = 0
   else scalar_facts (sf_btype f) (fit_base (pf_t p)) (sf_size f)).
Proof.
  intros (ds & Hkn & Hs & H)%compat_inv Hk Hg. rewrite Hk, Hg in H. split; [exact Hkn|].
  destruct (_ =? base_string); [exact H|]. destruct (fit_array _); [|exact H]. destruct H as (? & ? & ?). eauto.
Qed.

Lemma denote_native_scalar be f p ty ref bytes :
  fit_kind (pf_t p) = kind_native -> fit_array (pf_t p) = false -> sf_btype f <> base_string ->
  denote_field be f p ty ref bytes =
  Some (embed ty (match b_signed (sf_btype f) with Some s => s | None => false end)
              (wire_unsigned be bytes) (wire_signed be bytes)).
Proof.
  intros Hk Ha Hs. unfold denote_field. rewrite Hk, Ha. change (kind_native =? kind_native) with true. cbv iota.
  replace (sf_btype f =? base_string) with false by (symmetry; now apply N.eqb_neq). reflexivity.
Qed.

Lemma denote_native_string be f p ty ref bytes :
  fit_kind (pf_t p) = kind_native -> fit_array (pf_t p) = false -> sf_btype f = base_string ->
  denote_field be f p ty ref bytes = match upto_nul bytes with [] => None | s => Some (VStr s) end.
Proof.
  intros Hk Ha Hs. unfold denote_field. rewrite Hk, Ha, Hs. reflexivity.
Qed.

Lemma denote_native_array be f p ty ref bytes :
  fit_kind (pf_t p) = kind_native -> fit_array (pf_t p) = true -> sf_btype f <> base_string ->
  denote_field be f p ty ref bytes =
  Some (VList (map (fun e => embed (match ty with TSlice e0 => e0 | _ => TOther end)
                                   (match b_signed (sf_btype f) with Some s => s | None => false end)
                                   (wire_unsigned be e) (wire_signed be e))
                   (split_every (match b_size (sf_btype f) with Some s => N.to_nat s | None => 1%nat end)
                                (List.length bytes) bytes))).
Proof.
  intros Hk Ha Hs. unfold denote_field. rewrite Hk, Ha. change (kind_native =? kind_native) with true. cbv iota.
  replace (sf_btype f =? base_string) with false by (symmetry; now apply N.eqb_neq). reflexivity.
Qed.

Lemma denote_native_strings be f p ty ref bytes :
  fit_kind (pf_t p) = kind_native -> fit_array (pf_t p) = true -> sf_btype f = base_string ->
  denote_field be f p ty ref bytes =
  match split_strings (S (List.length bytes)) bytes with
  | [] => match bytes with [] => None | _ => Some VNil end
  | l => Some (VList (map VStr l))
  end.
Proof. intros Hk Ha Hs. unfold denote_field. rewrite Hk, Ha, Hs. reflexivity. Qed.

Definition res_of (o : option goval) : fres := match o with Some v => FSet v | None => FKeep end.

(* in lemma names here and in the files that follow: pff = parse_fit_field, pffa = parse_fit_field_array,
   pof = parse_one_field, pfs = parse_fields, pts = parse_time_stamp, pdm = parse_data_message,
   dmw = data_message_with *)
Lemma pff_int be num size bt buf ty ds sg :
  In bt storable_list -> bt <> base_string -> b_size bt = Some ds -> b_signed bt = Some sg ->
  List.length buf = N.to_nat ds ->
  parse_fit_field be (mk_fdef num size bt) buf ty =
  of_set (if sg then set_int ty (wire_signed be buf) else set_uint ty (wire_unsigned be buf)).
Proof.
  intros Hin Hns Hds Hsg Hlen. unfold wire_signed, wire_unsigned.
  int_types Hin Hns; vm_compute in Hds; injection Hds as <-; vm_compute in Hsg; injection Hsg as <-;
    list_of_len buf Hlen;
    first [rewrite get_val_1|rewrite <- (get16_val be) by reflexivity|rewrite <- (get32_val be) by reflexivity];
    reflexivity.
Qed.

(* native scalar field: all integer base types, both byte orders, narrow definitions *)
Lemma scalar_agree be num size bt pb buf :
  b_known bt = Some true -> N.land bt 0x60 = 0 -> In pb storable_list -> pb <> base_string ->
  scalar_facts bt pb size -> List.length buf = N.to_nat size -> all_bytes buf = true ->
  parse_fit_field be (mk_fdef num size bt) buf (gotype_of_base pb) =
  FSet (embed (gotype_of_base pb) (match b_signed bt with Some s => s | None => false end)
              (wire_unsigned be buf) (wire_signed be buf)).
Proof.
  intros Hk Hc Hpb Hpbs (ds & ps & sg & Hds & Hps & Hsp & Hsd & Hfl & Hsz & Hle & Hns) Hlen Hbytes.
  destruct (pb_facts pb Hpb Hpbs) as (ps' & sg' & Hps' & Hsp' & Hty & Hpsv).
  rewrite Hps in Hps'. injection Hps' as <-. rewrite Hsp in Hsp'. injection Hsp' as <-.
  rewrite Hty, Hsd. subst size.
  assert (Hne : buf <> []) by (destruct (size_cases bt ds Hk Hds) as [ -> | [ -> | [ -> | -> ] ] ]; destruct buf; cbn in Hlen; (congruence || lia)).
  rewrite (pff_int be num ds bt buf _ ds sg) by (assumption || apply (int_cases bt ds); (assumption || lia)).
  destruct sg; cbn [of_set set_int set_uint embed].
  - now rewrite wrap_s_wire by (assumption || lia).
  - now rewrite wrap_u_wire by (assumption || lia).
Qed.

Lemma first_zero_le l : (first_zero l <= List.length l)%nat.
Proof. apply first_zero_le_length. Qed.

Lemma string_agree be num size buf :
  parse_fit_field be (mk_fdef num size base_string) buf TStr =
  res_of (match upto_nul buf with [] => None | s => Some (VStr s) end).
Proof.
  change (parse_fit_field be (mk_fdef num size base_string) buf TStr)
    with (if Nat.ltb 0 (first_zero buf) then of_set (set_string TStr (firstn (first_zero buf) buf)) else FKeep).
  rewrite upto_nul_first_zero.
  destruct (first_zero buf) as [|j] eqn:Ej; [reflexivity|].
  destruct buf as [|b r]; [cbn in Ej; discriminate|]. reflexivity.
Qed.

Lemma firstn_whole k (buf : list N) : (List.length buf mod k = 0)%nat -> (0 < k)%nat ->
  firstn (k * (List.length buf / k))%nat buf = buf.
Proof.
  intros Hm Hk. replace (k * (List.length buf / k))%nat with (List.length buf).
  - apply firstn_all.
  - pose proof (Nat.div_mod (List.length buf) k ltac:(lia)) as E. rewrite Hm in E. lia.
Qed.

Lemma split_exact k (buf : list N) : (0 < k)%nat -> (List.length buf mod k = 0)%nat ->
  Forall (fun e => List.length e = k /\ incl e buf) (split_every k (List.length buf) buf).
Proof.
  intros Hk Hm. apply Nat.mod_divide in Hm as [q Hq]; [|lia]. exact (split_every_elems k Hk q _ buf Hq (le_n _)).
Qed.

(* one-byte elements are read off the buffer directly, wider ones in chunks with get16/get32 *)
Lemma split1_unsigned be buf : map (wire_unsigned be) (split_every 1 (List.length buf) buf) = buf.
Proof.
  rewrite (split_every_1 _ _ buf (le_n _)). rewrite <- (map_id buf) at 2.
  apply map_ext. intros x. apply get_val_1.
Qed.

Lemma split1_signed be buf : map (wire_signed be) (split_every 1 (List.length buf) buf) = map (to_signed 8) buf.
Proof.
  rewrite (split_every_1 _ _ buf (le_n _)). apply map_ext. intros x. unfold wire_signed. now rewrite get_val_1.
Qed.

Lemma chunks_values {B} k (g h : list N -> B) buf : (0 < k)%nat -> (List.length buf mod k = 0)%nat ->
  (forall e, List.length e = k -> g e = h e) ->
  map g (chunks k (List.length buf) (firstn (k * (List.length buf / k))%nat buf)) = map h (split_every k (List.length buf) buf).
Proof.
  intros Hk Hm Hgh. rewrite firstn_whole, <- split_every_chunks by assumption.
  apply map_ext_Forall. refine (Forall_impl _ _ (split_exact k buf Hk Hm)). intros e [Hl _]. now apply Hgh.
Qed.

Lemma pffa_int be num size bt buf ds sg :
  In bt storable_list -> bt <> base_string -> b_size bt = Some ds -> b_signed bt = Some sg ->
  (List.length buf mod N.to_nat ds = 0)%nat -> all_bytes buf = true ->
  parse_fit_field_array be (mk_fdef num size bt) buf (TSlice (gotype_of_base bt)) =
  of_set (if sg then set_int_slice (TSlice (gotype_of_base bt)) (map (wire_signed be) (split_every (N.to_nat ds) (List.length buf) buf))
          else set_uint_slice (TSlice (gotype_of_base bt)) (map (wire_unsigned be) (split_every (N.to_nat ds) (List.length buf) buf))).
Proof.
  intros Hin Hns Hds Hsg Hm Hb. unfold parse_fit_field_array. cbn [fd_btype]. rewrite Hds.
  int_types Hin Hns; vm_compute in Hds; injection Hds as <-; vm_compute in Hsg; injection Hsg as <-;
    cbv beta iota delta [gotype_of_base N.eqb Pos.eqb orb base_byte base_uint8 base_uint8z base_enum base_sint8 base_sint16
                         base_uint16 base_uint16z base_sint32 base_uint32 base_uint32z];
    try (rewrite Hm; cbn [Nat.eqb negb]).
  all: change (N.to_nat 1) with 1%nat in *.
  (* eleven base types.  The four unsigned one-byte ones: for enum, uint8, uint8z both sides are set_uint_slice of the
     buffer; []byte goes through SetBytes, which stores the bytes as they are, so there wrap_u goes byte by byte *)
  all: try (rewrite (split1_unsigned be buf);
            first [ reflexivity
                  | cbn [of_set set_bytes set_uint_slice]; f_equal; f_equal; apply map_ext_in; intros x Hx;
                    rewrite wrap_u_small; [reflexivity|exact (all_bytes_In buf x Hb Hx)] ]).
  (* sint8 *)
  all: try (rewrite (split1_signed be buf); reflexivity).
  (* the six types of two and four bytes: the decoder's chunks of the buffer are the reference's split_every *)
  all: f_equal; f_equal; apply chunks_values; [lia|exact Hm|]; intros e He; unfold wire_signed, wire_unsigned; rewrite ?He;
    first [rewrite (get16_val be e He)|rewrite (get32_val be e He)]; reflexivity.
Qed.

Lemma array_agree be num size bt ds buf :
  In bt storable_list -> bt <> base_string -> b_size bt = Some ds -> size mod ds = 0 ->
  List.length buf = N.to_nat size -> all_bytes buf = true ->
  parse_fit_field_array be (mk_fdef num size bt) buf (TSlice (gotype_of_base bt)) =
  FSet (VList (map (fun e => embed (gotype_of_base bt) (match b_signed bt with Some s => s | None => false end)
                                   (wire_unsigned be e) (wire_signed be e))
                   (split_every (N.to_nat ds) (List.length buf) buf))).
Proof.
  intros Hin Hns Hds Hmod Hlen Hbytes.
  destruct (pb_facts bt Hin Hns) as (ds' & sg & Hds' & Hsg & Hty & Hdsv).
  rewrite Hds in Hds'. injection Hds' as <-.
  assert (Hm : (List.length buf mod N.to_nat ds = 0)%nat) by (rewrite Hlen; lia).
  rewrite (pffa_int be num size bt buf ds sg Hin Hns Hds Hsg Hm Hbytes), Hty, Hsg.
  pose proof (split_exact (N.to_nat ds) buf ltac:(lia) Hm) as Hel.
  destruct sg; cbn [of_set set_int_slice set_uint_slice embed]; f_equal; f_equal; rewrite map_map;
    apply map_ext_Forall; refine (Forall_impl _ _ Hel); intros e [Hl Hi]; f_equal.
  - apply wrap_s_wire; [exact (all_bytes_incl e buf Hbytes Hi)|destruct e; [cbn in Hl; lia|discriminate]|lia].
  - apply wrap_u_wire; [exact (all_bytes_incl e buf Hbytes Hi)|lia].
Qed.

Lemma strings_agree be num size buf :
  parse_fit_field_array be (mk_fdef num size base_string) buf (TSlice TStr) =
  res_of (match split_strings (S (List.length buf)) buf with
          | [] => match buf with [] => None | _ => Some VNil end
          | l => Some (VList (map VStr l))
          end).
Proof.
  change (parse_fit_field_array be (mk_fdef num size base_string) buf (TSlice TStr))
    with (if negb (Nat.eqb (Nat.modulo (List.length buf) 1) 0) then FPanic 5
          else if Nat.eqb (List.length buf) 0 then FKeep
               else of_set (set_strings (TSlice TStr) (scan_strings (S (List.length buf)) buf (List.length buf) 0 0 []))).
  rewrite Nat.mod_1_r. cbn [Nat.eqb negb].
  destruct buf as [|b r]; [reflexivity|].
  pose proof (scan_is_split (b :: r) ltac:(discriminate)) as E.
  cbn [List.length Nat.eqb of_set set_strings] in E |- *. rewrite E.
  destruct (split_strings (S (S (List.length r))) (b :: r)); reflexivity.
Qed.

Lemma gotype_native t : fit_kind t = kind_native ->
  gotype_of_fit t = if fit_array t then TSlice (gotype_of_base (fit_base t)) else gotype_of_base (fit_base t).
Proof. intros Hk. unfold gotype_of_fit. rewrite Hk. reflexivity. Qed.

Theorem native_field_agree : forall be gmn f p ref buf,
  get_field gmn (sf_num f) = Some p -> compat gmn f = true -> canon_bt f = true ->
  fit_kind (pf_t p) = kind_native ->
  List.length buf = N.to_nat (sf_size f) -> all_bytes buf = true ->
  (if negb (fit_array (pf_t p)) then parse_fit_field be (to_fdef f) buf (gotype_of_fit (pf_t p))
   else parse_fit_field_array be (to_fdef f) buf (gotype_of_fit (pf_t p))) =
  res_of (denote_field be f p (gotype_of_fit (pf_t p)) ref buf).
Proof.
  intros be gmn f p ref buf Hg Hc Hcan Hk Hlen Hbytes.
  destruct (entry_sound _ _ _ Hg) as (m & Em & F).
  pose proof (storable_cases _ (ef_storable _ _ _ _ F)) as Hst.
  destruct (compat_listed gmn f p Hc (ef_known _ _ _ _ F) Hg) as [Hkn Hcase].
  unfold canon_bt in Hcan. apply N.eqb_eq in Hcan.
  rewrite (gotype_native _ Hk). unfold to_fdef.
  destruct (N.eqb_spec (fit_base (pf_t p)) base_string) as [Es|Ens].
  - rewrite Es, Hcase. change (gotype_of_base base_string) with TStr.
    destruct (fit_array (pf_t p)) eqn:Ea; cbn [negb].
    + rewrite (denote_native_strings be f p _ ref buf Hk Ea Hcase). apply strings_agree.
    + rewrite (denote_native_string be f p _ ref buf Hk Ea Hcase). apply string_agree.
  - destruct (fit_array (pf_t p)) eqn:Ea; cbn [negb].
    + destruct Hcase as [Ebt (ds & Hds & Hle & Hmod)].
      assert (Hns : sf_btype f <> base_string) by (rewrite Ebt; exact Ens).
      rewrite (denote_native_array be f p _ ref buf Hk Ea Hns). rewrite Hds. rewrite <- Ebt.
      apply array_agree; try assumption. now rewrite Ebt.
    + pose proof Hcase as (_ & _ & _ & _ & _ & _ & _ & _ & _ & _ & Hns).
      rewrite (denote_native_scalar be f p _ ref buf Hk Ea Hns). now apply scalar_agree.
Qed.

Lemma window_len bt pb size (buf : list N) : b_known bt = Some true -> scalar_facts bt pb size -> b_size pb = Some 4 ->
  List.length buf = N.to_nat size ->
  b_signed bt = b_signed pb /\ (List.length buf = 1 \/ List.length buf = 2 \/ List.length buf = 4)%nat.
Proof.
  intros Hk (ds & ps & sg & Hds & Hps & Hsp & Hsd & Hfl & Hsz & Hle & Hns) H4 Hlen.
  rewrite Hps in H4. injection H4 as ->. subst size. split; [congruence|].
  destruct (size_cases bt ds Hk Hds) as [ -> | [ -> | [ -> | -> ] ] ]; lia.
Qed.

Lemma time_u32 be bt size buf : b_known bt = Some true -> scalar_facts bt base_uint32 size ->
  List.length buf = N.to_nat size ->
  b_signed bt = Some false /\ get32 be (extend4 be false buf) = wire_unsigned be buf.
Proof.
  intros Hk Hf Hlen. destruct (window_len bt _ size buf Hk Hf eq_refl Hlen) as [Hsg Hl].
  split; [exact Hsg|]. apply extend4_unsigned. lia.
Qed.

Lemma coord_s32 be bt size buf : b_known bt = Some true -> scalar_facts bt base_sint32 size ->
  List.length buf = N.to_nat size -> all_bytes buf = true ->
  b_signed bt = Some true /\ to_signed 32 (get32 be (extend4 be true buf)) = wire_signed be buf.
Proof.
  intros Hk Hf Hlen Hbytes. destruct (window_len bt _ size buf Hk Hf eq_refl Hlen) as [Hsg Hl].
  split; [exact Hsg|]. now apply extend4_signed.
Qed.

Print Assumptions native_field_agree.
