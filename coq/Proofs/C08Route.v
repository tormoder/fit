(* C08/C09: what a component expansion and File.add can see of the
   package-level accumulators.  Two runs from accumulator states g1 and g2 are
   compared; the clauses that matter:
   - the outcome class never depends on the accumulators;
   - only record messages can come out different;
   - while the first run has not created the distance accumulator, the
     messages are equal and the second run has not touched its own;
   - while the first run has created no accumulator at all, the second run's
     accumulators are exactly what they were. *)
From Coq Require Import NArith ZArith List Bool String Lia.
From FitV Require Import Model.Values Model.Reflect Model.Profile Model.Header Model.Components Model.Route
  Model.Shared Gen.Consts Gen.RoutingData Proofs.Util Proofs.ComponentProofs Proofs.RouteProofs.
Import ListNotations.
Local Open Scope N_scope.
Local Opaque fld set_fld widen16.

(* The last two clauses, for two runs that started at gi1, gi2 and have reached
   g1, g2; X says that what the runs have produced so far is equal.  Every
   relation below between two runs ends in this one. *)
Definition acc_rel (gi1 gi2 g1 g2 : gstate) (X : Prop) : Prop :=
  gwf g1 /\ gwf g2 /\
  (g_dist g1 = None -> g_dist gi1 = None /\ X /\ g_dist g2 = g_dist gi2) /\
  (g1 = g_init -> gi1 = g_init /\ X /\ g2 = gi2).

Lemma acc_rel_start g1 g2 (X : Prop) : gwf g1 -> gwf g2 -> X -> acc_rel g1 g2 g1 g2 X.
Proof. unfold acc_rel. intuition. Qed.

Lemma acc_rel_step gi1 gi2 g1 g2 g1' g2' (X Y Z : Prop) :
  acc_rel gi1 gi2 g1 g2 X -> acc_rel g1 g2 g1' g2' Y -> (X -> Y -> Z) -> acc_rel gi1 gi2 g1' g2' Z.
Proof.
  intros (_ & _ & A1 & A2) (W1 & W2 & B1 & B2) H. split; [exact W1|]. split; [exact W2|]. split.
  - intro D. destruct (B1 D) as (D1 & y & E). destruct (A1 D1) as (D0 & x & E0). rewrite E. auto.
  - intro D. destruct (B2 D) as (D1 & y & E). destruct (A2 D1) as (D0 & x & E0). rewrite E. auto.
Qed.

Lemma acc_rel_impl gi1 gi2 g1 g2 (X Y : Prop) : acc_rel gi1 gi2 g1 g2 X -> (X -> Y) -> acc_rel gi1 gi2 g1 g2 Y.
Proof. unfold acc_rel. intuition. Qed.

Lemma accumulate_mask0 a v : ac_mask a = 0 -> ac_value a = 0 -> accumulate a v = (0, mk_accum 0 v 0).
Proof.
  destruct a as [val last mask]; simpl; intros -> ->. unfold accumulate; simpl ac_mask; simpl ac_value; simpl ac_last.
  rewrite N.land_0_r. reflexivity.
Qed.

Lemma get_acc0 o : acc0 o -> ac_mask (get_acc o zero_accum) = 0 /\ ac_value (get_acc o zero_accum) = 0.
Proof. destruct o; simpl; intro H; [apply H; reflexivity|split; reflexivity]. Qed.

Lemma acc0_fresh v : acc0 (Some (mk_accum 0 v 0)).
Proof. intros a [= <-]. split; reflexivity. Qed.

Lemma expand_cycles_gwf g m : gwf g ->
  expand_cycles g m =
  if uval (fld m "Cycles") =? 0xFF then (m, g)
  else (set_fld m "TotalCycles" (VU 0),
        mk_gstate (g_dist g) (Some (mk_accum 0 (N.land (uval (fld m "Cycles")) 0xFF) 0)) (g_power g)).
Proof.
  intros [Hc _]. unfold expand_cycles. destruct (_ =? 0xFF); [reflexivity|].
  destruct (get_acc0 _ Hc) as [Hm Hv]. rewrite (accumulate_mask0 _ _ Hm Hv). reflexivity.
Qed.

Lemma expand_power_gwf g m : gwf g ->
  expand_power g m =
  if uval (fld m "CompressedAccumulatedPower") =? 0xFFFF then (m, g)
  else (set_fld m "AccumulatedPower" (VU 0),
        mk_gstate (g_dist g) (g_cycles g) (Some (mk_accum 0 (N.land (uval (fld m "CompressedAccumulatedPower")) 0xFFFF) 0))).
Proof.
  intros [_ Hp]. unfold expand_power. destruct (_ =? 0xFFFF); [reflexivity|].
  destruct (get_acc0 _ Hp) as [Hm Hv]. rewrite (accumulate_mask0 _ _ Hm Hv). reflexivity.
Qed.

(* one expansion compared between two accumulator states *)
Definition exp_rel (g1 g2 : gstate) (r1 r2 : msg * gstate) : Prop :=
  acc_rel g1 g2 (snd r1) (snd r2) (fst r1 = fst r2).

(* expand_record is three such steps in a row.  The instance g2 = g1 of [stage]
   is the one-run fact that a step never removes an accumulator, which is what
   lets the clauses of two consecutive steps be chained. *)
Definition stage (e : gstate -> msg -> msg * gstate) : Prop :=
  forall g1 g2 m, gwf g1 -> gwf g2 -> exp_rel g1 g2 (e g1 m) (e g2 m).

Lemma stage_comp e1 e2 : stage e1 -> stage e2 -> stage (fun g m => e2 (snd (e1 g m)) (fst (e1 g m))).
Proof.
  intros S1 S2 g1 g2 m W1 W2. destruct (S1 g1 g2 m W1 W2) as (Wa & Wb & A1 & A2).
  destruct (e1 g1 m) as [ma ga], (e1 g2 m) as [mb gb]. cbn [fst snd] in *.
  destruct (S2 ga ga ma Wa Wa) as (Wa' & _ & U1 & U2). destruct (S2 gb gb mb Wb Wb) as (Wb' & _).
  split; [exact Wa'|]. split; [exact Wb'|]. split.
  - intro D. destruct (U1 D) as (Da & _). destruct (A1 Da) as (D0 & <- & Eb).
    destruct (S2 ga gb ma Wa Wb) as (_ & _ & B1 & _). destruct (B1 D) as (_ & Em & E). rewrite E. auto.
  - intro D. destruct (U2 D) as (Da & _). destruct (A2 Da) as (D0 & <- & Eb).
    destruct (S2 ga gb ma Wa Wb) as (_ & _ & _ & B2). destruct (B2 D) as (_ & Em & E). rewrite E. auto.
Qed.

Lemma stage_csd : stage expand_csd.
Proof.
  intros g1 g2 m W1 W2. unfold expand_csd. cbv zeta. destruct (_ && _).
  - (* both runs now hold a distance accumulator *)
    split; [exact W1|]. split; [exact W2|]. split; discriminate.
  - apply acc_rel_start; auto.
Qed.

Lemma gwf_mk d c p : acc0 c -> acc0 p -> gwf (mk_gstate d c p).
Proof. split; assumption. Qed.

Lemma stage_cycles : stage expand_cycles.
Proof.
  intros g1 g2 m W1 W2. rewrite !expand_cycles_gwf by assumption. destruct (_ =? _).
  - apply acc_rel_start; auto.
  - split; [apply gwf_mk; [apply acc0_fresh|apply W1]|]. split; [apply gwf_mk; [apply acc0_fresh|apply W2]|].
    split; [auto|discriminate].
Qed.

Lemma stage_power : stage expand_power.
Proof.
  intros g1 g2 m W1 W2. rewrite !expand_power_gwf by assumption. destruct (_ =? _).
  - apply acc_rel_start; auto.
  - split; [apply gwf_mk; [apply W1|apply acc0_fresh]|]. split; [apply gwf_mk; [apply W2|apply acc0_fresh]|].
    split; [auto|discriminate].
Qed.

Lemma expand_record_rel : stage expand_record.
Proof. intros g1 g2 m. exact (stage_comp _ _ (stage_comp _ _ stage_csd stage_cycles) stage_power g1 g2 _). Qed.

Definition orel {A B} (P : A -> B -> Prop) (o1 : option A) (o2 : option B) : Prop :=
  match o1, o2 with
  | Some a, Some b => P a b
  | None, None => True
  | _, _ => False
  end.

Definition oexp_rel (g1 g2 : gstate) : option (msg * gstate) -> option (msg * gstate) -> Prop :=
  orel (fun r1 r2 => msg_sim (fst r1) (fst r2) /\ exp_rel g1 g2 r1 r2).

Lemma oexp_rel_same g1 g2 m : gwf g1 -> gwf g2 -> oexp_rel g1 g2 (Some (m, g1)) (Some (m, g2)).
Proof. intros W1 W2. split; [left; reflexivity|apply acc_rel_start; auto]. Qed.

Lemma expand_components_rel g1 g2 m : gwf g1 -> gwf g2 ->
  oexp_rel g1 g2 (expand_components g1 m) (expand_components g2 m).
Proof.
  intros W1 W2. unfold expand_components.
  destruct (_ || _); [apply oexp_rel_same; assumption|].
  destruct (N.eqb_spec (m_num m) c_MesgNumRecord) as [E|_].
  { split; [|apply expand_record_rel; assumption].
    right. cbn [fst]. rewrite !expand_record_num. auto. }
  repeat (destruct (m_num m =? _); [apply oexp_rel_same; assumption|]). exact I.
Qed.

Definition slots_sim := Forall2 (Forall2 msg_sim).

Lemma msg_sim_refl m : msg_sim m m. Proof. left; reflexivity. Qed.
Lemma slots_sim_refl s : slots_sim s s.
Proof. apply F2_refl. intro. apply F2_refl. exact msg_sim_refl. Qed.

Lemma route_sim i mode m1 m2 sl1 sl2 : slots_sim sl1 sl2 -> msg_sim m1 m2 ->
  slots_sim match mode with RAppend => set_nth i (nth i sl1 [] ++ [m1]) sl1 | ROverwrite => set_nth i [m1] sl1 | ROther => sl1 end
            match mode with RAppend => set_nth i (nth i sl2 [] ++ [m2]) sl2 | ROverwrite => set_nth i [m2] sl2 | ROther => sl2 end.
Proof.
  intros HS Hm. destruct mode; [apply Util.F2_set_nth; [exact HS|]..|exact HS].
  - apply Forall2_app; [apply F2_nth; exact HS|constructor; [exact Hm|constructor]].
  - constructor; [exact Hm|constructor].
Qed.

Lemma apply_routes_rel m : forall rs sl1 sl2 g1 g2, slots_sim sl1 sl2 -> gwf g1 -> gwf g2 ->
  orel (fun r1 r2 => slots_sim (fst r1) (fst r2) /\ acc_rel g1 g2 (snd r1) (snd r2) (sl1 = sl2 -> fst r1 = fst r2))
       (apply_routes rs m sl1 g1) (apply_routes rs m sl2 g2).
Proof.
  induction rs as [|[[i mode] ex] rest IH]; intros sl1 sl2 g1 g2 HS W1 W2.
  - split; [exact HS|apply acc_rel_start; auto].
  - cbn [apply_routes].
    assert (HE : oexp_rel g1 g2 (if ex then expand_components g1 m else Some (m, g1))
                                (if ex then expand_components g2 m else Some (m, g2))).
    { destruct ex; [apply expand_components_rel|apply oexp_rel_same]; assumption. }
    destruct (if ex then expand_components g1 m else Some (m, g1)) as [[m1 g1']|];
    destruct (if ex then expand_components g2 m else Some (m, g2)) as [[m2 g2']|]; try contradiction; [|exact I].
    destruct HE as (Hm & HA). cbn [fst snd] in Hm, HA.
    specialize (IH _ _ g1' g2' (route_sim i mode m1 m2 _ _ HS Hm) (proj1 HA) (proj1 (proj2 HA))).
    destruct (apply_routes rest m _ g1') as [[r1 h1]|], (apply_routes rest m _ g2') as [[r2 h2]|];
      try contradiction; [|exact I].
    destruct IH as (A & B). split; [exact A|]. apply (acc_rel_step _ _ _ _ _ _ _ _ _ HA B).
    intros Em HI Es. apply HI. cbn [fst] in Em. rewrite Em, Es. reflexivity.
Qed.

Definition add_rel (g1 g2 : gstate) (f1 f2 : file) (a1 a2 : add_result) : Prop :=
  match a1, a2 with
  | AddOk f1' g1', AddOk f2' g2' => file_sim f1' f2' /\ acc_rel g1 g2 g1' g2' (f1 = f2 -> f1' = f2')
  | AddPanic w1, AddPanic w2 => w1 = w2
  | _, _ => False
  end.

Lemma file_add_rel f1 f2 g1 g2 m : file_sim f1 f2 -> gwf g1 -> gwf g2 ->
  add_rel g1 g2 f1 f2 (file_add f1 g1 m) (file_add f2 g2 m).
Proof.
  intros (Hh & Hc & Hs & Hi & Hm & Hf) W1 W2. unfold file_add. rewrite <- Hi.
  assert (K : forall rs,
    add_rel g1 g2 f1 f2
      match apply_routes rs m (f_slots f1) g1 with
      | Some (slots, g') => AddOk (mk_file (f_header f1) (f_crc f1) slots (f_inited f1) (f_unkm f1) (f_unkf f1)) g'
      | None => AddPanic 30 end
      match apply_routes rs m (f_slots f2) g2 with
      | Some (slots, g') => AddOk (mk_file (f_header f2) (f_crc f2) slots (f_inited f1) (f_unkm f2) (f_unkf f2)) g'
      | None => AddPanic 30 end).
  { intro rs. pose proof (apply_routes_rel m rs _ _ g1 g2 Hs W1 W2) as H.
    destruct (apply_routes rs m (f_slots f1) g1) as [[s1 h1]|], (apply_routes rs m (f_slots f2) g2) as [[s2 h2]|];
      try contradiction; [|reflexivity].
    destruct H as (A & B). split; [unfold file_sim; simpl; auto 10|].
    apply (acc_rel_impl _ _ _ _ _ _ B). cbn [fst]. intros E <-. rewrite E; reflexivity. }
  destruct (f_inited f1).
  - apply K.
  - destruct (common_routes (m_num m)) eqn:R; [reflexivity|]. rewrite <- R. apply K.
Qed.

Lemma record_has_no_type_field : sindex_of c_MesgNumRecord "Type" = None.
Proof. vm_compute. reflexivity. Qed.

Lemma file_type_sim f1 f2 : file_sim f1 f2 -> file_type f1 = file_type f2.
Proof.
  intros (_ & _ & Hs & _). unfold file_type.
  pose proof (F2_nth msg_sim 0 _ _ Hs) as H.
  destruct H as [|a b la lb [->|[Ha Hb]] _]; try reflexivity.
  Local Transparent fld. unfold fld. Local Opaque fld. rewrite Ha, Hb, record_has_no_type_field. reflexivity.
Qed.

Lemma file_init_rel f1 f2 : file_sim f1 f2 ->
  orel (fun a b => file_sim a b /\ (f1 = f2 -> a = b)) (file_init f1) (file_init f2).
Proof.
  intro H. unfold file_init. rewrite <- (file_type_sim _ _ H).
  destruct (ft_entry (file_type f1)) as [[[[] c] s]|]; try exact I.
  destruct H as (Hh & Hc & Hs & Hi & Hm & Hf). split.
  - unfold file_sim; cbn [f_header f_crc f_slots f_inited f_unkm f_unkf]. repeat split; auto.
    apply Forall2_app; [apply F2_firstn; exact Hs|apply slots_sim_refl].
  - intros ->. reflexivity.
Qed.
