(* The branch of [decode] (Model/Decode.v) that runs the buffered decoder, under a
   name: full mode (fid = false) and file_id-only mode (fid = true), after a
   header that was read without error. *)
From Coq Require Import NArith List.
From FitV Require Import Model.IO Model.Header Model.Components Model.Route Model.Decode.
Import ListNotations.

Definition decode_buffered (o : dopts) (fid : bool) (h : header) (crc : N) (rd1 : reader) (fuel : nat) (g : gstate)
  : tout dres :=
  match run_c (data_prog o fid (S (N.to_nat (h_dsize h)))) (mk_cst rd1 [] 0 (N.to_nat (h_dsize h)) crc fuel)
              (init_dstate (new_file h) g) with
  | ROutOfFuel => TOutOfFuel
  | RPanic w => TPanic w
  | RFail e c s => TDone (mk_dres (Some e) h (Some (finalize_unknown o s)) (c_rd c) (ds_g s) (ds_quirks s))
  | RIOErr e c s => TDone (mk_dres (Some (EIO e)) h (Some (finalize_unknown o s)) (c_rd c) (ds_g s) (ds_quirks s))
  | ROk _ c s =>
      if fid then TDone (mk_dres None h (Some (finalize_unknown o s)) (c_rd c) (ds_g s) (ds_quirks s)) else
      if negb (Nat.eqb (c_n c) (c_limit c)) then TPanic 7 else
      match check_crc fuel (c_rd c) (c_crc c) (ds_file s) with
      | OutOfFuel => TOutOfFuel
      | Done (e, f, rd3) =>
          TDone (mk_dres e h (Some (finalize_unknown o (with_file s f (ds_g s)))) rd3 (ds_g s) (ds_quirks s))
      end
  end.

Lemma decode_buffered_eq o g rd fuel h crc rd1 : decode_header fuel rd = Done (None, h, crc, rd1) ->
  decode o MFull g rd fuel = decode_buffered o false h crc rd1 fuel g /\
  decode o MFileIdOnly g rd fuel = decode_buffered o true h crc rd1 fuel g.
Proof. unfold decode. intros ->. split; reflexivity. Qed.
