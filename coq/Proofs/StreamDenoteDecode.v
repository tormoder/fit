(* Stream-level decode = denote at the entry point: Decode on a complete framed file
   (header ++ records ++ CRC, possibly followed by other bytes), read through any reader oracle
   (any chunk schedule with empty reads, EOF or fault after the data, data-with-EOF). *)
From Coq Require Import NArith ZArith List Bool Lia Arith.
From FitV Require Import Proofs.Util Model.Values Model.Bytes Model.Base Model.Profile Model.Reflect Model.IO
  Model.Header Model.Route Model.Components Model.Decode Spec.FitSyntax Spec.RouteSpec Proofs.RouteProofs Proofs.DecodeLemmas Gen.Consts
  Proofs.StreamDenoteBase Proofs.StreamDenoteDefs Proofs.StreamDenoteLoop Proofs.StreamDenoteLift Proofs.StreamDenoteMain
  Proofs.StreamDenoteFrame.
Import ListNotations.
Local Open Scope N_scope.

Lemma stream_wf_bytes : forall rs, stream_wf rs = true -> all_bytes (ser_records rs) = true.
Proof.
  induction rs as [|r rest IH]; intros H; [reflexivity|].
  cbn [stream_wf forallb] in H. apply andb_prop in H. destruct H as [H1 H2].
  change (ser_records (r :: rest)) with (ser_record r ++ ser_records rest).
  unfold all_bytes. rewrite forallb_app. unfold rec_wf in H1. apply andb_prop in H1. destruct H1 as [H1 _].
  unfold all_bytes in H1. rewrite H1. exact (IH H2).
Qed.

Definition fit_file (h : header) (rs : list record) : list N := frame_bytes h (ser_records rs).

(* File.add and File.init keep the header the File was created with *)
Lemma route_msgs_header h g msgs f g' : route_msgs h g msgs = Some (f, g') -> f_header f = h.
Proof.
  unfold route_msgs, start_file. destruct msgs as [|m0 ms]; [discriminate|].
  destruct (file_add (new_file h) g m0) as [fa ga|] eqn:Ea; [|discriminate].
  destruct (file_init fa) as [fb|] eqn:Ei; [|discriminate].
  destruct (adds fb ga ms) as [fx gx|] eqn:Es; [|discriminate]. intros [= <- _].
  rewrite (proj1 (adds_frame _ _ _ _ _ Es)). destruct (file_init_some _ _ Ei) as [_ ->].
  exact (proj1 (file_add_frame _ _ _ _ _ Ea)).
Qed.

(* the reader holding exactly one file, delivered in one piece, ending in a clean EOF *)
Definition alone_reader (h : header) (rs : list record) : reader := mk_reader (fit_file h rs) [] TEOF false 0.

(* Decode on a framed file followed by anything: besides the statement of [Decode_denote], the File, the
   accumulator state and the quirk list are those Decode returns for the file alone, read from a reader that ends
   in a clean EOF right after it (what follows a file and how the reader ends have no influence on the result for
   that file). *)
Theorem Decode_denote_full : forall o g rd fuel h rs ss1 f2 g1 extra,
  header_wf h -> h_dsize h = N.of_nat (List.length (ser_records rs)) ->
  starts_with_file_id rs = true -> stream_wf rs = true -> denote rs = Some ss1 ->
  start_file h g (hd dummy_msg (ss_msgs ss1)) = Some (f2, g1) ->
  rd_data rd = fit_file h rs ++ extra ->
  (List.length (rd_data rd) + List.length (rd_sched rd) < fuel)%nat ->
  exists rd' file' f g' q,
    entry_Decode o g rd fuel = TDone (mk_dres None h (Some file') rd' g' q) /\
    route_msgs h g (ss_msgs ss1) = Some (f, g') /\
    f_slots file' = f_slots f /\ f_inited file' = f_inited f /\ f_header file' = h /\
    f_crc file' = file_crc h (ser_records rs) /\
    (o_unkm o = true -> f_unkm file' = Some (sorted_unkm ss1)) /\
    (o_unkf o = true -> f_unkf file' = Some (sorted_unkf ss1)) /\
    rd_pos rd' = (rd_pos rd + List.length (fit_file h rs))%nat /\ rd_data rd' = extra /\
    (forall fuel0, (List.length (fit_file h rs) < fuel0)%nat ->
       exists rd0, entry_Decode o g (alone_reader h rs) fuel0 = TDone (mk_dres None h (Some file') rd0 g' q) /\
                   rd_data rd0 = [] /\ rd_pos rd0 = List.length (fit_file h rs)).
Proof.
  intros o g rd fuel h rs ss1 f2 g1 extra Hh Hsz Hs Hwf Hd Hst Hdata Hfuel. unfold entry_Decode.
  destruct (decode_denote_abstract o h g rs ss1 f2 g1 (put_le16 (file_crc h (ser_records rs)) ++ extra) (rd_term rd)
              Hs Hwf Hd Hst) as (s1 & f & g' & Hrun & Hroute & Hf & Hg & Hm & Hu & _).
  pose proof (decode_frame_full o g h _ _ _ s1 Hh Hsz Hrun) as Hany. fold (fit_file h rs) in Hany.
  destruct (Hany rd fuel extra Hdata Hfuel) as (rd' & Hdec & Hpos & Hrest).
  set (file' := finalize_unknown o (with_file s1 (set_crc (ds_file s1) (file_crc h (ser_records rs))) (ds_g s1))) in *.
  exists rd', file', f, g', (ds_quirks s1).
  rewrite Hdec, Hg. split; [reflexivity|]. split; [exact Hroute|].
  pose proof (route_msgs_header _ _ _ _ _ Hroute) as Hhdr.
  (* the six facts about the File; in the last part file' stays folded *)
  unfold file' at 1 2 3 4 5 6. unfold finalize_unknown, set_crc.
  cbn [with_file ds_file ds_unkm ds_unkf f_slots f_inited f_header f_crc f_unkm f_unkf]. rewrite Hf.
  split; [reflexivity|]. split; [reflexivity|]. split; [exact Hhdr|]. split; [reflexivity|].
  split; [intros Ho; rewrite Ho; now rewrite (Hm Ho)|].
  split; [intros Ho; rewrite Ho; now rewrite (Hu Ho)|].
  split; [exact Hpos|]. split; [exact Hrest|].
  intros fuel0 Hf0.
  destruct (Hany (alone_reader h rs) fuel0 [] (eq_sym (app_nil_r _)) ltac:(unfold alone_reader; cbn [rd_data rd_sched List.length]; lia)) as (rd0 & Hdec0 & Hpos0 & Hrest0).
  exists rd0. rewrite Hdec0, Hg. split; [reflexivity|]. split; [exact Hrest0|exact Hpos0].
Qed.

Theorem Decode_denote : forall o g rd fuel h rs ss1 f2 g1 extra,
  header_wf h -> h_dsize h = N.of_nat (List.length (ser_records rs)) ->
  starts_with_file_id rs = true -> stream_wf rs = true -> denote rs = Some ss1 ->
  start_file h g (hd dummy_msg (ss_msgs ss1)) = Some (f2, g1) ->
  rd_data rd = fit_file h rs ++ extra ->
  (List.length (rd_data rd) + List.length (rd_sched rd) < fuel)%nat ->
  exists rd' file' f g' q,
    entry_Decode o g rd fuel = TDone (mk_dres None h (Some file') rd' g' q) /\
    route_msgs h g (ss_msgs ss1) = Some (f, g') /\
    f_slots file' = f_slots f /\ f_inited file' = f_inited f /\ f_header file' = h /\
    f_crc file' = file_crc h (ser_records rs) /\
    (o_unkm o = true -> f_unkm file' = Some (sorted_unkm ss1)) /\
    (o_unkf o = true -> f_unkf file' = Some (sorted_unkf ss1)) /\
    rd_pos rd' = (rd_pos rd + List.length (fit_file h rs))%nat /\ rd_data rd' = extra.
Proof.
  intros o g rd fuel h rs ss1 f2 g1 extra Hh Hsz Hs Hwf Hd Hst Hdata Hfuel.
  destruct (Decode_denote_full o g rd fuel h rs ss1 f2 g1 extra Hh Hsz Hs Hwf Hd Hst Hdata Hfuel)
    as (rd' & file' & f & g' & q & H1 & H2 & H3 & H4 & H5 & H6 & H7 & H8 & H9 & H10 & _).
  exists rd', file', f, g', q. repeat split; assumption.
Qed.

Print Assumptions Decode_denote_full.
Print Assumptions Decode_denote.

(* the hypotheses are satisfiable: a concrete file, read in chunks of 3, 0, 1 and then 7 bytes at a time *)
From FitV Require Import Proofs.StreamDenoteWitness.
Definition ok_hdr : header := mk_header 12 16 2215 (N.of_nat (List.length (ser_records ok_stream))) fit_dtype 0.
Definition ok_reader : reader := mk_reader (fit_file ok_hdr ok_stream ++ [1; 2; 3]) [3; 0; 1; 7; 7; 7; 7; 7; 7; 7; 7; 7; 7; 7; 7]%nat TEOF true 0.

Lemma ok_hdr_wf : header_wf ok_hdr.
Proof.
  unfold header_wf, ok_hdr. cbn [h_size h_proto h_profile h_dsize h_dtype h_crc].
  repeat split; try (vm_compute; reflexivity); try (right; reflexivity); intros H; try reflexivity; discriminate H.
Qed.

Example Decode_denote_example :
  header_wf ok_hdr /\ h_dsize ok_hdr = N.of_nat (List.length (ser_records ok_stream)) /\
  starts_with_file_id ok_stream = true /\ stream_wf ok_stream = true /\
  (exists ss f2 g1, denote ok_stream = Some ss /\ start_file ok_hdr g_init (hd dummy_msg (ss_msgs ss)) = Some (f2, g1)) /\
  rd_data ok_reader = fit_file ok_hdr ok_stream ++ [1; 2; 3] /\
  (List.length (rd_data ok_reader) + List.length (rd_sched ok_reader) < 200)%nat /\
  (* and the conclusion, recomputed: success, 12 + 53 + 2 bytes consumed *)
  match entry_Decode no_opts g_init ok_reader 200 with
  | TDone r => dr_err r = None /\ rd_pos (dr_rd r) = 67%nat
  | _ => False
  end.
Proof.
  split; [exact ok_hdr_wf|]. split; [reflexivity|].
  split; [vm_compute; reflexivity|]. split; [vm_compute; reflexivity|].
  split; [apply starts_computed; vm_compute; discriminate|].
  split; [reflexivity|]. split; [vm_compute; lia|].
  vm_compute. split; reflexivity.
Qed.
