(* Stream-level decode = denote: the definitions the theorems are stated with.
   - [stream_wf]: the record list is serialisable (every component in its wire range);
   - [Inv]: the invariant relating the decoder state to the state of the reference semantics. *)
From Coq Require Import NArith ZArith List Bool.
From FitV Require Import Model.Values Model.Bytes Model.Base Model.Profile Model.Reflect Model.IO Model.Route
  Model.Components Model.Decode Spec.FitSyntax Spec.RouteSpec Gen.Consts.
Import ListNotations.
Local Open Scope N_scope.

(* the reserved bits 5-6 of a base-type byte are zero (types.Base.Known ignores them, parseFitField does not) *)
Definition canon_bt (f : sfdef) : bool := N.land (sf_btype f) 0x60 =? 0.

Definition rec_wf (r : record) : bool :=
  all_bytes (ser_record r) &&
  match r with
  | RDef l be gmn fds devflag devs => (gmn <? 65536) && forallb canon_bt fds
  | RData l pay dev => true
  | RComp l off pay dev => off <? 32
  end.
Definition stream_wf (rs : list record) : bool := forallb rec_wf rs.

(* the compressed-timestamp rule of the reference semantics *)
Definition roll (r o : N) : N := (r + (o + 32 - r mod 32) mod 32) mod 2 ^ 32.

Definition to_fdef (f : sfdef) : fdef := mk_fdef (sf_num f) (sf_size f) (sf_btype f).

Definition dev_size (devs : list (N * N * N)) : nat :=
  fold_right (fun d acc => let '(_, sz, _) := d in (N.to_nat sz + acc)%nat) 0%nat devs.

(* a slot of the decoder holds the definition the reference environment has for that local type *)
Definition dm_ok (dm : defmsg) (d : sdef) : Prop :=
  dm_be dm = sd_be d /\ dm_gmn dm = sd_gmn d /\ dm_fdefs dm = map to_fdef (sd_fds d) /\
  dev_size (dm_devs dm) = sd_devsize d /\ forallb (compat (sd_gmn d)) (sd_fds d) = true /\
  forallb canon_bt (sd_fds d) = true.

Definition slot_rel (od : option defmsg) (sd : option sdef) : Prop :=
  match od, sd with
  | None, None => True
  | Some dm, Some d => dm_ok dm d
  | _, _ => False
  end.

(* d.hasTimestamp says whether there is a reference; with one, d.timestamp is it and lastTimeOffset its low five bits *)
Definition time_rel (hasts : bool) (ts lo : N) (ref : option N) : Prop :=
  match ref with
  | None => hasts = false
  | Some r => hasts = true /\ ts = r /\ lo = r mod 32
  end.

Record Inv (o : dopts) (pre : list msg) (fb : file) (gb : gstate) (ft : N) (s : dstate) (ss : sstate) : Prop := {
  inv_len : List.length (ds_defs s) = 16%nat;
  inv_defs : forall l, l < 16 -> slot_rel (nth (N.to_nat l) (ds_defs s) None) (lookup_def (ss_env ss) l);
  inv_env16 : forall l d, lookup_def (ss_env ss) l = Some d -> l < 16;
  inv_time : time_rel (ds_hasts s) (ds_ts s) (ds_lastoff s) (ss_ref ss);
  inv_unkm : o_unkm o = true -> ds_unkm s = ss_unkm ss;
  inv_unkf : o_unkf o = true -> ds_unkf s = ss_unkf ss;
  inv_ft : In ft valid_file_types;
  inv_inited : f_inited (ds_file s) = Some ft;
  inv_msgs : exists ms, ss_msgs ss = pre ++ ms /\ adds fb gb ms = AddOk (ds_file s) (ds_g s)
}.
