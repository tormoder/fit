(* C20 -- the spec of Spec/StringSpec.v means what it says: [strip] removes a
   prefix, [names_of] collects the prefix-less names of the constants with a
   given value.  For [decimal], the pieces from which Props/C20.v shows that it
   is the canonical decimal numeral: with enough fuel the digits of
   [decimal_fuel] denote the number (decimal_fuel_value) and a positive number
   starts with a nonzero digit (decimal_fuel_head); [decimal] gives enough fuel
   (lt_pow10_size). *)
From Coq Require Import NArith List String Ascii Bool Lia.
From FitV Require Import Spec.StringSpec Proofs.Util.
Import ListNotations.
Local Open Scope N_scope.

Lemma strip_spec p : forall s r, strip p s = Some r <-> s = (p ++ r)%string.
Proof.
  induction p as [|a p IH]; intros s r; simpl.
  - split; [now intros [= ->]|now intros ->].
  - destruct s as [|b s]; [split; discriminate|].
    destruct (Ascii.eqb_spec a b) as [->|Hne].
    + rewrite IH. split; [now intros ->|now intros [= ->]].
    + split; [discriminate|]. intros [= E _]. congruence.
Qed.

Lemma names_of_spec T consts v s :
  In s (names_of T consts v) <-> exists n, In (n, v) consts /\ s = short_name T n.
Proof.
  unfold names_of. rewrite in_map_iff. split.
  - intros [[n v'] [E Hin]]. apply filter_In in Hin as [Hin Hv]. simpl in *.
    apply N.eqb_eq in Hv. subst. now exists n.
  - intros [n [Hin ->]]. exists (n, v). split; [reflexivity|].
    apply filter_In. split; [assumption|]. simpl. apply N.eqb_refl.
Qed.

Lemma names_of_nonempty T consts n v : In (n, v) consts -> names_of T consts v <> [].
Proof.
  intros Hin E. assert (H : In (short_name T n) (names_of T consts v)) by (apply names_of_spec; now exists n).
  rewrite E in H. contradiction.
Qed.

(* the one finite fact about digits; the rest is arithmetic *)
Lemma digit_char_code d : d < 10 -> N_of_ascii (digit_char d) = 48 + d.
Proof.
  intros H. apply N.eqb_eq. revert d H.
  apply (forall_below 10 (fun d => N_of_ascii (digit_char d) =? 48 + d)). reflexivity.
Qed.

Lemma digit_value_char d : d < 10 -> digit_value (digit_char d) = Some d.
Proof.
  intros H. unfold digit_value. rewrite (digit_char_code d H).
  rewrite (proj2 (N.leb_le 48 _)), (proj2 (N.leb_le _ 57)) by lia. cbn [andb]. f_equal. lia.
Qed.

Lemma digit_char_nonzero d : 0 < d -> d < 10 -> digit_char d <> "0"%char.
Proof.
  intros H0 H E. pose proof (digit_value_char d H) as V. rewrite E in V. compute in V. injection V as <-. lia.
Qed.

Lemma numeral_value_acc_app a : forall b acc,
  numeral_value_acc (a ++ b) acc =
  match numeral_value_acc a acc with Some x => numeral_value_acc b x | None => None end.
Proof.
  induction a as [|c a IH]; intros b acc; simpl; [reflexivity|].
  destruct (digit_value c); [apply IH|reflexivity].
Qed.

Lemma pow10_succ f : 10 ^ N.of_nat (S f) = 10 * 10 ^ N.of_nat f.
Proof. rewrite Nat2N.inj_succ, N.pow_succ_r'. reflexivity. Qed.

Lemma div10_bounds n P : 10 <= n -> n < 10 * P -> 0 < n / 10 < P.
Proof. intros. split; [apply N.div_str_pos|apply N.div_lt_upper_bound]; lia. Qed.

Lemma decimal_fuel_value fuel : forall n, n < 10 ^ N.of_nat fuel ->
  exists k, forall acc, numeral_value_acc (decimal_fuel fuel n) acc = Some (acc * 10 ^ k + n).
Proof.
  induction fuel as [|f IH]; intros n Hn.
  - change (10 ^ N.of_nat 0) with 1 in Hn. exists 0. intros acc. cbn [decimal_fuel numeral_value_acc].
    rewrite N.pow_0_r. f_equal. lia.
  - simpl decimal_fuel. destruct (N.ltb_spec n 10) as [Hlt|Hge].
    + exists 1. intros acc. cbn [numeral_value_acc]. rewrite digit_value_char by assumption.
      rewrite N.pow_1_r. f_equal. lia.
    + rewrite pow10_succ in Hn.
      destruct (IH _ (proj2 (div10_bounds _ _ Hge Hn))) as [k Hk]. exists (N.succ k). intros acc.
      rewrite numeral_value_acc_app, Hk. cbn [numeral_value_acc].
      assert (Hm : n mod 10 < 10) by (apply N.mod_lt; discriminate).
      rewrite digit_value_char by assumption. f_equal.
      rewrite N.pow_succ_r'. pose proof (N.div_mod n 10 ltac:(discriminate)). lia.
Qed.

Lemma decimal_fuel_head fuel : forall n, 0 < n -> n < 10 ^ N.of_nat fuel ->
  exists c r, decimal_fuel fuel n = String c r /\ c <> "0"%char.
Proof.
  induction fuel as [|f IH]; intros n H0 Hn.
  - simpl in Hn. lia.
  - simpl decimal_fuel. destruct (N.ltb_spec n 10) as [Hlt|Hge].
    + eexists _, _. split; [reflexivity|]. now apply digit_char_nonzero.
    + rewrite pow10_succ in Hn. destruct (div10_bounds _ _ Hge Hn) as [Hq0 Hq].
      destruct (IH _ Hq0 Hq) as [c [r [E Hc]]]. rewrite E. simpl. eexists _, _. split; [reflexivity|assumption].
Qed.

Lemma pos_lt_pow2_size p : N.pos p < 2 ^ N.of_nat (Pos.size_nat p).
Proof.
  induction p as [p IH|p IH|]; simpl Pos.size_nat.
  - rewrite Nat2N.inj_succ, N.pow_succ_r'. lia.
  - rewrite Nat2N.inj_succ, N.pow_succ_r'. lia.
  - reflexivity.
Qed.

Lemma lt_pow10_size n : n < 10 ^ N.of_nat (S (N.size_nat n)).
Proof.
  rewrite pow10_succ.
  assert (H : n < 2 ^ N.of_nat (N.size_nat n) \/ n = 0).
  { destruct n as [|p]; [now right|left]. apply pos_lt_pow2_size. }
  assert (Hle : 2 ^ N.of_nat (N.size_nat n) <= 10 ^ N.of_nat (N.size_nat n)) by (apply N.pow_le_mono_l; lia).
  assert (Hp : 0 < 10 ^ N.of_nat (N.size_nat n)) by (apply N.neq_0_lt_0, N.pow_nonzero; discriminate).
  destruct H as [H| ->]; lia.
Qed.

Lemma append_nonempty a c : (a ++ String c EmptyString)%string <> EmptyString.
Proof. destruct a; discriminate. Qed.

Lemma decimal_fuel_nonempty f n : decimal_fuel (S f) n <> EmptyString.
Proof. cbn [decimal_fuel]. destruct (n <? 10); [discriminate|apply append_nonempty]. Qed.
