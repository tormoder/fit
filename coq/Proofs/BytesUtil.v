(* Byte lists and the numbers read off them.  [is_bytes] (Spec/CrcSpec.v) is the predicate; C07Reencode.bytes_lt and
   Forall C01Hoare.isbyte are the same by conversion.  [all_bytes] (Model/Bytes.v) is its boolean form, which the
   specifications spell forallb (fun b => b <? 256); payload_bytes is its use on a record.  Then [list_eqb] of
   Model/Header.v; what Model/Bytes.v defines: the fixed-width readers and writers against get_val, two's complement,
   Go's conversions; and [chunk3] of Model/Decode.v on triples laid out three bytes each. *)
From Coq Require Import NArith ZArith List Bool Lia.
From Coq Require Import ZifyN ZifyNat ZifyBool.
From FitV Require Import Model.Bytes Model.Header Model.Decode Spec.CrcSpec Proofs.Util.
Import ListNotations.
Local Open Scope N_scope.
(* lia and nia know div and mod from here on, in every file that imports this one *)
Ltac Zify.zify_post_hook ::= Z.div_mod_to_equations.

Lemma all_bytes_is_bytes l : all_bytes l = true -> is_bytes l.
Proof.
  intros H. apply Forall_forall. intros x Hx. unfold all_bytes in H. rewrite forallb_forall in H. now apply N.ltb_lt, H.
Qed.

Lemma is_bytes_all_bytes l : is_bytes l -> all_bytes l = true.
Proof. induction 1; simpl; [reflexivity|]. rewrite IHForall, andb_true_r. now apply N.ltb_lt. Qed.

Lemma is_bytes_app a b : is_bytes a -> is_bytes b -> is_bytes (a ++ b).
Proof. unfold is_bytes. intros. apply Forall_app. now split. Qed.

Lemma all_bytes_cons a l : all_bytes (a :: l) = true -> a < 256 /\ all_bytes l = true.
Proof. unfold all_bytes, is_byte. cbn [forallb]. intros H. apply andb_prop in H. destruct H as [H1 H2]. apply N.ltb_lt in H1. auto. Qed.

Lemma all_bytes_cons_eq x l : all_bytes (x :: l) = is_byte x && all_bytes l.
Proof. reflexivity. Qed.

Lemma all_bytes_app_eq a b : all_bytes (a ++ b) = all_bytes a && all_bytes b.
Proof. unfold all_bytes. apply forallb_app. Qed.

Lemma all_bytes_In l x : all_bytes l = true -> In x l -> x < 256.
Proof. unfold all_bytes. rewrite forallb_forall. intros H Hin. apply N.ltb_lt. now apply H. Qed.

Lemma all_bytes_incl e l : all_bytes l = true -> incl e l -> all_bytes e = true.
Proof. unfold all_bytes. rewrite !forallb_forall. auto. Qed.

Lemma all_bytes_split k l : all_bytes l = true -> all_bytes (firstn k l) = true /\ all_bytes (skipn k l) = true.
Proof.
  intros H. rewrite <- (firstn_skipn k l) in H. unfold all_bytes in *. rewrite forallb_app in H.
  now apply andb_prop in H.
Qed.

(* a record's payload, between its header byte and the developer fields *)
Lemma payload_bytes hb pay dev : all_bytes (hb :: pay ++ dev) = true -> all_bytes pay = true.
Proof. unfold all_bytes. cbn [forallb]. rewrite forallb_app, !andb_true_iff. tauto. Qed.

Ltac list_of_len buf H :=
  let a := fresh "a" in let b := fresh "b" in let c := fresh "c" in let d := fresh "d" in
  destruct buf as [|a [|b [|c [|d [|? ?]]]]]; cbn [List.length] in H; try (exfalso; lia).

Lemma list_eqb_iff a b : list_eqb a b = true <-> a = b.
Proof. unfold list_eqb. destruct (list_eq_dec N.eq_dec a b); intuition congruence. Qed.

Lemma list_eqb_refl l : list_eqb l l = true.
Proof. now apply list_eqb_iff. Qed.

Lemma b_at_lt l i : is_bytes l -> b_at l i < 256.
Proof.
  intros H. unfold b_at. revert i. induction H as [|x r Hx Hr IH]; intros [|i]; cbn [nth]; try lia. apply IH.
Qed.

Lemma get_val_1 be a : get_val be [a] = a.
Proof. destruct be; unfold get_val, be_val; cbn [fold_left le_val]; lia. Qed.

Lemma get16_val be l : List.length l = 2%nat -> get16 be l = get_val be l.
Proof. intros H. list_of_len l H. destruct be; unfold get16, be16, le16, get_val, be_val, b_at; cbn [nth fold_left le_val]; lia. Qed.

Lemma get32_val be l : List.length l = 4%nat -> get32 be l = get_val be l.
Proof. intros H. list_of_len l H. destruct be; unfold get32, be32, le32, get_val, be_val, b_at; cbn [nth fold_left le_val]; lia. Qed.

Lemma be_val_app l a : be_val (l ++ [a]) = 256 * be_val l + a.
Proof. unfold be_val. rewrite fold_left_app. reflexivity. Qed.

Lemma be_val_rev l : be_val (rev l) = le_val l.
Proof. induction l as [|a l IH]; [reflexivity|]. cbn [rev le_val]. rewrite be_val_app, IH. lia. Qed.

Lemma pow256_succ n : 2 ^ (8 * N.of_nat (S n)) = 256 * 2 ^ (8 * N.of_nat n).
Proof. rewrite Nnat.Nat2N.inj_succ, N.mul_succ_r, N.pow_add_r. change (2 ^ 8) with 256. lia. Qed.

Lemma get_val_lt be l : all_bytes l = true -> get_val be l < 2 ^ (8 * N.of_nat (List.length l)).
Proof.
  destruct be; unfold get_val.
  - unfold be_val.
    enough (G : forall acc, all_bytes l = true ->
              fold_left (fun acc b => 256 * acc + b) l acc < (acc + 1) * 2 ^ (8 * N.of_nat (List.length l)))
      by (intros H; specialize (G 0 H); lia).
    induction l as [|a r IH]; intros acc H; [cbn; lia|].
    apply all_bytes_cons in H. destruct H as [Ha Hr]. cbn [fold_left List.length]. rewrite pow256_succ.
    specialize (IH (256 * acc + a) Hr). nia.
  - induction l as [|a r IH]; intros H; [cbn; lia|].
    apply all_bytes_cons in H. destruct H as [Ha Hr]. cbn [le_val List.length]. rewrite pow256_succ.
    specialize (IH Hr). lia.
Qed.

Lemma get16_put16 : forall be g, g < 65536 -> get16 be (put16 be g) = g.
Proof.
  intros be g Hg. destruct be; unfold get16, put16, be16, le16, put_be16, put_le16, b_at; cbn [nth]; lia.
Qed.

Lemma put16_length be g : List.length (put16 be g) = 2%nat.
Proof. destruct be; reflexivity. Qed.

Lemma le16_put_le16 x : x < 65536 -> le16 (put_le16 x) = x.
Proof. exact (get16_put16 false x). Qed.

Lemma le32_put_le32 x : x < 2 ^ 32 -> le32 (put_le32 x) = x.
Proof. intros H. change (2 ^ 32) with 4294967296 in H. unfold le32, put_le32, b_at. cbn [nth]. lia. Qed.

Lemma put_le16_le16 a b : a < 256 -> b < 256 -> put_le16 (le16 [a; b]) = [a; b].
Proof. intros Ha Hb. unfold put_le16, le16, b_at. cbn [nth]. f_equal; [lia|f_equal; lia]. Qed.

Lemma put_le32_le32 a b c d : a < 256 -> b < 256 -> c < 256 -> d < 256 -> put_le32 (le32 [a; b; c; d]) = [a; b; c; d].
Proof. intros Ha Hb Hc Hd. unfold put_le32, le32, b_at. cbn [nth]. f_equal; [lia|f_equal; [lia|f_equal; [lia|f_equal; lia]]]. Qed.

Lemma put_le16_bytes x : is_bytes (put_le16 x).
Proof. unfold put_le16. repeat constructor; apply N.mod_lt; discriminate. Qed.

Lemma wrap_u_small bits x : x < 2 ^ bits -> wrap_u bits x = x.
Proof. intros H. unfold wrap_u. now apply N.mod_small. Qed.

Lemma of_signed_lt bits z : of_signed bits z < 2 ^ bits.
Proof.
  unfold of_signed. assert (H : 2 ^ bits <> 0) by (apply N.pow_nonzero; discriminate).
  assert (Hz : (0 < Z.of_N (2 ^ bits))%Z) by lia.
  pose proof (Z.mod_pos_bound z (Z.of_N (2 ^ bits)) Hz) as Hb. apply N2Z.inj_lt. rewrite Z2N.id by lia. lia.
Qed.

Lemma to_signed_range bits x : x < 2 ^ bits ->
  (- Z.of_N (2 ^ (bits - 1)) <= to_signed bits x < Z.of_N (2 ^ (bits - 1)))%Z.
Proof.
  intros Hx. unfold to_signed. destruct (N.eq_dec bits 0) as [->|Hb].
  - change (2 ^ 0) with 1 in Hx. assert (x = 0) as -> by lia. cbv. split; [discriminate|reflexivity].
  - rewrite (pow2_half bits) in * by lia. destruct (N.ltb_spec x (2 ^ (bits - 1))); lia.
Qed.

(* Go's intN(z) of a value that fits intN *)
Lemma wrap_s_small bits z : 0 < bits ->
  (- Z.of_N (2 ^ (bits - 1)) <= z < Z.of_N (2 ^ (bits - 1)))%Z -> wrap_s bits z = z.
Proof.
  intros Hb Hz. unfold wrap_s, of_signed, to_signed. rewrite (pow2_half bits Hb).
  set (h := 2 ^ (bits - 1)) in *.
  assert (E : (z mod Z.of_N (2 * h) = if z <? 0 then z + Z.of_N (2 * h) else z)%Z).
  { destruct (Z.ltb_spec z 0); [rewrite <- (Z_mod_plus_full z 1), Z.mul_1_l|]; apply Z.mod_small; lia. }
  rewrite E. clear E. destruct (Z.ltb_spec z 0); destruct (_ <? h) eqn:E; lia.
Qed.

(* triples laid out three bytes each, under Decode.chunk3 (Grammar.triples is the same function) *)
Lemma chunk3_triples {A} (g : A -> N * N * N) : forall l,
  chunk3 (flat_map (fun a => let '(x, y, z) := g a in [x; y; z]) l) = map g l.
Proof.
  induction l as [|a r IH]; [reflexivity|].
  cbn [flat_map map]. destruct (g a) as [[x y] z]. cbn [app chunk3]. now rewrite IH.
Qed.

Lemma triples_length {A} (g : A -> N * N * N) : forall l,
  List.length (flat_map (fun a => let '(x, y, z) := g a in [x; y; z]) l) = (3 * List.length l)%nat.
Proof.
  induction l as [|a r IH]; [reflexivity|].
  cbn [flat_map]. destruct (g a) as [[x y] z]. cbn [app List.length]. rewrite IH. lia.
Qed.
