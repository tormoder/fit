(* C17, time half: decodeDateTime / encodeTime / IsBaseTime over all uint32
   second counts.  Pure Z arithmetic, no axioms. *)
From Coq Require Import ZArith Lia Bool.
From FitV Require Import Model.FitTime.
Local Open Scope Z_scope.

Lemma wrap64_id z : - 2 ^ 63 <= z < 2 ^ 63 -> wrap64 z = z.
Proof. intros H. unfold wrap64. rewrite Z.mod_small; lia. Qed.

Lemma second_pos : 0 < second.
Proof. reflexivity. Qed.

Lemma u32_scaled u : is_u32 u -> - 2 ^ 63 <= u * second < 2 ^ 63.
Proof. unfold is_u32, second. intros H. lia. Qed.

(* addSec does not saturate for the offsets a uint32 can produce *)
Lemma add_sec_base u : is_u32 u -> add_sec 0 u = u.
Proof.
  unfold is_u32, add_sec, base_abs. intros H.
  rewrite wrap64_id by lia.
  destruct (Z.ltb_spec (0 + 62766662400) (0 + 62766662400 + u));
    destruct (Z.ltb_spec 0 u); cbv [Bool.eqb]; lia.
Qed.

Lemma time_add_base u : is_u32 u -> time_add time_base (u * second) = mk_time u 0 None.
Proof.
  intros H. unfold time_add, time_base. cbn [t_sec t_nsec t_zone].
  rewrite Z.quot_mul by (unfold second; lia).
  rewrite Z.rem_mul by (unfold second; lia).
  change (second <=? 0 + 0) with false. change (0 + 0 <? 0) with false. cbv iota.
  rewrite add_sec_base by assumption. reflexivity.
Qed.

Lemma decode_whole_seconds u : is_u32 u -> decode_date_time u = mk_time u 0 None.
Proof.
  intros H. unfold decode_date_time.
  rewrite wrap64_id by (apply u32_scaled; assumption).
  apply time_add_base; assumption.
Qed.

Lemma decode_is_whole_second u : is_u32 u -> whole_second (decode_date_time u).
Proof.
  intros H. rewrite decode_whole_seconds by assumption.
  unfold whole_second; cbn. unfold is_u32 in H. repeat split; lia.
Qed.

(* Sub against timeBase never saturates on whole seconds a uint32 can count:
   2^32 s is about 136 years, the Duration range about 292 years *)
Lemma sub_no_saturation u : is_u32 u -> time_sub (mk_time u 0 None) time_base = u * second.
Proof.
  intros H. unfold time_sub, time_base. cbn [t_sec t_nsec t_zone].
  rewrite Z.sub_0_r, Z.add_0_r.
  rewrite (wrap64_id u) by (unfold is_u32 in H; lia).
  rewrite !(wrap64_id (u * second)) by (apply u32_scaled; assumption).
  fold time_base. rewrite time_add_base by assumption.
  unfold time_equal. cbn [t_sec t_nsec]. rewrite !Z.eqb_refl. reflexivity.
Qed.

Lemma encode_whole_seconds u : is_u32 u -> encode_time (mk_time u 0 None) = u.
Proof.
  intros H. unfold encode_time. rewrite sub_no_saturation by assumption.
  rewrite Z.quot_mul by (unfold second; lia).
  unfold to_uint32. apply Z.mod_small. exact H.
Qed.

Lemma encode_zone_irrelevant s n z z' : encode_time (mk_time s n z) = encode_time (mk_time s n z').
Proof. unfold encode_time, time_sub, time_equal, time_before. cbn [t_sec t_nsec t_zone]. reflexivity. Qed.

(* encodeTime is the inverse on the image of decodeDateTime: stated for the
   image only, which is what the property asks *)
Theorem time_roundtrip u : is_u32 u -> encode_time (decode_date_time u) = u.
Proof.
  intros H. rewrite decode_whole_seconds by assumption. apply encode_whole_seconds; assumption.
Qed.

Theorem decode_injective u v : is_u32 u -> is_u32 v -> decode_date_time u = decode_date_time v -> u = v.
Proof.
  intros Hu Hv E. rewrite !decode_whole_seconds in E by assumption. congruence.
Qed.

Theorem isbasetime_iff u : is_u32 u -> (is_base_time (decode_date_time u) = true <-> u = 0).
Proof.
  intros H. rewrite decode_whole_seconds by assumption.
  unfold is_base_time, time_equal, time_base. cbn [t_sec t_nsec].
  rewrite Z.eqb_refl, andb_true_r. apply Z.eqb_eq.
Qed.

Lemma isbasetime_spec t : is_base_time t = true <-> t_sec t = 0 /\ t_nsec t = 0.
Proof.
  unfold is_base_time, time_equal, time_base. cbn [t_sec t_nsec].
  rewrite andb_true_iff, !Z.eqb_eq. tauto.
Qed.

(* the saturating branches of Sub are real: a witness far in the future *)
Lemma sub_saturates_somewhere : time_sub (mk_time (2 ^ 34) 0 None) time_base = max_int64.
Proof. vm_compute. reflexivity. Qed.

Example time_roundtrip_nonvacuous :
  is_u32 1000000000 /\ encode_time (decode_date_time 1000000000) = 1000000000 /\
  is_u32 (2 ^ 32 - 1) /\ encode_time (decode_date_time (2 ^ 32 - 1)) = 2 ^ 32 - 1.
Proof. unfold is_u32. repeat split; try lia; vm_compute; reflexivity. Qed.
