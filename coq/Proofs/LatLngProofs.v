(* C17, coordinate half: NewLatitude / NewLongitude / Degrees / New*Degrees /
   String over all int32 semicircle values, on the Flocq binary64 model. *)
From Coq Require Import ZArith Reals Lia Lra Bool String.
From Flocq Require Import Core IEEE754.BinarySingleNaN IEEE754.Binary IEEE754.Bits.
From FitV Require Import Model.LatLng.
From Coq Require Import Ascii Decimal DecimalString DecimalPos DecimalN.
From FitV Require Import Spec.FixedPoint.
Local Open Scope Z_scope.

(* the code's validity range of a latitude *)
Definition lat_code_invalid (s : Z) : Prop := s = 2 ^ 31 - 1 \/ s < - 2 ^ 30 \/ s > 2 ^ 30 - 1.

Lemma new_latitude_cases s :
  (lat_code_invalid s /\ new_latitude s = mk_lat sint32_invalid) \/
  (~ lat_code_invalid s /\ new_latitude s = mk_lat s).
Proof.
  unfold new_latitude, lat_code_invalid, new_latitude_invalid.
  change lat_min with (- 2 ^ 30). change lat_max with (2 ^ 30 - 1). unfold sint32_invalid.
  destruct (Z.eqb_spec s 2147483647) as [E|NE]; [left; split; [lia|reflexivity]|].
  destruct (Z.ltb_spec s (- 2 ^ 30)); [left; split; [lia|reflexivity]|].
  destruct (Z.ltb_spec (2 ^ 30 - 1) s); [left; split; [lia|reflexivity]|].
  right. split; [lia|reflexivity].
Qed.

Theorem lat_invalid_iff s : lat_invalid (new_latitude s) = true <-> lat_code_invalid s.
Proof.
  destruct (new_latitude_cases s) as [[H ->]|[H ->]]; unfold lat_invalid; cbn [lat_semicircles].
  - rewrite Z.eqb_refl. tauto.
  - split; [|tauto]. intros E. apply Z.eqb_eq in E. exfalso. apply H. left. exact E.
Qed.

Theorem lng_invalid_iff s : lng_invalid (new_longitude s) = true <-> s = 2 ^ 31 - 1.
Proof. unfold lng_invalid, new_longitude. cbn [lng_semicircles]. apply Z.eqb_eq. Qed.

(* the literal reading of the property: sentinel, or degrees outside +-90,
   i.e. |s| * 180 / 2^31 > 90 *)
Definition lat_literal_invalid (s : Z) : Prop := s = 2 ^ 31 - 1 \/ Z.abs s * 180 > 90 * 2 ^ 31.

Theorem lat_semicircles_id s :
  (lat_invalid (new_latitude s) = false -> lat_semis (new_latitude s) = s) /\
  (lat_invalid (new_latitude s) = true -> lat_semis (new_latitude s) = sint32_invalid).
Proof.
  unfold lat_semis. destruct (new_latitude_cases s) as [[H E]|[H E]]; rewrite E; unfold lat_invalid; cbn [lat_semicircles].
  - rewrite Z.eqb_refl. split; [discriminate|reflexivity].
  - split; [reflexivity|]. intros E'. apply Z.eqb_eq in E'. exact E'.
Qed.

Theorem lng_semicircles_id s : lng_semis (new_longitude s) = s.
Proof. reflexivity. Qed.

Notation fexp64 := (SpecFloat.fexp 53 1024).
Notation fmt64 := (generic_format radix2 fexp64).
Notation b64R := (B2R 53 1024).
Notation b64fin := (is_finite 53 1024).
Notation rnd64 := (round radix2 fexp64 (round_mode mode_NE)).

Lemma F2R_dyadic k (n : nat) : F2R (Float radix2 k (- Z.of_nat n)) = (IZR k / 2 ^ n)%R.
Proof. unfold F2R. cbn [Fnum Fexp]. rewrite bpow_opp, bpow_powerRZ, <- pow_powerRZ. reflexivity. Qed.

Lemma fmt_dyadic k n : Z.abs k < 2 ^ 53 -> (n <= 1074)%nat -> fmt64 (IZR k / 2 ^ n)%R.
Proof.
  intros Hk Hn. rewrite <- F2R_dyadic. change fexp64 with (FLT_exp (-1074) 53). apply generic_format_FLT.
  exists (Float radix2 k (- Z.of_nat n)); [reflexivity|exact Hk|cbn [Fexp]; lia].
Qed.

Lemma fmt_IZR k : Z.abs k < 2 ^ 53 -> fmt64 (IZR k).
Proof. intros Hk. replace (IZR k) with (IZR k / 2 ^ 0)%R by lra. apply fmt_dyadic; lia. Qed.

Lemma round_between a b x : fmt64 a -> fmt64 b -> (a <= x <= b)%R -> (a <= rnd64 x <= b)%R.
Proof.
  intros Fa Fb [Ha Hb]. assert (Valid_exp fexp64) by (apply fexp_correct; reflexivity).
  split; [apply round_ge_generic|apply round_le_generic]; auto using valid_rnd_round_mode.
Qed.

Lemma lt_emax x : (Rabs x <= 9007199254740992)%R -> (Rabs x < bpow radix2 1024)%R.
Proof.
  intros H. apply Rle_lt_trans with (1 := H). change (bpow radix2 1024) with (IZR (2 ^ 1024)). apply IZR_lt. reflexivity.
Qed.

Lemma b64_of_Z_exact z : Z.abs z < 2 ^ 53 -> b64R (b64_of_Z z) = IZR z /\ b64fin (b64_of_Z z) = true.
Proof.
  intros H. pose proof (binary_normalize_correct 53 1024 eq_refl eq_refl mode_NE z 0 false) as C.
  replace (F2R (Float radix2 z 0)) with (IZR z) in C by (unfold F2R; cbn [Fnum Fexp bpow]; ring).
  rewrite round_generic in C by (apply valid_rnd_round_mode || apply fmt_IZR, H).
  rewrite Rlt_bool_true in C by (apply lt_emax; rewrite <- abs_IZR; apply IZR_le; lia).
  destruct C as (C1 & C2 & _). split; assumption.
Qed.

Lemma b64_mult_R (x y : binary64) r : b64fin x = true -> b64fin y = true ->
  rnd64 (b64R x * b64R y) = r -> (Rabs r <= 9007199254740992)%R ->
  b64R (b64_mult mode_NE x y) = r /\ b64fin (b64_mult mode_NE x y) = true.
Proof.
  intros Fx Fy Er Hr. pose proof (Bmult_correct 53 1024 eq_refl eq_refl binop_nan_pl64 mode_NE x y) as C.
  rewrite Er, Fx, Fy, Rlt_bool_true in C by apply lt_emax, Hr.
  destruct C as (C1 & C2 & _). split; assumption.
Qed.

Lemma int32_of_b64_R (x : binary64) : b64fin x = true -> is_i32 (Ztrunc (b64R x)) -> int32_of_b64 x = Ztrunc (b64R x).
Proof.
  intros Fx [Hlo Hhi]. unfold int32_of_b64. rewrite Fx.
  replace (Btrunc 53 1024 x) with (Ztrunc (b64R x)).
  - apply Z.leb_le in Hlo, Hhi. rewrite Hlo, Hhi. reflexivity.
  - apply eq_IZR. rewrite Btrunc_correct by reflexivity.
    unfold round, scaled_mantissa, cexp, FIX_exp, F2R. cbn [Fnum Fexp Z.opp bpow]. rewrite !Rmult_1_r. reflexivity.
Qed.

(* a finite d strictly between lo and hi passes the range test of New*Degrees *)
Lemma range_test_false (d : binary64) lo hi :
  b64fin d = true -> Z.abs lo < 2 ^ 53 -> Z.abs hi < 2 ^ 53 -> (IZR lo < b64R d < IZR hi)%R ->
  b64_ge d (b64_of_Z hi) || b64_le d (b64_of_Z lo) = false.
Proof.
  intros Hd Hlo Hhi Hr.
  destruct (b64_of_Z_exact lo Hlo) as [Vlo Flo]. destruct (b64_of_Z_exact hi Hhi) as [Vhi Fhi].
  unfold b64_ge, b64_le, b64_compare. rewrite !Bcompare_correct by assumption. rewrite Vlo, Vhi.
  rewrite Rcompare_Lt, Rcompare_Gt by apply Hr. reflexivity.
Qed.

(* value and finiteness of a positive float from its computed (proof-free) form *)
Lemma B2R_of_FF (x : binary64) m (n : nat) :
  B2FF 53 1024 x = F754_finite false m (- Z.of_nat n) -> b64R x = (IZR (Zpos m) / 2 ^ n)%R /\ b64fin x = true.
Proof.
  destruct x as [sx|sx|sx pl Hpl|sx mx ex Hx]; cbn [B2FF]; try discriminate.
  intros E. injection E as -> -> ->. split; [apply F2R_dyadic|reflexivity].
Qed.

(* 180 / math.Pow(2, 31) is exact *)
Lemma semi_to_deg_exact : b64R semi_to_deg = (180 / 2 ^ 31)%R /\ b64fin semi_to_deg = true.
Proof.
  destruct (B2R_of_FF semi_to_deg 6333186975989760 76) as [H1 H2]; [vm_compute; reflexivity|].
  split; [rewrite H1; lra|exact H2].
Qed.

(* math.Pow(2, 31) / 180 is rounded, upwards: 180 / 2^31 times this is 1 + 44 / 2^60 *)
Lemma deg_to_semi_val : b64R deg_to_semi = (6405119470038039 / 2 ^ 29)%R /\ b64fin deg_to_semi = true.
Proof. apply (B2R_of_FF deg_to_semi _ 29). vm_compute. reflexivity. Qed.

(* float64(s) * semiToDegFactor for any int32 s: exact *)
Definition degrees_of (s : Z) : binary64 := b64_mult mode_NE (b64_of_Z s) semi_to_deg.

Lemma i32_abs s : is_i32 s -> Z.abs s <= 2 ^ 31.
Proof. unfold is_i32, min_int32, max_int32. lia. Qed.

Lemma IZR_i32_bound s : Z.abs s <= 2 ^ 31 -> (- 2147483648 <= IZR s <= 2147483648)%R.
Proof. intros H. split; [apply (IZR_le (-2147483648))|apply (IZR_le _ 2147483648)]; lia. Qed.

Lemma degrees_of_exact s : Z.abs s <= 2 ^ 31 ->
  b64R (degrees_of s) = (IZR s * 180 / 2 ^ 31)%R /\ b64fin (degrees_of s) = true.
Proof.
  intros Hs. destruct (b64_of_Z_exact s ltac:(lia)) as [Hx Fx]. destruct semi_to_deg_exact as [Hy Fy].
  pose proof (IZR_i32_bound s Hs).
  apply b64_mult_R; [exact Fx|exact Fy| |apply Rabs_le; lra].
  rewrite Hx, Hy. replace (IZR s * (180 / 2 ^ 31))%R with (IZR (s * 45) / 2 ^ 29)%R by (rewrite mult_IZR; lra).
  rewrite round_generic; [rewrite mult_IZR; lra|apply valid_rnd_round_mode|apply fmt_dyadic; lia].
Qed.

Lemma lng_degrees_unfold s : lng_invalid (new_longitude s) = false -> lng_degrees (new_longitude s) = degrees_of s.
Proof. unfold lng_degrees, lng_invalid. intros ->. reflexivity. Qed.

Lemma lat_degrees_unfold s : lat_invalid (new_latitude s) = false -> lat_degrees (new_latitude s) = degrees_of s.
Proof.
  intros H. pose proof (proj1 (lat_semicircles_id s) H) as Hs. unfold lat_semis in Hs.
  unfold lat_degrees. unfold lat_invalid in H. rewrite H, Hs. reflexivity.
Qed.

Theorem lng_degrees_exact s : is_i32 s -> lng_invalid (new_longitude s) = false ->
  b64R (lng_degrees (new_longitude s)) = (IZR s * 180 / 2 ^ 31)%R /\
  b64fin (lng_degrees (new_longitude s)) = true.
Proof. intros Hs Hv. rewrite lng_degrees_unfold by exact Hv. apply degrees_of_exact, i32_abs, Hs. Qed.

Theorem lat_degrees_exact s : is_i32 s -> lat_invalid (new_latitude s) = false ->
  b64R (lat_degrees (new_latitude s)) = (IZR s * 180 / 2 ^ 31)%R /\
  b64fin (lat_degrees (new_latitude s)) = true.
Proof. intros Hs Hv. rewrite lat_degrees_unfold by exact Hv. apply degrees_of_exact, i32_abs, Hs. Qed.

Lemma finite_not_nan (x : binary64) : b64fin x = true -> is_nan 53 1024 x = false.
Proof. destruct x; try reflexivity; discriminate. Qed.

(* s * (1 + e) leans away from zero by at most 1/2; s and s +- 1/2 are binary64 numbers, so the
   rounded product stays between them and truncation toward zero restores s *)
Lemma trunc_back s e : Z.abs s <= 2 ^ 31 -> (0 <= e <= / 2 ^ 32)%R ->
  let p := rnd64 (IZR s * (1 + e)) in
  Ztrunc p = s /\ (Rabs p <= 2147483649)%R.
Proof.
  intros Hs He p. pose proof (IZR_i32_bound s Hs).
  assert (Hmid : fmt64 (IZR s)) by (apply fmt_IZR; lia).
  destruct (Z.le_ge_cases 0 s) as [H0|H0]; apply IZR_le in H0.
  - assert (Hp : (IZR s <= p <= IZR (2 * s + 1) / 2 ^ 1)%R).
    { apply round_between; [exact Hmid|apply fmt_dyadic; lia|rewrite plus_IZR, mult_IZR; nra]. }
    rewrite plus_IZR, mult_IZR in Hp.
    split; [|apply Rabs_le; lra]. rewrite Ztrunc_floor by lra. apply Zfloor_imp. rewrite plus_IZR. lra.
  - assert (Hp : (IZR (2 * s - 1) / 2 ^ 1 <= p <= IZR s)%R).
    { apply round_between; [apply fmt_dyadic; lia|exact Hmid|rewrite minus_IZR, mult_IZR; nra]. }
    rewrite minus_IZR, mult_IZR in Hp.
    split; [|apply Rabs_le; lra]. rewrite Ztrunc_ceil by lra. apply Zceil_imp. rewrite minus_IZR. lra.
Qed.

(* int32(degrees * degToSemiFactor) *)
Definition semis_of_degrees (d : binary64) : Z := int32_of_b64 (b64_mult mode_NE d deg_to_semi).

(* 180 / 2^31 times degToSemiFactor is 1 + 44 / 2^60 *)
Lemma semis_back_exact s : Z.abs s < 2 ^ 31 -> semis_of_degrees (degrees_of s) = s.
Proof.
  intros Hs. destruct (degrees_of_exact s ltac:(lia)) as [Hx Fx]. destruct deg_to_semi_val as [Hy Fy].
  destruct (trunc_back s (44 / 2 ^ 60)) as [T B]; [lia|lra|].
  replace (IZR s * (1 + 44 / 2 ^ 60))%R with (b64R (degrees_of s) * b64R deg_to_semi)%R in T, B by (rewrite Hx, Hy; lra).
  destruct (b64_mult_R _ _ _ Fx Fy eq_refl) as [Hp Fp]; [eapply Rle_trans; [exact B|lra]|].
  rewrite <- Hp in T.
  unfold semis_of_degrees. rewrite int32_of_b64_R; rewrite ?T; [reflexivity|exact Fp|].
  unfold is_i32, min_int32, max_int32. lia.
Qed.

Theorem lng_deg_roundtrip_exact s : is_i32 s -> lng_invalid (new_longitude s) = false ->
  (-180 < b64R (lng_degrees (new_longitude s)) < 180)%R ->
  new_longitude_degrees (lng_degrees (new_longitude s)) = new_longitude s.
Proof.
  intros Hs Hv Hr. destruct (lng_degrees_exact s Hs Hv) as [Hx Hf].
  assert (Hs2 : - 2 ^ 31 < s).
  { apply lt_IZR. rewrite Hx in Hr. change (IZR (- 2 ^ 31)) with (-2147483648)%R. lra. }
  unfold new_longitude_degrees. rewrite range_test_false by (assumption || reflexivity).
  rewrite lng_degrees_unfold by exact Hv.
  fold (semis_of_degrees (degrees_of s)).
  unfold is_i32, min_int32, max_int32 in Hs.
  rewrite semis_back_exact by lia. reflexivity.
Qed.

Theorem lat_deg_roundtrip_exact s : is_i32 s -> lat_invalid (new_latitude s) = false ->
  (-90 < b64R (lat_degrees (new_latitude s)) < 90)%R ->
  new_latitude_degrees (lat_degrees (new_latitude s)) = new_latitude s.
Proof.
  intros Hs Hv Hr. destruct (lat_degrees_exact s Hs Hv) as [Hx Hf].
  unfold new_latitude_degrees. rewrite range_test_false by (assumption || reflexivity).
  rewrite lat_degrees_unfold by exact Hv.
  fold (semis_of_degrees (degrees_of s)).
  destruct (new_latitude_cases s) as [[C _]|[Hc E]].
  - apply lat_invalid_iff in C. congruence.
  - unfold lat_code_invalid in Hc. rewrite semis_back_exact by lia. symmetry. exact E.
Qed.

Example roundtrip_hypotheses :
  is_i32 703539217 /\ lat_invalid (new_latitude 703539217) = false /\
  (-90 < b64R (lat_degrees (new_latitude 703539217)) < 90)%R /\
  lng_invalid (new_longitude (-2000000000)) = false /\
  (-180 < b64R (lng_degrees (new_longitude (-2000000000))) < 180)%R.
Proof.
  assert (H1 : is_i32 703539217) by (unfold is_i32, min_int32, max_int32; lia).
  assert (H2 : is_i32 (-2000000000)) by (unfold is_i32, min_int32, max_int32; lia).
  assert (V1 : lat_invalid (new_latitude 703539217) = false) by (vm_compute; reflexivity).
  assert (V2 : lng_invalid (new_longitude (-2000000000)) = false) by (vm_compute; reflexivity).
  destruct (lat_degrees_exact _ H1 V1) as [E1 _]. destruct (lng_degrees_exact _ H2 V2) as [E2 _].
  rewrite E1, E2. split; [exact H1|]. split; [exact V1|]. split; [lra|]. split; [exact V2|lra].
Qed.

Notation fexp32 := (SpecFloat.fexp 24 128).
Notation b32R := (B2R 24 128).
Notation rnd32 := (round radix2 fexp32 (round_mode mode_NE)).

Definition fixed_value (sn : bool * Z) : R :=
  ((if fst sn then -1 else 1) * (IZR (snd sn) / 100000))%R.

Lemma rhe_div_spec a b : 0 <= a -> 0 < b -> Z.abs (2 * (rhe_div a b * b - a)) <= b /\ 0 <= rhe_div a b.
Proof.
  intros Ha Hb. unfold rhe_div.
  pose proof (Z.div_mod a b ltac:(lia)) as E. pose proof (Z.mod_pos_bound a b Hb) as Hr.
  pose proof (Z.div_pos a b Ha Hb) as Hq.
  set (q := a / b) in *. set (r := a mod b) in *.
  destruct (Z.ltb_spec (2 * r) b); [|destruct (Z.ltb_spec b (2 * r)); [|destruct (Z.even q)]]; nia.
Qed.

Lemma rhe_div_real a b : 0 <= a -> 0 < b -> (Rabs (IZR (rhe_div a b) - IZR a / IZR b) <= / 2)%R.
Proof.
  intros Ha Hb. destruct (rhe_div_spec a b Ha Hb) as [H _].
  set (n := rhe_div a b) in *.
  assert (HB : (0 < IZR b)%R) by (apply IZR_lt; exact Hb).
  apply Z.abs_le in H. destruct H as [H1 H2].
  apply IZR_le in H1, H2. rewrite opp_IZR in H1. rewrite !mult_IZR, !minus_IZR, !mult_IZR in H1, H2.
  set (d := (IZR n - IZR a / IZR b)%R).
  assert (Ed : (d * IZR b = IZR n * IZR b - IZR a)%R) by (unfold d; field; lra).
  apply Rabs_le. split; nra.
Qed.

Lemma scaled_round_spec m e :
  (Rabs (IZR (scaled_round m e 5) - F2R (Float radix2 (Zpos m) e) * 100000) <= / 2)%R /\ 0 <= scaled_round m e 5.
Proof.
  unfold scaled_round, F2R. cbn [Fnum Fexp]. destruct (Z.leb_spec 0 e) as [He|He].
  - split; [|pose proof (Z.pow_nonneg 2 e); lia].
    rewrite !mult_IZR, (IZR_Zpower radix2) by exact He. change (IZR (10 ^ 5)) with 100000%R.
    rewrite Rminus_diag_eq, Rabs_R0 by reflexivity. lra.
  - assert (Hb : 0 < 2 ^ (- e)) by (apply Z.pow_pos_nonneg; lia).
    destruct (rhe_div_spec (Z.pos m * 10 ^ 5) (2 ^ (- e)) ltac:(lia) Hb) as [_ Hn]. split; [|exact Hn].
    replace (IZR (Z.pos m) * bpow radix2 e * 100000)%R with (IZR (Z.pos m * 10 ^ 5) / IZR (2 ^ (- e)))%R;
      [apply rhe_div_real; lia|].
    rewrite mult_IZR, (IZR_Zpower radix2), bpow_opp by lia. change (IZR (10 ^ 5)) with 100000%R.
    field. apply Rgt_not_eq, bpow_gt_0.
Qed.

Lemma b32_of_b64_spec (x : binary64) : b64fin x = true -> (Rabs (b64R x) < 256)%R ->
  is_finite 24 128 (b32_of_b64 x) = true /\ (Rabs (b32R (b32_of_b64 x) - b64R x) <= / 131072)%R.
Proof.
  intros Hf Hx. assert (V32 : Valid_exp fexp32) by (apply fexp_correct; reflexivity).
  destruct x as [sx|sx|sx pl Hpl|sx mx ex Hb]; try discriminate.
  - cbn. split; [reflexivity|]. rewrite Rminus_0_r, Rabs_R0. lra.
  - unfold b32_of_b64.
    set (r := b64R (B754_finite 53 1024 sx mx ex Hb)) in *.
    pose proof (binary_normalize_correct 24 128 eq_refl eq_refl mode_NE (cond_Zopp sx (Zpos mx)) ex sx) as H.
    change (F2R (Float radix2 (cond_Zopp sx (Z.pos mx)) ex)) with r in H.
    assert (F256 : generic_format radix2 fexp32 256%R).
    { change 256%R with (bpow radix2 8). apply generic_format_bpow. cbv. discriminate. }
    assert (Hle : (Rabs (rnd32 r) <= 256)%R).
    { apply abs_round_le_generic; [exact V32|apply valid_rnd_round_mode|exact F256|lra]. }
    rewrite Rlt_bool_true in H.
    2:{ apply Rle_lt_trans with (1 := Hle). change (bpow radix2 128) with (IZR (2 ^ 128)). apply IZR_lt. reflexivity. }
    destruct H as (H1 & H2 & _). split; [exact H2|]. rewrite H1.
    assert (NZ : r <> 0%R) by (apply F2R_neq_0; destruct sx; discriminate).
    eapply Rle_trans; [apply (error_le_half_ulp radix2 fexp32 (fun z => negb (Z.even z)) r)|].
    rewrite ulp_neq_0 by exact NZ.
    assert (Hm : (mag radix2 r <= 8)%Z) by (apply mag_le_bpow; [exact NZ|exact Hx]).
    assert (He : (cexp radix2 fexp32 r <= -16)%Z) by (unfold cexp, SpecFloat.fexp, SpecFloat.emin; lia).
    apply (bpow_le radix2) in He. change (bpow radix2 (-16)) with (/ 65536)%R in He. lra.
Qed.

Lemma fixed_of_b32_spec (y : binary32) : is_finite 24 128 y = true ->
  exists sn, fixed_of_b32 precision y = Some sn /\ 0 <= snd sn /\
             (Rabs (fixed_value sn - b32R y) <= 5 / 1000000)%R.
Proof.
  destruct y as [sy|sy|sy pl Hpl|sy my ey Hb]; try discriminate; intros _; unfold precision;
    eexists; (split; [reflexivity|]); unfold fixed_value; cbn [fst snd B2R].
  - split; [lia|]. apply Rabs_le. destruct sy; lra.
  - destruct (scaled_round_spec my ey) as [Hn Hpos]. split; [exact Hpos|].
    rewrite F2R_cond_Zopp. apply Rabs_le_inv in Hn. apply Rabs_le. destruct sy; cbn [cond_Ropp]; lra.
Qed.

(* FormatFloat(x, 'f', 5, 32) of a finite |x| < 256 is the rendering of a
   (sign, n) whose value +-n/10^5 is within 2^-17 + 5e-6 < 2e-5 of x *)
Lemma format_close (x : binary64) : b64fin x = true -> (Rabs (b64R x) < 256)%R ->
  exists sn, format_f5_32 x = render5 sn /\ 0 <= snd sn /\
             (Rabs (fixed_value sn - b64R x) <= 2 / 100000)%R.
Proof.
  intros Hf Hx. destruct (b32_of_b64_spec x Hf Hx) as [Hfy Hy].
  destruct (fixed_of_b32_spec _ Hfy) as (sn & E & Hn & Hc).
  exists sn. unfold format_f5_32. rewrite E. split; [reflexivity|]. split; [exact Hn|].
  apply Rabs_le_inv in Hy, Hc. apply Rabs_le. lra.
Qed.

Example coord_examples :
  is_i32 703539217 /\ lat_invalid (new_latitude 703539217) = false /\
  lat_string (new_latitude 703539217) = "58.96997"%string /\
  lat_semis (new_latitude_degrees (lat_degrees (new_latitude 703539217))) = 703539217 /\
  lng_string (new_longitude (- 2 ^ 31)) = "-180.00000"%string /\
  lng_string (new_longitude (2 ^ 23)) = "0.70312"%string /\
  lat_invalid (new_latitude (- 2 ^ 30)) = false /\ lat_invalid (new_latitude (2 ^ 30)) = true.
Proof. unfold is_i32, min_int32, max_int32. repeat split; try lia; vm_compute; reflexivity. Qed.

Fixpoint nodot (s : string) : bool :=
  match s with EmptyString => true | String c r => negb (Ascii.eqb c ".") && nodot r end.

Lemma nodot_uint d : nodot (NilEmpty.string_of_uint d) = true.
Proof. induction d; cbn; auto. Qed.

Lemma split_dot_app a b : nodot a = true -> split_dot (a ++ String "." b) = Some (a, b).
Proof.
  induction a as [|c a IH]; cbn; intros H; [reflexivity|].
  apply andb_true_iff in H. destruct H as [H1 H2]. apply negb_true_iff in H1. rewrite H1.
  rewrite IH by exact H2. reflexivity.
Qed.

Lemma to_uint_nonnil n : N.to_uint n <> Nil.
Proof. destruct n; cbn; [discriminate|apply DecimalPos.Unsigned.to_uint_nonnil]. Qed.

Lemma strip_sign_dec_string q t : strip_sign (dec_string q ++ t) = (false, (dec_string q ++ t)%string).
Proof.
  unfold dec_string. pose proof (to_uint_nonnil (Z.to_N q)) as H.
  destruct (N.to_uint (Z.to_N q)); try contradiction; reflexivity.
Qed.

Lemma dec_string_nodot q : nodot (dec_string q) = true.
Proof.
  unfold dec_string, NilZero.string_of_uint.
  destruct (N.to_uint (Z.to_N q)) eqn:E; try (rewrite <- E; apply nodot_uint). reflexivity.
Qed.

Lemma parse_dec_string q : 0 <= q -> parse_nat (dec_string q) = Some q.
Proof.
  intros Hq. unfold parse_nat, dec_string.
  rewrite NilZero.usu by apply to_uint_nonnil. cbn [option_map].
  rewrite DecimalN.Unsigned.of_to, Z2N.id by exact Hq. reflexivity.
Qed.

Lemma digit_val_mod x : digit_val (digit_char (x mod 10)) = Some (x mod 10).
Proof.
  pose proof (Z.mod_pos_bound x 10 ltac:(lia)) as H.
  assert (C : x mod 10 = 0 \/ x mod 10 = 1 \/ x mod 10 = 2 \/ x mod 10 = 3 \/ x mod 10 = 4 \/
              x mod 10 = 5 \/ x mod 10 = 6 \/ x mod 10 = 7 \/ x mod 10 = 8 \/ x mod 10 = 9) by lia.
  repeat (destruct C as [->|C]; [reflexivity|]). now rewrite C.
Qed.

Lemma parse_frac5_frac5 r : 0 <= r < 100000 -> parse_frac5 (frac5 r) = Some r.
Proof.
  intros Hr. unfold frac5, parse_frac5. rewrite !digit_val_mod. f_equal.
  Z.div_mod_to_equations. lia.
Qed.

Theorem parse_render5 neg n : 0 <= n -> parse_fixed5 (render5 (neg, n)) = Some (neg, n).
Proof.
  intros Hn. unfold render5, parse_fixed5.
  pose proof (Z.div_pos n 100000 Hn ltac:(lia)) as Hq.
  pose proof (Z.mod_pos_bound n 100000 ltac:(lia)) as Hr.
  assert (Es : strip_sign ((if neg then "-" else "") ++ dec_string (n / 100000) ++ "." ++ frac5 (n mod 100000))
               = (neg, (dec_string (n / 100000) ++ String "." (frac5 (n mod 100000)))%string)).
  { destruct neg; [reflexivity|apply strip_sign_dec_string]. }
  rewrite Es. rewrite split_dot_app by apply dec_string_nodot.
  rewrite parse_dec_string by exact Hq. rewrite parse_frac5_frac5 by exact Hr.
  f_equal. f_equal. pose proof (Z.div_mod n 100000 ltac:(lia)). lia.
Qed.

Lemma degrees_of_parse_close s : Z.abs s <= 2 ^ 31 ->
  exists sn, parse_fixed5 (format_f5_32 (degrees_of s)) = Some sn /\
             (Rabs (fixed_value sn - b64R (degrees_of s)) <= 2 / 100000)%R.
Proof.
  intros Hs. destruct (degrees_of_exact s Hs) as [Hx Fx]. pose proof (IZR_i32_bound s Hs).
  destruct (format_close (degrees_of s) Fx) as ([neg n] & E & Hn & Hc); [rewrite Hx; apply Rabs_lt; lra|].
  exists (neg, n). rewrite E. split; [apply parse_render5; exact Hn|exact Hc].
Qed.

Example parse_example : parse_fixed5 "-58.96997" = Some (true, 5896997) /\ parse_fixed5 "Invalid" = None.
Proof. split; reflexivity. Qed.
