(* C06 at stream level: assembly of encode_is_serialize_recs (C06Lay), lay_denote (C06Denote), the stream
   theorem Decode_denote (StreamDenoteDecode) and route_roundtrip_g (C06Route). *)
From Coq Require Import NArith ZArith List Bool Lia String.
From FitV Require Import Model.Values Model.Bytes Model.Base Model.Profile Model.Crc Model.Header Model.IO
  Model.Components Model.Route Model.Encode Model.Decode Spec.CrcSpec Spec.FitSyntax Spec.Grammar Spec.RoundTrip Spec.RouteSpec
  Proofs.Util Proofs.EncodeProofs Proofs.C05Grammar Proofs.C05Wire Proofs.C06Defs Proofs.C06Lay Proofs.C06Denote Proofs.C06Route
  Proofs.StreamDenoteDefs Proofs.StreamDenoteLift Proofs.StreamDenoteMain Proofs.StreamDenoteFrame Proofs.StreamDenoteDecode
  Proofs.EncExamples Gen.Consts Gen.ProfileData Gen.RoutingData.
Import ListNotations.
Local Open Scope N_scope.

Lemma file_msgs_dom f : wf_file f = true -> in_domain f = true -> Forall msg_dom (file_msgs f).
Proof.
  intros Hwf%file_msgs_typed Hdom. unfold in_domain in Hdom. rewrite forallb_forall in Hdom. rewrite Forall_forall in *.
  intros m Hin. destruct (Hwf m Hin) as [Ht Hk]. exact (conj Ht (conj (Hdom m Hin) Hk)).
Qed.

(* What the statement claims is spelled out at Props/C06.v, C06_roundtrip.  There is no side condition on the
   times in the File: the decoder's two time-rule defects (C12) are repaired (fixed: ac9b0b0, 2f21531), so
   Decode_denote holds for every well-formed stream, and a local_date_time value reads back with the wall clock
   reading written whatever the reference is (C06Denote.norm_local_time_of). *)
Theorem roundtrip f be bs f' o g rd fuel extra :
  wf_file f = true -> wf_header (f_header f) = true ->
  proto_ok (h_proto (f_header f)) = true -> h_profile (f_header f) < 65536 ->
  in_domain f = true -> ginv g ->
  encode f be = EOk (bs, f') -> N.of_nat (List.length bs) < 4294967296 ->
  rd_data rd = bs ++ extra -> (List.length (rd_data rd) + List.length (rd_sched rd) < fuel)%nat ->
  exists rd' file' g' q,
    entry_Decode o g rd fuel =
      TDone (mk_dres None (wire_header (f_header f) (N.of_nat (List.length (ser_records (file_recs f be))))) (Some file') rd' g' q) /\
    content_eq6 f file' = true /\ ginv g' /\ rd_data rd' = extra /\ rd_pos rd' = (rd_pos rd + List.length bs)%nat.
Proof.
  intros Hwf Hh Hpo Hpr Hdom Hg Henc Hlen Hrd Hfuel.
  pose proof (encode_is_serialize_recs f be bs f' Hwf Hh Hpo Hpr Henc Hlen) as HS. cbv zeta in HS.
  set (rs := file_recs f be) in *. set (h := wire_header (f_header f) (N.of_nat (List.length (ser_records rs)))) in *.
  destruct HS as (Hbs & Hhw & Hds & Hlay & Hswf & Hst).
  destruct (lay_denote be _ _ Hlay (file_msgs_dom f Hwf Hdom) ss_init) as (ss1 & msgs' & Hden & Hmsgs & HF & _ & _).
  cbn [ss_msgs ss_init app] in Hmsgs.
  destruct (route_roundtrip_g f msgs' h g Hwf Hdom HF Hg) as (f2 & g1 & fr & gr & Hstart & Hroute & Hgr & Hcontent).
  rewrite <- Hmsgs in Hstart, Hroute.
  rewrite Hbs in Hrd.
  destruct (Decode_denote o g rd fuel h rs ss1 f2 g1 extra Hhw Hds Hst Hswf Hden Hstart Hrd Hfuel)
    as (rd' & file' & fd & g' & q & Hdec & Hroute' & Hsl & Hin & _ & _ & _ & _ & Hpos & Hdata).
  rewrite Hroute in Hroute'. inversion Hroute'; subst fd g'.
  exists rd', file', gr, q. split; [exact Hdec|]. split; [now apply Hcontent|]. split; [exact Hgr|]. split; [exact Hdata|]. now rewrite Hbs.
Qed.

Corollary roundtrip_init f be bs f' rd fuel :
  wf_file f = true -> wf_header (f_header f) = true ->
  proto_ok (h_proto (f_header f)) = true -> h_profile (f_header f) < 65536 ->
  in_domain f = true -> encode f be = EOk (bs, f') -> N.of_nat (List.length bs) < 4294967296 ->
  rd_data rd = bs -> (List.length (rd_data rd) + List.length (rd_sched rd) < fuel)%nat ->
  exists r file', entry_Decode no_opts g_init rd fuel = TDone r /\ dr_err r = None /\ dr_file r = Some file' /\
                  content_eq6 f file' = true.
Proof.
  intros Hwf Hh Hpo Hpr Hdom Henc Hlen Hrd Hfuel.
  destruct (roundtrip f be bs f' no_opts g_init rd fuel [] Hwf Hh Hpo Hpr Hdom ginv_init Henc Hlen) as (rd' & file' & g' & q & Hdec & Hc & _);
    [now rewrite app_nil_r|exact Hfuel|].
  eexists _, file'. split; [exact Hdec|]. cbn [dr_err dr_file]. auto.
Qed.
