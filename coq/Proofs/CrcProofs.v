(* C14: the nibble-table CRC of dyncrc16 is CRC-16/ARC.  The table entry T i is
   four single-bit steps of the bitwise definition applied to i, so one table
   step is four bit steps, updateByte is eight, and feeding the n bytes of a
   little-endian number v is 8n steps of (register xor v) ([update_err_bytes]);
   the residue law is that closed form at v = the register, and C04's burst
   theorems (Proofs/C04Crc.v) are its other instances. *)
From Coq Require Import NArith List Lia Bool.
From FitV Require Import Model.Bytes Gen.CrcTable Model.Crc Spec.CrcSpec Spec.Burst Proofs.Util.
Import ListNotations.
Local Open Scope N_scope.

Definition lin (f : N -> N) := forall a b, f (N.lxor a b) = N.lxor (f a) (f b).

Definition sh (k : N) : N -> N := N.iter k arc_shift1.

(* unfolding the iteration first: comparing the eight nested steps with [sh 8] as they stand is slow *)
Lemma arc_shift8_sh x : arc_shift8 x = sh 8 x.
Proof. unfold arc_shift8, sh, N.iter. cbn [Pos.iter]. reflexivity. Qed.

Lemma arc_step_sh c d : arc_step c d = sh 8 (N.lxor c d).
Proof. unfold arc_step. apply arc_shift8_sh. Qed.

Lemma lin_shift1 : lin arc_shift1.
Proof.
  intros a b. unfold arc_shift1. rewrite N.shiftr_lxor, lxor_swap. f_equal.
  rewrite <- !N.bit0_odd, N.lxor_spec. destruct (N.testbit a 0), (N.testbit b 0); reflexivity.
Qed.

Lemma lin_sh k : lin (sh k).
Proof.
  unfold sh. induction k as [|k IH] using N.peano_ind; intros a b; [reflexivity|].
  now rewrite !N.iter_succ, IH, lin_shift1.
Qed.

Lemma sh_add j k c : sh (j + k) c = sh j (sh k c).
Proof. apply N.iter_add. Qed.

Lemma shift1_double x : arc_shift1 (N.double x) = x.
Proof. destruct x; reflexivity. Qed.

Lemma sh_shiftl k x : sh k (N.shiftl x k) = x.
Proof.
  unfold sh. induction k as [|k IH] using N.peano_ind; [apply N.shiftl_0_r|].
  now rewrite N.iter_succ_r, N.shiftl_succ_r, shift1_double.
Qed.

Lemma sh_split k c : sh k c = N.lxor (N.shiftr c k) (sh k (N.land c (N.ones k))).
Proof. rewrite (split_at k c) at 1. now rewrite lin_sh, sh_shiftl. Qed.

Lemma lxor_lt16 a b : a < 65536 -> b < 65536 -> N.lxor a b < 65536.
Proof. apply (lxor_lt_pow2 a b 16). Qed.

Lemma shift1_lt c : c < 65536 -> arc_shift1 c < 65536.
Proof.
  intros Hc. unfold arc_shift1. apply lxor_lt16.
  - eapply N.le_lt_trans; [apply shiftr_le|assumption].
  - destruct (N.odd c); reflexivity.
Qed.

Lemma sh_lt k c : c < 65536 -> sh k c < 65536.
Proof. apply (N.iter_invariant k N arc_shift1 (fun x => x < 65536)), shift1_lt. Qed.

(* the feedback constant has bit 15 set and the shifted register has not, so
   a step of a 16-bit register gives 0 only from 0 *)
Lemma shift1_kernel c : c < 65536 -> arc_shift1 c = 0 -> c = 0.
Proof.
  intros Hc E. apply N.lxor_eq in E. destruct c as [|[p|p|]]; cbn in E; [reflexivity| |discriminate E..].
  injection E as ->. discriminate Hc.
Qed.

Lemma sh_kernel k : forall c, c < 65536 -> sh k c = 0 -> c = 0.
Proof.
  unfold sh. induction k as [|k IH] using N.peano_ind; intros c Hc E; [assumption|].
  rewrite N.iter_succ_r in E. apply shift1_kernel; [assumption|]. apply IH; [now apply shift1_lt|assumption].
Qed.

(* the 16 entries of the table extracted from the source, checked one by one *)
Lemma T_sh i : i < 16 -> T i = sh 4 i.
Proof.
  intros H. apply N.eqb_eq.
  apply (forall_below 16 (fun i => T i =? sh 4 i)); [vm_compute; reflexivity|assumption].
Qed.

Definition nib (x : N) : N := N.lxor (N.land (N.shiftr x 4) 0x0FFF) (T (N.land x 15)).

Lemma upd_nib c d :
  update_byte c d = N.lxor (nib (N.lxor (nib c) (T (N.land d 15)))) (T (N.land (N.shiftr d 4) 15)).
Proof. reflexivity. Qed.

(* the mask 0x0FFF cuts the register to 16 bits before the step *)
Lemma nib_sh x : nib x = sh 4 (N.land x (N.ones 16)).
Proof.
  unfold nib. rewrite (sh_split 4 (N.land x _)), N.shiftr_land, <- N.land_assoc.
  change (N.shiftr (N.ones 16) 4) with 4095. change (N.land (N.ones 16) (N.ones 4)) with 15.
  now rewrite <- T_sh by apply (land_ones_lt x 4).
Qed.

Theorem update_byte_sh c d : update_byte c d = sh 8 (N.lxor (N.land c (N.ones 16)) (N.land d (N.ones 8))).
Proof.
  set (c' := N.land c (N.ones 16)). set (d' := N.land d (N.ones 8)).
  assert (El : N.land d 15 = N.land d' (N.ones 4)) by (unfold d'; now rewrite <- N.land_assoc).
  assert (Eh : N.land (N.shiftr d 4) 15 = N.shiftr d' 4) by (unfold d'; now rewrite N.shiftr_land).
  assert (Hin : sh 4 (N.lxor c' (N.land d 15)) < 65536)
    by (apply sh_lt, lxor_lt16; apply (land_lt_pow2 _ _ 16); reflexivity).
  rewrite upd_nib, (nib_sh c), !T_sh by apply (land_ones_lt _ 4). fold c'.
  rewrite <- lin_sh, nib_sh, (land_ones_small _ 16 Hin), <- lin_sh.
  change 8 with (4 + 4) at 1. rewrite sh_add. f_equal.
  rewrite !lin_sh, (sh_split 4 d'), El, Eh, N.lxor_assoc. f_equal. apply N.lxor_comm.
Qed.

Theorem update_is_arc : forall c d, c < 65536 -> d < 256 -> update_byte c d = arc_step c d.
Proof.
  intros c d Hc Hd. now rewrite update_byte_sh, arc_step_sh, (land_ones_small c 16), (land_ones_small d 8).
Qed.

Lemma update_byte_linear : forall c1 c2 d1 d2,
  update_byte (N.lxor c1 c2) (N.lxor d1 d2) = N.lxor (update_byte c1 d1) (update_byte c2 d2).
Proof. intros. now rewrite !update_byte_sh, !land_lxor_l, lxor_swap, lin_sh. Qed.

Lemma update_byte_lt_all : forall c d, update_byte c d < 65536.
Proof.
  intros c d. rewrite update_byte_sh. apply sh_lt, lxor_lt16; apply (land_lt_pow2 _ _ 16); reflexivity.
Qed.

Lemma update_lt_all : forall data c, c < 65536 -> update c data < 65536.
Proof.
  unfold update. induction data as [|b data IH]; intros c Hc; cbn [fold_left]; [assumption|].
  apply IH, update_byte_lt_all.
Qed.

Lemma checksum_lt_all : forall data, checksum data < 65536.
Proof. intros. apply update_lt_all. reflexivity. Qed.

Lemma update_byte_lt c d : c < 65536 -> d < 256 -> update_byte c d < 65536.
Proof. intros _ _. apply update_byte_lt_all. Qed.

Lemma update_arc_from : forall data c, c < 65536 -> is_bytes data -> update c data = fold_left arc_step data c.
Proof.
  intros data c. apply (fold_left_agree update_byte arc_step (fun a => a < 65536) (fun b => b < 256)). intros a b Ha Hb. split; [now apply update_is_arc|apply update_byte_lt_all].
Qed.

Theorem checksum_is_arc : forall data, is_bytes data -> checksum data = arc data.
Proof. intros data H. apply update_arc_from; [reflexivity|assumption]. Qed.

Lemma update_app c a b : update c (a ++ b) = update (update c a) b.
Proof. unfold update. apply fold_left_app. Qed.

Theorem write_split : forall h a b,
  crc_sum16 (crc_write (crc_write h a) b) = crc_sum16 (crc_write h (a ++ b)).
Proof. intros. unfold crc_sum16, crc_write. now rewrite update_app. Qed.

Theorem checksum_is_write : forall data, checksum data = crc_sum16 (crc_write crc_new data).
Proof. reflexivity. Qed.

Lemma lo8_lt x : lo8 x < 256.
Proof. apply (land_ones_lt x 8). Qed.
Lemma hi8_lt x : x < 65536 -> hi8 x < 256.
Proof. intros H. unfold hi8. rewrite N.shiftr_div_pow2. apply N.div_lt_upper_bound; [discriminate|]. exact H. Qed.

Lemma arc_step_lt c d : c < 65536 -> d < 256 -> arc_step c d < 65536.
Proof.
  intros Hc Hd. rewrite arc_step_sh. apply sh_lt, lxor_lt16; [assumption|lia].
Qed.

(* feeding the n bytes of v is 8n single-bit steps of (register xor v): each
   byte cancels into the low end and eight steps bring the next one down *)
Lemma update_err_bytes : forall n c v, c < 65536 -> v < 2 ^ (8 * N.of_nat n) ->
  update c (err_bytes n v) = sh (8 * N.of_nat n) (N.lxor c v).
Proof.
  unfold update. induction n as [|n IH]; intros c v Hc Hv; cbn [err_bytes fold_left].
  - assert (v = 0) as -> by (cbn in Hv; lia). now rewrite N.lxor_0_r.
  - assert (Hb : N.land v 255 < 256) by apply lo8_lt.
    rewrite update_is_arc, arc_step_sh by assumption.
    rewrite IH.
    + replace (8 * N.of_nat (S n)) with (8 * N.of_nat n + 8) by lia.
      rewrite sh_add. f_equal.
      rewrite !lin_sh, (sh_split 8 v), N.lxor_assoc. f_equal. apply N.lxor_comm.
    + apply sh_lt, lxor_lt16; [assumption|]. eapply N.lt_trans; [exact Hb|reflexivity].
    + rewrite N.shiftr_div_pow2. apply N.div_lt_upper_bound; [discriminate|].
      rewrite <- N.pow_add_r. now replace (8 + 8 * N.of_nat n) with (8 * N.of_nat (S n)) by lia.
Qed.

(* feeding the register its own value little-endian clears it *)
Lemma residue_state : forall c, c < 65536 -> update_byte (update_byte c (lo8 c)) (hi8 c) = 0.
Proof.
  intros c Hc. rewrite <- (land_ones_small (hi8 c) 8 (hi8_lt c Hc)). change (update c (err_bytes 2 c) = 0).
  now rewrite update_err_bytes, N.lxor_nilpotent by assumption.
Qed.

Lemma put_le16_lo_hi c : c < 65536 -> put_le16 c = [lo8 c; hi8 c].
Proof.
  intros H. unfold put_le16, lo8, hi8. change 255 with (N.ones 8). rewrite N.land_ones, N.shiftr_div_pow2.
  change (2 ^ 8) with 256. f_equal. f_equal. apply N.mod_small, N.div_lt_upper_bound; [discriminate|exact H].
Qed.

(* a string followed by its checksum, low byte first, leaves the register at zero, whatever the string holds *)
Lemma residue_put_le16 l : update 0 (l ++ put_le16 (checksum l)) = 0.
Proof. rewrite (put_le16_lo_hi _ (checksum_lt_all l)), update_app. apply residue_state, checksum_lt_all. Qed.

Theorem residue_zero : forall data, is_bytes data ->
  checksum (data ++ [lo8 (checksum data); hi8 (checksum data)]) = 0.
Proof. intros data _. rewrite <- (put_le16_lo_hi _ (checksum_lt_all data)). apply residue_put_le16. Qed.
