(* Stream-level decode = denote on the abstract interpreter: [decode_denote_abstract], the whole buffered phase of
   decode on the serialised records, and [route_msgs], [starts_with_file_id], with which it and the entry-point
   theorems (StreamDenoteDecode.v, StreamDenoteChained.v) are stated. *)
From Coq Require Import NArith ZArith List Bool Lia Arith.
From Coq Require Import ZifyN ZifyNat ZifyBool.
From FitV Require Import Proofs.Util Model.Values Model.Bytes Model.Base Model.Profile Model.Reflect Model.IO
  Model.Header Model.Route Model.Components Model.Decode Spec.FitSyntax Spec.RouteSpec Proofs.RouteProofs
  Proofs.DecodeLemmas Gen.Consts
  Proofs.StreamDenoteBase Proofs.StreamDenoteDefs Proofs.StreamDenoteRecord Proofs.StreamDenoteLoop Proofs.StreamDenoteLift.
Import ListNotations.
Local Open Scope N_scope.

(* the File the messages of a stream make: the first one (file_id) before init, init, the others in order *)
Definition route_msgs (h : header) (g : gstate) (msgs : list msg) : option (file * gstate) :=
  match msgs with
  | [] => None
  | m0 :: ms =>
      match start_file h g m0 with
      | Some (f2, g1) => match adds f2 g1 ms with AddOk f g' => Some (f, g') | AddPanic _ => None end
      | None => None
      end
  end.

Definition starts_with_file_id (rs : list record) : bool :=
  match rs with
  | RDef l _ gmn _ _ _ :: RData l' _ _ :: _ => (gmn =? c_MesgNumFileId) && (l =? l')
  | _ => false
  end.

Lemma records_le_bytes : forall rs, (List.length rs <= List.length (ser_records rs))%nat.
Proof.
  induction rs as [|r rest IH]; [cbn; lia|].
  change (ser_records (r :: rest)) with (ser_record r ++ ser_records rest). rewrite app_length.
  pose proof (ser_record_nonempty r). cbn [List.length]. lia.
Qed.

Lemma file_id_shape rs : starts_with_file_id rs = true ->
  exists l be fds (devflag : bool) (devs : list (N * N * N)) pay dev rest,
    rs = RDef l be c_MesgNumFileId fds devflag devs :: RData l pay dev :: rest.
Proof.
  destruct rs as [|[l be gmn fds devflag devs| |] [|[| l' pay dev |] rest]]; try discriminate.
  cbn [starts_with_file_id]. intros [Eg El]%andb_prop. apply N.eqb_eq in Eg, El. subst. now exists l', be, fds, devflag, devs, pay, dev, rest.
Qed.

(* the file_id definition and message r1, r2 of a stream of the domain: parse_file_id_msg reads exactly them, File.init
   then finds the container, and the invariant holds between the state after it and the reference state after r1, r2 *)
Lemma data_prog_prologue o h g rs ss1 f2 g1 :
  starts_with_file_id rs = true -> stream_wf rs = true -> denote rs = Some ss1 ->
  start_file h g (hd dummy_msg (ss_msgs ss1)) = Some (f2, g1) ->
  exists r1 r2 rest ssb s1 ft,
    rs = r1 :: r2 :: rest /\ stream_wf rest = true /\
    denote_from ss_init [r1; r2] = Some ssb /\ denote_from ssb rest = Some ss1 /\
    consumes (parse_file_id_msg o) (ser_record r1 ++ ser_record r2) (init_dstate (new_file h) g) tt s1 /\
    file_init (ds_file s1) = Some f2 /\
    Inv o [hd dummy_msg (ss_msgs ss1)] f2 g1 ft (with_file s1 f2 (ds_g s1)) ssb.
Proof.
  intros (l & be & fds & devflag & devs & pay & dev & rest & ->)%file_id_shape Hwf Hden Hstart.
  cbn [stream_wf forallb] in Hwf. apply andb_prop in Hwf as [Hwf1 [Hwf2 Hwf]%andb_prop].
  destruct (split_prologue l be fds devflag devs pay dev rest ss1 Hden) as (ssb & Eb & Hrest & Hhd).
  rewrite Hhd in Hstart |- *.
  destruct (prologue_consumes o h g l be fds devflag devs pay dev ssb f2 g1 Hwf1 Hwf2 Eb Hstart) as (s1 & ft & Hrun & Hi & HIb).
  do 2 eexists. exists rest, ssb, s1, ft. split; [reflexivity|]. repeat (split; [assumption|]). exact HIb.
Qed.

(* C02 decode_denote, abstract interpreter: every serialisable stream the reference semantics accepts (starting with
   the file_id definition and message, of a file type the library has a container for) is decoded, without error,
   to exactly the messages of [denote], routed in stream order; the whole data part is consumed; the unknown
   counters are the spec's. *)
Theorem decode_denote_abstract : forall o h g rs ss1 f2 g1 tl t,
  starts_with_file_id rs = true -> stream_wf rs = true -> denote rs = Some ss1 ->
  start_file h g (hd dummy_msg (ss_msgs ss1)) = Some (f2, g1) ->
  let L := List.length (ser_records rs) in
  exists s1 f g',
    run_a (data_prog o false (S L)) (mk_ast (ser_records rs ++ tl) t 0 L) (init_dstate (new_file h) g) =
      ROk tt (mk_ast tl t L L) s1 /\
    route_msgs h g (ss_msgs ss1) = Some (f, g') /\ ds_file s1 = f /\ ds_g s1 = g' /\
    (o_unkm o = true -> ds_unkm s1 = ss_unkm ss1) /\ (o_unkf o = true -> ds_unkf s1 = ss_unkf ss1) /\
    (exists ft, Inv o [hd dummy_msg (ss_msgs ss1)] f2 g1 ft s1 ss1).
Proof.
  intros o h g rs ss1 f2 g1 tl t Hshape Hwf Hden Hstart L.
  destruct (data_prog_prologue o h g rs ss1 f2 g1 Hshape Hwf Hden Hstart)
    as (r1 & r2 & rest & ssb & sb & ft & -> & Hwfr & _ & Hrest & Hpro & Hinit & HIb).
  (* the prologue, File.init, then the record loop on the other records *)
  subst L. set (fid := ser_record r1 ++ ser_record r2) in *.
  replace (ser_records (r1 :: r2 :: rest)) with (fid ++ ser_records rest) by (symmetry; apply app_assoc).
  pose proof (records_le_bytes rest) as Hfuel. rewrite <- app_assoc, app_length.
  rewrite (data_prog_run _ _ _ _ _ _ _ _ _ Hpro Hinit) by lia.
  destruct (decode_denote_records rest o _ f2 g1 ft _ ssb ss1 tl t (List.length fid) _
              (S (List.length fid + List.length (ser_records rest))) HIb Hwfr Hrest eq_refl ltac:(lia)) as (s1 & Hrun & HI).
  destruct (inv_msgs _ _ _ _ _ _ _ HI) as (ms & Hms & Hadds).
  exists s1, (ds_file s1), (ds_g s1). split; [exact Hrun|].
  split.
  { unfold route_msgs. rewrite Hms in Hstart |- *. cbn [app hd] in Hstart |- *. rewrite Hstart, Hadds. reflexivity. }
  repeat split; try reflexivity.
  - exact (inv_unkm _ _ _ _ _ _ _ HI).
  - exact (inv_unkf _ _ _ _ _ _ _ HI).
  - exists ft. exact HI.
Qed.

Print Assumptions decode_denote_abstract.
