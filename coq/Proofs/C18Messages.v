(* C18 at the message level: what one expandComponents call does to each named field, and the running
   Distance sum over a message sequence stored by a container that holds records. *)
From Coq Require Import NArith ZArith List Bool String Lia Arith.
From FitV Require Import Proofs.Util Model.Values Model.Reflect Model.Profile Model.Components Model.Route
  Spec.RouteSpec Spec.ComponentSpec Proofs.ComponentProofs Proofs.RouteProofs Proofs.C18Defs Proofs.C15Tables Gen.Consts.
Import ListNotations.
Local Open Scope string_scope.
Local Open Scope N_scope.

(* the name is a struct field of message number n, inside the layout *)
Definition fok (n : N) (name : string) : Prop :=
  exists i, sindex_of n name = Some i /\ (i < List.length (msg_layout n))%nat.

Definition fokb (n : N) (name : string) : bool :=
  match sindex_of n name with Some i => Nat.ltb i (List.length (msg_layout n)) | None => false end.

(* Spec.ProfileWf.nodup_nat written out again; both are Util.nodupb at Nat.eqb by conversion, which is how
   ProfileProofs.nodup_nat_spec, stated of the other, applies below *)
Fixpoint nodup_nat (l : list nat) : bool :=
  match l with [] => true | x :: r => negb (existsb (Nat.eqb x) r) && nodup_nat r end.

(* all names exist, lie inside the layout, and have pairwise distinct indices *)
Definition names_ok (n : N) (names : list string) : bool :=
  forallb (fokb n) names &&
  nodup_nat (map (fun s => match sindex_of n s with Some i => i | None => O end) names).

Lemma fokb_fok n s : fokb n s = true -> fok n s.
Proof.
  unfold fokb, fok. destruct (sindex_of n s) as [i|]; [|discriminate].
  intros H. exists i. split; [reflexivity|]. now apply Nat.ltb_lt.
Qed.

Lemma names_ok_fok n l s : names_ok n l = true -> In s l -> fok n s.
Proof.
  unfold names_ok. intros H Hin. apply andb_prop in H. destruct H as [H _].
  rewrite forallb_forall in H. apply fokb_fok. now apply H.
Qed.

Lemma names_ok_nodup n l : names_ok n l = true -> NoDup (map (sindex_of n) l).
Proof.
  unfold names_ok. intros H. apply andb_prop in H. destruct H as [_ H].
  apply ProfileProofs.nodup_nat_spec in H.
  rewrite <- (map_map (sindex_of n) (fun o => match o with Some i => i | None => O end)) in H.
  exact (NoDup_map_inv _ _ H).
Qed.

Lemma names_ok_ne n l a b : names_ok n l = true -> In a l -> In b l -> a <> b -> sindex_of n a <> sindex_of n b.
Proof.
  intros H Ha Hb Hne E. apply Hne.
  exact (NoDup_map_inj (sindex_of n) l a b (names_ok_nodup n l H) Ha Hb E).
Qed.

Definition record_names : list string :=
  ["Altitude"; "EnhancedAltitude"; "Speed"; "EnhancedSpeed"; "CompressedSpeedDistance"; "Distance";
   "Cycles"; "TotalCycles"; "CompressedAccumulatedPower"; "AccumulatedPower"].
Definition session_lap_names : list string :=
  ["AvgSpeed"; "EnhancedAvgSpeed"; "MaxSpeed"; "EnhancedMaxSpeed"; "AvgAltitude"; "EnhancedAvgAltitude";
   "MaxAltitude"; "EnhancedMaxAltitude"; "MinAltitude"; "EnhancedMinAltitude"].
Definition segment_lap_names : list string :=
  ["AvgAltitude"; "EnhancedAvgAltitude"; "MaxAltitude"; "EnhancedMaxAltitude"; "MinAltitude"; "EnhancedMinAltitude"].
Definition event_names : list string :=
  ["Data16"; "Data"; "Event"; "Score"; "OpponentScore"; "RearGearNum"; "RearGear"; "FrontGearNum"; "FrontGear"].

Lemma record_names_ok : names_ok c_MesgNumRecord record_names = true.
Proof. vm_compute. reflexivity. Qed.
Lemma session_names_ok : names_ok c_MesgNumSession session_lap_names = true.
Proof. vm_compute. reflexivity. Qed.
Lemma lap_names_ok : names_ok c_MesgNumLap session_lap_names = true.
Proof. vm_compute. reflexivity. Qed.
Lemma segment_lap_names_ok : names_ok c_MesgNumSegmentLap segment_lap_names = true.
Proof. vm_compute. reflexivity. Qed.
Lemma event_names_ok : names_ok c_MesgNumEvent event_names = true.
Proof. vm_compute. reflexivity. Qed.

Lemma msg_names_fok m n l s : m_num m = n -> names_ok n l = true -> In s l -> fok (m_num m) s.
Proof. intros ->. apply names_ok_fok. Qed.
Lemma msg_names_ne m n l a b : m_num m = n -> names_ok n l = true -> In a l -> In b l -> a <> b ->
  sindex_of (m_num m) a <> sindex_of (m_num m) b.
Proof. intros ->. apply names_ok_ne. Qed.

Lemma fld_set_eq m a v : msg_shape m -> fok (m_num m) a -> fld (set_fld m a v) a = v.
Proof.
  intros Hs (i & Hi & Hl). apply (fld_set_same m a v i Hi). unfold msg_shape in Hs. now rewrite Hs.
Qed.

Lemma widen16_eq m s d : msg_shape m -> fok (m_num m) d -> uval (fld m s) < 65536 ->
  uval (fld (widen16 m s d) d) = spec_enhanced (uval (fld m s)) (uval (fld m d)).
Proof.
  intros Hs (j & Hj & Hl) Hv. apply (widen16_dst m s d j Hj); [|exact Hv]. unfold msg_shape in Hs. now rewrite Hs.
Qed.

Definition set_flds (m : msg) (kvs : list (string * goval)) : msg :=
  fold_left (fun m kv => set_fld m (fst kv) (snd kv)) kvs m.
(* what the field named b holds after set_flds: the value last assigned to that name, or what it held *)
Fixpoint assigned (b : string) (kvs : list (string * goval)) (v0 : goval) : goval :=
  match kvs with [] => v0 | kv :: r => assigned b r (if String.eqb (fst kv) b then snd kv else v0) end.

Lemma set_flds_cons k v r m : set_flds m ((k, v) :: r) = set_flds (set_fld m k v) r.
Proof. reflexivity. Qed.
Lemma set_flds_num kvs : forall m, m_num (set_flds m kvs) = m_num m.
Proof. induction kvs as [|[k v] r IH]; intros m; [reflexivity|]. rewrite set_flds_cons, IH. apply set_fld_num. Qed.
Lemma set_flds_shape kvs : forall m, msg_shape m -> msg_shape (set_flds m kvs).
Proof. induction kvs as [|[k v] r IH]; intros m H; [assumption|]. rewrite set_flds_cons. now apply IH, set_fld_shape. Qed.

(* names of one names_ok table stand for distinct fields of the struct: assigning by name is assigning by field *)
Lemma set_flds_fld n l b : names_ok n l = true -> In b l -> forall kvs m, incl (map fst kvs) l ->
  m_num m = n -> msg_shape m -> fld (set_flds m kvs) b = assigned b kvs (fld m b).
Proof.
  intros Hok Hb. induction kvs as [|[k v] r IH]; intros m Hks Hn Hs; [cbv [set_flds fold_left assigned]; reflexivity|].
  apply incl_cons_inv in Hks. destruct Hks as [Hk Hr].
  rewrite set_flds_cons, IH by (rewrite ?set_fld_num; auto using set_fld_shape). cbn [assigned fst snd]. f_equal. subst n.
  destruct (String.eqb_spec k b) as [->|Hne].
  - exact (fld_set_eq m b v Hs (names_ok_fok _ l b Hok Hb)).
  - exact (fld_set_ne m k b v (names_ok_ne _ l k b Hok Hk Hb Hne)).
Qed.

Lemma incl_names l ks : forallb (fun s => existsb (String.eqb s) l) ks = true -> incl ks l.
Proof. intros H s Hs. rewrite forallb_forall in H. apply mem_In, H, Hs. Qed.

(* a chain of widen16 steps, as the generated bodies of session, lap, segment_lap and the head of record are *)
Definition widen_all (pairs : list (string * string)) (m : msg) : msg :=
  fold_left (fun m p => widen16 m (fst p) (snd p)) pairs m.
Definition pair_names (pairs : list (string * string)) : list string := flat_map (fun p => [fst p; snd p]) pairs.

(* an instance of Util.fold_left_cons, which holds for any step function; the proofs below rewrite with it, since
   comparing the two sides by conversion has the checker unfold widen16 down to the profile table *)
Lemma widen_all_cons p ps m : widen_all (p :: ps) m = widen_all ps (widen16 m (fst p) (snd p)).
Proof. exact (fold_left_cons _ p ps m). Qed.

Lemma widen_all_num pairs : forall m, m_num (widen_all pairs m) = m_num m.
Proof. induction pairs as [|p ps IH]; intros m; [reflexivity|]. rewrite widen_all_cons, IH. apply widen16_num. Qed.
Lemma widen_all_shape pairs : forall m, msg_shape m -> msg_shape (widen_all pairs m).
Proof. induction pairs as [|p ps IH]; intros m H; [assumption|]. rewrite widen_all_cons. now apply IH, widen16_shape. Qed.
(* side conditions about field names and the message number: the number is rewritten to the constant in Hn, the name
   facts come from the names_ok table of that message, membership in the table and difference of names are closed tests *)
Ltac norm_num :=
  rewrite ?expand_power_num, ?expand_cycles_num, ?expand_csd_num, ?widen16_num, ?set_fld_num, ?widen_all_num.
Ltac names Hn :=
  norm_num; rewrite ?Hn;
  let tbl := lazymatch type of Hn with
             | _ = c_MesgNumRecord => constr:(record_names_ok)
             | _ = c_MesgNumSession => constr:(session_names_ok)
             | _ = c_MesgNumLap => constr:(lap_names_ok)
             | _ = c_MesgNumSegmentLap => constr:(segment_lap_names_ok)
             | _ = c_MesgNumEvent => constr:(event_names_ok)
             end in
  lazymatch goal with
  | |- ?x = ?x => reflexivity
  | |- fok _ _ => apply (names_ok_fok _ _ _ tbl); apply mem_In; reflexivity
  | |- _ <> _ => apply (names_ok_ne _ _ _ _ tbl); [apply mem_In; reflexivity..|discriminate]
  end.
Ltac shapes := repeat (apply set_fld_shape || apply widen16_shape || apply widen_all_shape); assumption.

Lemma widen_all_frame b pairs : forall m, ~ In (sindex_of (m_num m) b) (map (sindex_of (m_num m)) (map snd pairs)) ->
  fld (widen_all pairs m) b = fld m b.
Proof.
  induction pairs as [|p ps IH]; intros m H; [reflexivity|]. cbn [map In] in H.
  rewrite widen_all_cons, IH by (rewrite widen16_num; tauto). apply widen16_ne. intros E. apply H. now left.
Qed.

Lemma in_pair_names s d pairs : In (s, d) pairs -> In s (pair_names pairs) /\ In d (pair_names pairs).
Proof.
  intros H. split; apply in_flat_map; exists (s, d); (split; [assumption|]); cbn; tauto.
Qed.

(* every pair of a chain over distinct struct fields widens its own source into its own destination: the steps
   before it write neither, the steps after it do not write the destination *)
Theorem widen_all_enhanced n rest : forall pairs, names_ok n (pair_names pairs ++ rest) = true ->
  forall m src dst, m_num m = n -> msg_shape m -> In (src, dst) pairs -> uval (fld m src) < 65536 ->
  uval (fld (widen_all pairs m) dst) = spec_enhanced (uval (fld m src)) (uval (fld m dst)).
Proof.
  intros pairs Hok. pose proof (names_ok_nodup _ _ Hok) as Hnd.
  assert (Hfok : forall s, In s (pair_names pairs) -> fok n s)
    by (intros s Hs; apply (names_ok_fok _ _ _ Hok), in_or_app; now left).
  clear Hok. induction pairs as [|[s0 d0] ps IH]; intros m src dst Hn Hs Hin Hv; [contradiction|].
  cbn [pair_names flat_map fst snd app map] in Hnd, Hfok.
  apply NoDup_cons_iff in Hnd. destruct Hnd as [_ Hnd]. apply NoDup_cons_iff in Hnd. destruct Hnd as [Hd0 Hnd].
  rewrite map_app, in_app_iff in Hd0.
  rewrite widen_all_cons. cbn [fst snd]. destruct Hin as [[= -> ->]|Hin].
  - rewrite widen_all_frame; [apply widen16_eq; auto; rewrite Hn; apply Hfok; cbn; tauto|].
    rewrite widen16_num, Hn. intros Hd. apply Hd0. left.
    apply in_map_iff in Hd. destruct Hd as (d & <- & Hd). apply in_map_iff in Hd. destruct Hd as ([s d'] & <- & Hd).
    apply in_map, (in_pair_names s d' ps Hd).
  - destruct (in_pair_names src dst ps Hin) as [Hsrc Hdst].
    assert (Hne : forall b, In b (pair_names ps) -> fld (widen16 m s0 d0) b = fld m b).
    { intros b Hb. apply widen16_ne. rewrite Hn. intros E. apply Hd0. left. rewrite E. now apply in_map. }
    rewrite <- (Hne src Hsrc), <- (Hne dst Hdst).
    apply (IH Hnd); auto.
    + intros s H. apply Hfok. cbn. tauto.
    + now rewrite widen16_num.
    + now apply widen16_shape.
    + now rewrite (Hne src Hsrc).
Qed.

Definition session_lap_pairs : list (string * string) :=
  [("AvgSpeed", "EnhancedAvgSpeed"); ("MaxSpeed", "EnhancedMaxSpeed"); ("AvgAltitude", "EnhancedAvgAltitude");
   ("MaxAltitude", "EnhancedMaxAltitude"); ("MinAltitude", "EnhancedMinAltitude")].
Definition segment_lap_pairs : list (string * string) :=
  [("AvgAltitude", "EnhancedAvgAltitude"); ("MaxAltitude", "EnhancedMaxAltitude"); ("MinAltitude", "EnhancedMinAltitude")].

Lemma expand_session_lap_chain m : expand_session_lap m = widen_all session_lap_pairs m.
Proof. cbv beta zeta iota delta [expand_session_lap widen_all session_lap_pairs fold_left fst snd]. reflexivity. Qed.
Lemma expand_segment_lap_chain m : expand_segment_lap m = widen_all segment_lap_pairs m.
Proof. cbv beta zeta iota delta [expand_segment_lap widen_all segment_lap_pairs fold_left fst snd]. reflexivity. Qed.

Lemma expand_session_lap_num m : m_num (expand_session_lap m) = m_num m.
Proof. rewrite expand_session_lap_chain. apply widen_all_num. Qed.
Lemma expand_segment_lap_num m : m_num (expand_segment_lap m) = m_num m.
Proof. rewrite expand_segment_lap_chain. apply widen_all_num. Qed.

(* the first statement of the generated body: data16 -> data *)
Definition event_data_step (m : msg) : msg :=
  let d16 := uval (fld m "Data16") in
  if d16 =? 0xFFFF then m else set_fld m "Data" (VU (N.land d16 0xFFFF)).
(* the rest: data -> score / opponent_score, or the four gear bytes, as the assignments it makes, given the
   Data and Event it reads *)
Definition event_tail (d ev : N) : list (string * goval) :=
  if d =? 0xFFFFFFFF then [] else
  if ev =? c_EventSportPoint then
    [("Score", VU (N.land d 0xFFFF)); ("OpponentScore", VU (N.land (N.shiftr d 16) 0xFFFF))]
  else if (ev =? c_EventFrontGearChange) || (ev =? c_EventRearGearChange) then
    [("RearGearNum", VU (N.land d 0xFF)); ("RearGear", VU (N.land (N.shiftr d 8) 0xFF));
     ("FrontGearNum", VU (N.land (N.shiftr d 16) 0xFF)); ("FrontGear", VU (N.land (N.shiftr d 24) 0xFF))]
  else [].
Lemma expand_event_steps m : expand_event m =
  set_flds (event_data_step m) (event_tail (uval (fld (event_data_step m) "Data")) (uval (fld (event_data_step m) "Event"))).
Proof.
  unfold expand_event, event_tail, event_data_step. cbv zeta.
  set (m1 := if _ =? 0xFFFF then m else _). clearbody m1. destruct (_ =? 0xFFFFFFFF); [reflexivity|].
  destruct (_ =? c_EventSportPoint); [|destruct (_ || _)]; cbv [set_flds fold_left fst snd]; reflexivity.
Qed.
Lemma event_tail_names d ev : incl (map fst (event_tail d ev)) event_names.
Proof.
  apply incl_names. unfold event_tail.
  destruct (_ =? _); [reflexivity|]. destruct (_ =? _); [reflexivity|]. destruct (_ || _); reflexivity.
Qed.
Lemma event_tail_data d ev v : assigned "Data" (event_tail d ev) v = v.
Proof.
  unfold event_tail. destruct (_ =? _); [reflexivity|]. destruct (_ =? _); [reflexivity|]. destruct (_ || _); reflexivity.
Qed.

(* the value of Data the later statements read *)
Definition event_data (m : msg) : N :=
  let d16 := uval (fld m "Data16") in
  if d16 =? 0xFFFF then uval (fld m "Data") else N.land d16 0xFFFF.

Lemma event_data_step_num m : m_num (event_data_step m) = m_num m.
Proof. unfold event_data_step. cbv zeta. destruct (_ =? _); [reflexivity|apply set_fld_num]. Qed.
Lemma event_data_step_shape m : msg_shape m -> msg_shape (event_data_step m).
Proof. intros H. unfold event_data_step. cbv zeta. destruct (_ =? _); [assumption|now apply set_fld_shape]. Qed.
Lemma expand_event_num m : m_num (expand_event m) = m_num m.
Proof. now rewrite expand_event_steps, set_flds_num, event_data_step_num. Qed.

Lemma event_data_step_data m : m_num m = c_MesgNumEvent -> msg_shape m ->
  fld (event_data_step m) "Data" =
    if uval (fld m "Data16") =? 0xFFFF then fld m "Data" else VU (N.land (uval (fld m "Data16")) 0xFFFF).
Proof.
  intros Hn Hs. unfold event_data_step. cbv zeta. destruct (_ =? _); [reflexivity|].
  apply fld_set_eq; [assumption|names Hn].
Qed.
Lemma event_data_step_uval m : m_num m = c_MesgNumEvent -> msg_shape m ->
  uval (fld (event_data_step m) "Data") = event_data m.
Proof.
  intros Hn Hs. rewrite (event_data_step_data m Hn Hs). unfold event_data. cbv zeta.
  destruct (_ =? _); reflexivity.
Qed.
Lemma event_data_step_event m : m_num m = c_MesgNumEvent -> fld (event_data_step m) "Event" = fld m "Event".
Proof.
  intros Hn. unfold event_data_step. cbv zeta. destruct (_ =? _); [reflexivity|].
  apply fld_set_ne. names Hn.
Qed.

Lemma expand_event_fld m b : m_num m = c_MesgNumEvent -> msg_shape m -> In b event_names ->
  fld (expand_event m) b = assigned b (event_tail (event_data m) (uval (fld m "Event"))) (fld (event_data_step m) b).
Proof.
  intros Hn Hs Hb. rewrite expand_event_steps, (event_data_step_uval m Hn Hs), (event_data_step_event m Hn).
  apply (set_flds_fld _ _ b event_names_ok Hb); [apply event_tail_names|now rewrite event_data_step_num|].
  now apply event_data_step_shape.
Qed.

Theorem event_data_field : forall m, m_num m = c_MesgNumEvent -> msg_shape m ->
  fld (expand_event m) "Data" =
    if uval (fld m "Data16") =? 0xFFFF then fld m "Data" else VU (N.land (uval (fld m "Data16")) 0xFFFF).
Proof.
  intros m Hn Hs. rewrite (expand_event_fld m "Data" Hn Hs (proj1 (mem_In "Data" event_names) eq_refl)), event_tail_data.
  now apply event_data_step_data.
Qed.
Corollary event_data_from_data16 : forall m, m_num m = c_MesgNumEvent -> msg_shape m ->
  uval (fld m "Data16") <> 0xFFFF -> uval (fld m "Data16") < 65536 ->
  fld (expand_event m) "Data" = VU (uval (fld m "Data16")).
Proof.
  intros m Hn Hs Hne Hlt. rewrite (event_data_field m Hn Hs).
  rewrite (proj2 (N.eqb_neq _ _) Hne). now rewrite (land_ones_small _ 16).
Qed.

(* front / rear gear change: the four bytes of the resulting data *)
Theorem event_gear_change : forall m, m_num m = c_MesgNumEvent -> msg_shape m ->
  uval (fld m "Event") = c_EventFrontGearChange \/ uval (fld m "Event") = c_EventRearGearChange ->
  uval (fld m "Data") < 2 ^ 32 -> event_data m <> 0xFFFFFFFF ->
  fld (expand_event m) "RearGearNum" = VU (spec_gear_byte (event_data m) 0) /\
  fld (expand_event m) "RearGear" = VU (spec_gear_byte (event_data m) 1) /\
  fld (expand_event m) "FrontGearNum" = VU (spec_gear_byte (event_data m) 2) /\
  fld (expand_event m) "FrontGear" = VU (spec_gear_byte (event_data m) 3).
Proof.
  intros m Hn Hs Hev _ Hd. destruct (event_bit_slices (event_data m)) as (_ & _ & <- & <- & <- & <-).
  rewrite !(expand_event_fld m _ Hn Hs) by (apply mem_In; reflexivity).
  unfold event_tail. rewrite (proj2 (N.eqb_neq _ _) Hd). destruct Hev as [-> | ->]; repeat split; reflexivity.
Qed.

(* invalid resulting data, or any other event: nothing beyond Data is written *)
Theorem event_otherwise : forall m,
  event_data m = 0xFFFFFFFF \/
  (uval (fld m "Event") <> c_EventSportPoint /\ uval (fld m "Event") <> c_EventFrontGearChange /\
   uval (fld m "Event") <> c_EventRearGearChange) ->
  m_num m = c_MesgNumEvent -> msg_shape m ->
  expand_event m = event_data_step m.
Proof.
  intros m H Hn Hs. rewrite expand_event_steps, (event_data_step_uval m Hn Hs), (event_data_step_event m Hn).
  unfold event_tail. destruct H as [-> | (H1 & H2 & H3)]; [reflexivity|].
  destruct (_ =? 0xFFFFFFFF); [reflexivity|].
  now rewrite (proj2 (N.eqb_neq _ _) H1), (proj2 (N.eqb_neq _ _) H2), (proj2 (N.eqb_neq _ _) H3).
Qed.

(* the three accumulated components, after the two widen16 steps *)
Definition record_tail (g : gstate) (m : msg) : msg * gstate :=
  let r1 := expand_csd g m in
  let r2 := expand_cycles (snd r1) (fst r1) in
  expand_power (snd r2) (fst r2).
Definition record_pairs : list (string * string) := [("Altitude", "EnhancedAltitude"); ("Speed", "EnhancedSpeed")].
Lemma expand_record_steps g m : expand_record g m = record_tail g (widen_all record_pairs m).
Proof. cbv beta zeta iota delta [expand_record record_tail widen_all record_pairs fold_left fst snd]. reflexivity. Qed.

Lemma expand_csd_invalid g m : csd_valid m = false -> expand_csd g m = (m, g).
Proof. unfold expand_csd, csd_valid, csd_bytes. cbv zeta. now intros ->. Qed.
Lemma expand_csd_valid g m b0 b1 b2 : csd_bytes m = [b0; b1; b2] -> csd_valid m = true ->
  expand_csd g m =
    (set_fld (set_fld m "Speed" (VU (N.lor b0 (N.shiftl (N.land b1 0x0F) 8)))) "Distance"
       (VU (fst (accumulate (get_acc (g_dist g) (new_accum 12)) (model_csd_distance_raw b1 b2)))),
     mk_gstate (Some (snd (accumulate (get_acc (g_dist g) (new_accum 12)) (model_csd_distance_raw b1 b2))))
       (g_cycles g) (g_power g)).
Proof. unfold expand_csd, csd_valid, csd_bytes, model_csd_distance_raw. cbv zeta. now intros -> ->. Qed.

Lemma expand_csd_shape g m : msg_shape m -> msg_shape (fst (expand_csd g m)).
Proof. intros H. unfold expand_csd. cbv zeta. destruct (_ && _); cbn [fst]; shapes. Qed.
Lemma expand_cycles_shape g m : msg_shape m -> msg_shape (fst (expand_cycles g m)).
Proof. intros H. unfold expand_cycles. cbv zeta. destruct (_ =? _); cbn [fst]; shapes. Qed.
Lemma expand_power_shape g m : msg_shape m -> msg_shape (fst (expand_power g m)).
Proof. intros H. unfold expand_power. cbv zeta. destruct (_ =? _); cbn [fst]; shapes. Qed.
Lemma record_tail_num g m : m_num (fst (record_tail g m)) = m_num m.
Proof. unfold record_tail. cbv zeta. now rewrite expand_power_num, expand_cycles_num, expand_csd_num. Qed.
Lemma expand_record_shape g m : msg_shape m -> msg_shape (fst (expand_record g m)).
Proof.
  intros H. rewrite expand_record_steps. unfold record_tail. cbv zeta.
  apply expand_power_shape, expand_cycles_shape, expand_csd_shape. shapes.
Qed.

Lemma expand_csd_frame g m b :
  sindex_of (m_num m) "Speed" <> sindex_of (m_num m) b -> sindex_of (m_num m) "Distance" <> sindex_of (m_num m) b ->
  fld (fst (expand_csd g m)) b = fld m b.
Proof.
  intros H1 H2. unfold expand_csd. cbv zeta. destruct (_ && _); cbn [fst]; [|reflexivity].
  rewrite fld_set_ne by (now rewrite set_fld_num). now apply fld_set_ne.
Qed.
Lemma expand_cycles_frame g m b : sindex_of (m_num m) "TotalCycles" <> sindex_of (m_num m) b ->
  fld (fst (expand_cycles g m)) b = fld m b.
Proof. intros H. unfold expand_cycles. cbv zeta. destruct (_ =? _); cbn [fst]; [reflexivity|now apply fld_set_ne]. Qed.
Lemma expand_power_frame g m b : sindex_of (m_num m) "AccumulatedPower" <> sindex_of (m_num m) b ->
  fld (fst (expand_power g m)) b = fld m b.
Proof. intros H. unfold expand_power. cbv zeta. destruct (_ =? _); cbn [fst]; [reflexivity|now apply fld_set_ne]. Qed.
Lemma expand_cycles_dist g m : g_dist (snd (expand_cycles g m)) = g_dist g.
Proof. unfold expand_cycles. cbv zeta. destruct (_ =? _); reflexivity. Qed.
Lemma expand_power_dist g m : g_dist (snd (expand_power g m)) = g_dist g.
Proof. unfold expand_power. cbv zeta. destruct (_ =? _); reflexivity. Qed.

Lemma record_tail_csd g m b : m_num m = c_MesgNumRecord ->
  sindex_of c_MesgNumRecord "TotalCycles" <> sindex_of c_MesgNumRecord b ->
  sindex_of c_MesgNumRecord "AccumulatedPower" <> sindex_of c_MesgNumRecord b ->
  fld (fst (record_tail g m)) b = fld (fst (expand_csd g m)) b.
Proof.
  intros Hn H3 H4. unfold record_tail. cbv zeta.
  rewrite expand_power_frame by (norm_num; now rewrite Hn). apply expand_cycles_frame. norm_num. now rewrite Hn.
Qed.
Lemma record_tail_dist g m : g_dist (snd (record_tail g m)) = g_dist (snd (expand_csd g m)).
Proof. unfold record_tail. cbv zeta. now rewrite expand_power_dist, expand_cycles_dist. Qed.

Lemma record_head_frame m b : m_num m = c_MesgNumRecord ->
  sindex_of c_MesgNumRecord "EnhancedAltitude" <> sindex_of c_MesgNumRecord b ->
  sindex_of c_MesgNumRecord "EnhancedSpeed" <> sindex_of c_MesgNumRecord b ->
  fld (widen_all record_pairs m) b = fld m b.
Proof. intros Hn H1 H2. apply widen_all_frame. rewrite Hn. intros [E|[E|[]]]; [now apply H1|now apply H2]. Qed.
Lemma record_head_csd_bytes m : m_num m = c_MesgNumRecord ->
  csd_bytes (widen_all record_pairs m) = csd_bytes m.
Proof. intros Hn. unfold csd_bytes. now rewrite record_head_frame by (assumption || names Hn). Qed.
Lemma record_head_csd_valid m : m_num m = c_MesgNumRecord ->
  csd_valid (widen_all record_pairs m) = csd_valid m.
Proof. intros Hn. unfold csd_valid. now rewrite record_head_csd_bytes. Qed.

(* the two Enhanced fields of a record; EnhancedSpeed is widened from the Speed the record carries *)
Lemma record_enhanced g m src dst : m_num m = c_MesgNumRecord -> msg_shape m ->
  In (src, dst) record_pairs -> uval (fld m src) < 65536 ->
  uval (fld (fst (expand_record g m)) dst) = spec_enhanced (uval (fld m src)) (uval (fld m dst)).
Proof.
  intros Hn Hs Hin Hv. rewrite expand_record_steps.
  rewrite record_tail_csd, expand_csd_frame by (destruct Hin as [[= <- <-]|[[= <- <-]|[]]]; names Hn).
  now apply (widen_all_enhanced _ (skipn 4 record_names) record_pairs record_names_ok).
Qed.

Theorem record_csd_valid : forall g m b0 b1 b2, m_num m = c_MesgNumRecord -> msg_shape m ->
  csd_bytes m = [b0; b1; b2] -> csd_valid m = true ->
  fld (fst (expand_record g m)) "Distance" =
    VU (fst (accumulate (get_acc (g_dist g) (new_accum 12)) (model_csd_distance_raw b1 b2))) /\
  (b0 < 256 -> b1 < 256 -> fld (fst (expand_record g m)) "Speed" = VU (spec_csd_speed b0 b1)) /\
  g_dist (snd (expand_record g m)) =
    Some (snd (accumulate (get_acc (g_dist g) (new_accum 12)) (model_csd_distance_raw b1 b2))).
Proof.
  intros g m b0 b1 b2 Hn Hs Hb Hv. rewrite expand_record_steps, record_tail_dist, !record_tail_csd by names Hn.
  rewrite (expand_csd_valid g _ b0 b1 b2) by (rewrite ?record_head_csd_bytes, ?record_head_csd_valid; assumption).
  cbn [fst snd g_dist].
  split; [apply fld_set_eq; [shapes|names Hn]|]. split; [|reflexivity].
  intros H0 _. rewrite fld_set_ne by names Hn. rewrite fld_set_eq; [|shapes|names Hn]. now rewrite csd_speed_spec.
Qed.

Theorem record_csd_invalid : forall g m, m_num m = c_MesgNumRecord -> csd_valid m = false ->
  fld (fst (expand_record g m)) "Distance" = fld m "Distance" /\
  fld (fst (expand_record g m)) "Speed" = fld m "Speed" /\
  g_dist (snd (expand_record g m)) = g_dist g.
Proof.
  intros g m Hn Hv. rewrite expand_record_steps, record_tail_dist, !record_tail_csd by names Hn.
  rewrite expand_csd_invalid by (now rewrite record_head_csd_valid). cbn [fst snd].
  split; [|split; [|reflexivity]]; apply record_head_frame; (assumption || names Hn).
Qed.

Lemma csd_all_ff_invalid m : csd_bytes m = [0xFF; 0xFF; 0xFF] -> csd_valid m = false.
Proof. intros H. unfold csd_valid. rewrite H. reflexivity. Qed.
Lemma csd_missing_invalid m : List.length (csd_bytes m) <> 3%nat -> csd_valid m = false.
Proof. intros H. unfold csd_valid. apply Nat.eqb_neq in H. now rewrite H. Qed.

Lemma expand_components_shape g m m' g' : msg_shape m -> expand_components g m = Some (m', g') -> msg_shape m'.
Proof.
  intros Hs H. destruct (expand_components_cases g m m' g' H) as [[_ E]|(_ & _ & [<-|[<-|[<-|[<-|[]]]]])].
  - change m' with (fst (m', g')). rewrite <- E. now apply expand_record_shape.
  - rewrite expand_session_lap_chain. now apply widen_all_shape.
  - rewrite expand_event_steps. now apply set_flds_shape, event_data_step_shape.
  - rewrite expand_segment_lap_chain. now apply widen_all_shape.
  - exact (widen16_shape m _ _ Hs).
Qed.

Lemma expand_components_nonrecord g m m' g' : is_record m = false -> expand_components g m = Some (m', g') -> g' = g.
Proof.
  unfold is_record. intros Hr H. apply N.eqb_neq in Hr.
  destruct (expand_components_cases g m m' g' H) as [[E _]|(_ & E & _)]; [contradiction|exact E].
Qed.

Lemma stored_shape ft g m m' g' : msg_shape m -> stored ft g m = Some (m', g') -> msg_shape m'.
Proof.
  intros Hs H. destruct (stored_cases _ _ _ _ H) as [[= -> _]|E]; [assumption|exact (expand_components_shape _ _ _ _ Hs E)].
Qed.
Lemma stored_nonrecord ft g m m' g' : is_record m = false -> stored ft g m = Some (m', g') -> g' = g.
Proof.
  intros Hr H. destruct (stored_cases _ _ _ _ H) as [[= _ ->]|E]; [reflexivity|exact (expand_components_nonrecord _ _ _ _ Hr E)].
Qed.
Lemma stored_is_record ft g m m' g' : stored ft g m = Some (m', g') -> is_record m' = is_record m.
Proof. intros H. unfold is_record. now rewrite (stored_num ft g m m' g' H). Qed.

(* a file type whose container proper holds the record messages *)
Definition holds_records (ft : N) : Prop :=
  exists i multi, find_slot ft c_MesgNumRecord = Some (i, multi) /\ (NCOMMON <= i)%nat.

Lemma is_record_num m : is_record m = true -> m_num m = c_MesgNumRecord.
Proof. unfold is_record. apply N.eqb_eq. Qed.

Lemma stored_record ft g m r : holds_records ft -> is_record m = true -> stored ft g m = Some r -> expand_record g m = r.
Proof.
  intros (i & multi & Hf & Hi) Hr. apply is_record_num in Hr. unfold stored. rewrite Hr, Hf.
  destruct (Nat.ltb_spec i NCOMMON) as [Hlt|_]; [lia|].
  change (expands c_MesgNumRecord) with true. cbv iota.
  unfold expand_components. cbv zeta. rewrite Hr. intros H. change (Some (expand_record g m) = Some r) in H. congruence.
Qed.

Definition msgs_ok (ms : list msg) : Prop :=
  Forall (fun m => msg_shape m /\ (is_record m = true -> Forall (fun b => b < 256) (csd_bytes m))) ms.
Lemma msgs_ok_shape ms : msgs_ok ms -> Forall msg_shape ms.
Proof. unfold msgs_ok. apply Forall_impl. now intros m [H _]. Qed.

(* the raw 12-bit distance the generated code feeds the accumulator, and the property's own formula *)
Definition raw_of (m : msg) : N :=
  match csd_bytes m with [_; b1; b2] => model_csd_distance_raw b1 b2 | _ => 0 end.
Definition spec_raw_of (m : msg) : N :=
  match csd_bytes m with [_; b1; b2] => spec_csd_distance_raw b1 b2 | _ => 0 end.
(* the Distance accumulator the next record will use *)
Definition dist_acc (g : gstate) : accum := get_acc (g_dist g) (new_accum 12).

Lemma run_accum_cons a v r : run_accum a (v :: r) = fst (accumulate a v) :: run_accum (snd (accumulate a v)) r.
Proof. cbn [run_accum]. destruct (accumulate a v); reflexivity. Qed.

Theorem stored_run_total ft : forall ms g, exists sm gl, stored_run ft g ms = Some (sm, gl).
Proof.
  induction ms as [|m r IH]; intros g; cbn [stored_run]; [eauto|].
  destruct (stored_total ft g m) as (m' & g' & E). rewrite E.
  destruct (IH g') as (sm & gl & E'). rewrite E'. eauto.
Qed.
Theorem stored_run_nums ft : forall ms g sm gl, stored_run ft g ms = Some (sm, gl) ->
  map m_num sm = map m_num ms /\ List.length sm = List.length ms.
Proof.
  apply (stored_run_ind ft (fun _ ms sm _ => map m_num sm = map m_num ms /\ List.length sm = List.length ms)); [now split|].
  intros g m r m' g' l gl E [I1 I2]. cbn [map List.length]. now rewrite I1, I2, (stored_num ft g m m' g' E).
Qed.
Theorem stored_run_shape ft : forall ms g sm gl, Forall msg_shape ms -> stored_run ft g ms = Some (sm, gl) ->
  Forall msg_shape sm.
Proof.
  intros ms g sm gl Hs H. revert Hs.
  refine (stored_run_ind ft (fun _ ms sm _ => Forall msg_shape ms -> Forall msg_shape sm) _ _ ms g sm gl H); [constructor|].
  clear. intros g m r m' g' l gl E IH Hs. inversion Hs as [|? ? Hm Hr]; subst.
  constructor; [exact (stored_shape ft g m m' g' Hm E)|exact (IH Hr)].
Qed.

Lemma record_distance g m : msg_shape m -> is_record m = true ->
  distance_of (fst (expand_record g m)) = (if csd_valid m then fst (accumulate (dist_acc g) (raw_of m)) else distance_of m) /\
  dist_acc (snd (expand_record g m)) = (if csd_valid m then snd (accumulate (dist_acc g) (raw_of m)) else dist_acc g).
Proof.
  intros Hs Hr. apply is_record_num in Hr. unfold distance_of, dist_acc, raw_of. destruct (csd_valid m) eqn:Hv.
  - assert (Hl : List.length (csd_bytes m) = 3%nat).
    { unfold csd_valid in Hv. apply andb_prop in Hv as [Hv _]. apply Nat.eqb_eq, Hv. }
    destruct (csd_bytes m) as [|b0 [|b1 [|b2 [|x l]]]] eqn:Eb; try discriminate.
    destruct (record_csd_valid g m b0 b1 b2 Hr Hs Eb Hv) as (Hd & _ & Hg). rewrite Hd, Hg. split; reflexivity.
  - destruct (record_csd_invalid g m Hr Hv) as (Hd & _ & Hg). rewrite Hd, Hg. split; reflexivity.
Qed.

(* the Distance every stored record must show, threading the accumulator: the accumulated value when the source is
   valid; what the record carried when it is not (and the accumulator does not move) *)
Fixpoint expect_dist (a : accum) (ms : list msg) : list N :=
  match ms with
  | [] => []
  | m :: r =>
      if is_record m then
        if csd_valid m then fst (accumulate a (raw_of m)) :: expect_dist (snd (accumulate a (raw_of m))) r
        else distance_of m :: expect_dist a r
      else expect_dist a r
  end.
(* the Distance values at the positions whose source was valid *)
Fixpoint pick_valid (recs : list msg) (xs : list N) : list N :=
  match recs, xs with
  | m :: r, x :: xs' => if csd_valid m then x :: pick_valid r xs' else pick_valid r xs'
  | _, _ => []
  end.
Fixpoint leave_invalid (recs : list msg) (xs : list N) : list N :=
  match recs, xs with
  | m :: r, x :: xs' => if csd_valid m then leave_invalid r xs' else x :: leave_invalid r xs'
  | _, _ => []
  end.
(* the accumulator the next file of the same process starts from *)
Fixpoint run_accum_state (a : accum) (vals : list N) : accum :=
  match vals with [] => a | v :: r => run_accum_state (snd (accumulate a v)) r end.

(* the general form: valid and invalid sources interleaved with messages of any other type *)
Theorem stream_distance_general ft : holds_records ft -> forall ms g sm gl,
  Forall msg_shape ms -> stored_run ft g ms = Some (sm, gl) ->
  map distance_of (filter is_record sm) = expect_dist (dist_acc g) ms /\
  dist_acc gl = run_accum_state (dist_acc g) (map raw_of (filter csd_valid (filter is_record ms))).
Proof.
  intros Hft ms g sm gl Hs H. revert Hs.
  refine (stored_run_ind ft (fun g ms sm gl => Forall msg_shape ms ->
            map distance_of (filter is_record sm) = expect_dist (dist_acc g) ms /\
            dist_acc gl = run_accum_state (dist_acc g) (map raw_of (filter csd_valid (filter is_record ms))))
            _ _ ms g sm gl H); [now split|].
  clear - Hft. intros g m r m' g' l gl E IH Hs. inversion Hs as [|? ? Hm Hr]; subst. destruct (IH Hr) as [I1 I2].
  cbn [expect_dist filter]. rewrite (stored_is_record ft g m m' g' E).
  destruct (is_record m) eqn:Er; cbn [map filter].
  - destruct (record_distance g m Hm Er) as [D A]. rewrite (stored_record ft g m _ Hft Er E) in D, A. cbn [fst snd] in D, A.
    rewrite D, I1, I2, A. destruct (csd_valid m); split; reflexivity.
  - now rewrite (stored_nonrecord ft g m m' g' Er E) in I1, I2.
Qed.

Lemma expect_dist_all_valid : forall ms a, Forall (fun m => is_record m = true -> csd_valid m = true) ms ->
  expect_dist a ms = run_accum a (map raw_of (filter is_record ms)).
Proof.
  induction ms as [|m r IH]; intros a Hv; [reflexivity|].
  inversion Hv as [|? ? Hm Hr]; subst. cbn [expect_dist filter].
  destruct (is_record m) eqn:Er; [|now apply IH].
  rewrite (Hm eq_refl). cbn [map]. rewrite run_accum_cons. f_equal. now apply IH.
Qed.

Lemma expect_dist_pick : forall ms a,
  List.length (expect_dist a ms) = List.length (filter is_record ms) /\
  pick_valid (filter is_record ms) (expect_dist a ms) =
    run_accum a (map raw_of (filter csd_valid (filter is_record ms))) /\
  leave_invalid (filter is_record ms) (expect_dist a ms) =
    map distance_of (filter (fun m => negb (csd_valid m)) (filter is_record ms)).
Proof.
  induction ms as [|m r IH]; intros a; [now repeat split|].
  cbn [expect_dist filter]. destruct (is_record m) eqn:Er; [|apply IH].
  cbn [filter]. destruct (csd_valid m) eqn:Ev; cbn [List.length pick_valid leave_invalid negb map]; rewrite Ev.
  - rewrite run_accum_cons. destruct (IH (snd (accumulate a (raw_of m)))) as (-> & -> & ->). repeat split.
  - destruct (IH a) as (-> & -> & ->). repeat split.
Qed.

(* the raw value fits the 12 bits the accumulator is created with (it even fits 8: finding csd_high_nibble) *)
Lemma model_csd_distance_raw_bound b1 b2 : b1 < 256 -> model_csd_distance_raw b1 b2 < 4096.
Proof.
  intros H1. unfold model_csd_distance_raw.
  assert (H : N.lor (N.shiftr b1 4) (N.shiftl b2 4 mod 256) < 2 ^ 8).
  { apply lor_lt_pow2.
    - pose proof (shiftr_le b1 4) as Hle. change (2 ^ 8) with 256. lia.
    - change (2 ^ 8) with 256. apply N.mod_lt. discriminate. }
  change (2 ^ 8) with 256 in H. lia.
Qed.

Lemma raw_of_bound m : Forall (fun b => b < 256) (csd_bytes m) -> raw_of m < 2 ^ 32.
Proof.
  intros H. unfold raw_of. change (2 ^ 32) with 4294967296.
  destruct (csd_bytes m) as [|b0 [|b1 [|b2 [|x l]]]]; try lia.
  inversion H as [|? ? _ H']; subst. inversion H' as [|? ? H1 _]; subst.
  pose proof (model_csd_distance_raw_bound b1 b2 H1). lia.
Qed.

Lemma raws_bound ms l : msgs_ok ms -> incl l (filter is_record ms) -> Forall (fun v => v < 2 ^ 32) (map raw_of l).
Proof.
  unfold msgs_ok. rewrite Forall_forall. intros Hok Hl. apply Forall_forall. intros v Hv.
  apply in_map_iff in Hv. destruct Hv as (m & <- & Hin). apply Hl, filter_In in Hin. destruct Hin as [Hm Hr].
  apply raw_of_bound. now apply (Hok m Hm).
Qed.

Lemma run_accum_fresh g ms l : g_dist g = None -> msgs_ok ms -> incl l (filter is_record ms) ->
  run_accum (dist_acc g) (map raw_of l) = spec_accumulate 12 (map raw_of l).
Proof.
  intros Hg Hok Hl. unfold dist_acc. rewrite Hg. apply fresh_accumulator_spec; [lia|exact (raws_bound ms l Hok Hl)].
Qed.

(* where no distance exceeds 8 bits worth of the 12 (high nibble of the third byte clear), the raw value is the
   property's own b1 / 16 + 16 * b2 *)
Lemma raw_of_spec m : Forall (fun b => b < 256) (csd_bytes m) -> nth 2 (csd_bytes m) 0 < 16 -> raw_of m = spec_raw_of m.
Proof.
  intros H H2. unfold raw_of, spec_raw_of.
  destruct (csd_bytes m) as [|b0 [|b1 [|b2 [|x l]]]]; try reflexivity.
  inversion H as [|? ? _ H']; subst. inversion H' as [|? ? H1 _]; subst.
  cbn [nth] in H2. now apply csd_distance_partial.
Qed.
Lemma raws_spec ms : msgs_ok ms -> Forall (fun m => is_record m = true -> nth 2 (csd_bytes m) 0 < 16) ms ->
  map raw_of (filter is_record ms) = map spec_raw_of (filter is_record ms).
Proof.
  unfold msgs_ok. rewrite !Forall_forall. intros Hok Hb. apply map_ext_in. intros m Hin.
  apply filter_In in Hin. destruct Hin as [Hm Hr]. apply raw_of_spec; [now apply (Hok m Hm)|now apply (Hb m Hm)].
Qed.

Lemma activity_holds_records : holds_records 4.
Proof. unfold holds_records. eexists. eexists. split; [vm_compute; reflexivity|]. vm_compute. lia. Qed.

(* a record carrying only compressed_speed_distance = 00 b1 00 *)
Definition csd_record (b1 : N) : list msg :=
  match mesg_all_invalid c_MesgNumRecord with
  | Some m => [set_fld m "CompressedSpeedDistance" (VList [VU 0; VU b1; VU 0])]
  | None => []
  end.

(* finding accum_per_process: the accumulator outlives the file.  A first activity file with one record of raw
   distance 2 leaves the state g; a second file with one record of raw distance 1, decoded in the same process,
   stores Distance 4097 where the property (sum from 0 at the start of the file) says 1. *)
Theorem stream_distance_stale_state_refuted : exists ft prev sm0 g ms sm gl,
  holds_records ft /\ msgs_ok prev /\ msgs_ok ms /\
  Forall (fun m => is_record m = true -> csd_valid m = true) ms /\
  stored_run ft g_init prev = Some (sm0, g) /\ g_dist g <> None /\
  stored_run ft g ms = Some (sm, gl) /\
  map distance_of (filter is_record sm) <> spec_accumulate 12 (map raw_of (filter is_record ms)).
Proof.
  exists 4, (csd_record 32). eexists. eexists. exists (csd_record 16). eexists. eexists.
  (* the side conditions of the two one-record streams: the list constructors are applied first, so that what is
     evaluated is closed (evaluating msgs_ok itself normalises msg_shape under the binder of Forall) *)
  assert (Hok : forall b, In b [32; 16] ->
            msgs_ok (csd_record b) /\ Forall (fun m => is_record m = true -> csd_valid m = true) (csd_record b)).
  { intros b [<-|[<-|[]]]; (split; constructor; try constructor; [split|]); try intros _; vm_compute; repeat constructor. }
  split; [exact activity_holds_records|].
  split; [apply Hok; cbn; tauto|].
  split; [apply Hok; cbn; tauto|].
  split; [apply Hok; cbn; tauto|].
  split; [vm_compute; reflexivity|].
  split; [vm_compute; discriminate|].
  split; [vm_compute; reflexivity|].
  vm_compute. discriminate.
Qed.

Print Assumptions record_csd_valid.
Print Assumptions record_csd_invalid.
Print Assumptions event_gear_change.
Print Assumptions stream_distance_general.
Print Assumptions stream_distance_stale_state_refuted.
