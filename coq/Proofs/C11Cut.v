(* C10 / C11 for the whole entry points, from the two forms of C10Frame.decode_a_need (decode_frame_step,
   decode_a_cut).  decode_frame_local (C10's
   frame_local and C11's beyond_need_unobserved): what follows a file that decodes alone is never looked at.  For
   DecodeChained: chained_then_error (after files that decode alone, the error of the decode that fails is
   reported) and its two instances, a cut inside the next file and a read fault on a file boundary; the one
   exception is the clean end of input on a file boundary after at least one file.  The single-file statement
   (a stream that decodes, cut at any byte or read through a reader that fails from any offset on, yields an error:
   never success, a panic or fuel exhaustion) is proved in Props/C11.v, from decode_a_cut. *)
From Coq Require Import NArith ZArith List Bool Arith Lia.
From FitV Require Import Model.Values Model.Bytes Model.Crc Model.IO Model.Header Model.Route Model.Components
  Model.Decode Gen.Consts Proofs.IOSim Proofs.C10IO Proofs.C10Frame.
Import ListNotations.

(* the converse side (C10): bytes after the frame, and whatever the reader would answer after them, are never
   looked at: the call succeeds with the same results, takes exactly |bs| bytes and leaves the rest *)
Theorem decode_frame_local o md g bs r : md <> MFileIdOnly ->
  decode o md g (solo bs) (solo_fuel bs) = TDone r -> dr_err r = None -> rd_data (dr_rd r) = [] ->
  forall tl rd fuel, rd_data rd = bs ++ tl -> wf rd fuel ->
  exists r', decode o md g rd fuel = TDone r' /\ dr_err r' = None /\ dr_hdr r' = dr_hdr r /\ dr_file r' = dr_file r /\
             dr_g r' = dr_g r /\ dr_quirks r' = dr_quirks r /\
             rd_pos (dr_rd r') = rd_pos rd + length bs /\ rd_data (dr_rd r') = tl.
Proof.
  intros Hm Hd He Hnil tl rd fuel Hdata Hwf.
  destruct (solo_step o md g bs r Hd He Hm Hnil) as (a & Ea & A1 & A2 & A3 & A4 & A5 & A6). rewrite <- (app_nil_r bs) in Ea.
  destruct (decode_frame_step o md g bs [] TEOF a Ea A1 Hm A2 tl rd fuel Hdata Hwf) as (r' & Hr' & [Eerr Ehdr Efile Eg Eq _ _ _ _] & A).
  exists r'. split; [exact Hr'|]. repeat (split; [congruence|]).
  split; [apply (adv_full _ _ _ A); rewrite Hdata, app_length; lia|]. rewrite (adv_data _ _ _ A), Hdata, skipn_app, Nat.sub_diag, skipn_all. reflexivity.
Qed.

(* the chain statement behind the two below and C11_chained_partial_files (Props/C11.v): after the files of a
   chain that decode alone comes an input on which the decode fails; DecodeChained reports that error, with the
   Files of the chain and the File of the failing decode, if it returned one.  The end-of-chain class (clean EOF
   where a size byte is expected) is an error only for the first file. *)
Theorem chained_then_error o g pre fs1 g1 q1 rd fuel tail a e : chain_ok o g pre fs1 g1 q1 ->
  rd_data rd = concat pre ++ tail -> wf rd fuel ->
  decode_a o MFull g1 tail (rd_term rd) = TDone a -> ar_err a = Some e -> (e = EReadSizeEOF -> pre = []) ->
  exists cr, entry_DecodeChained o g rd fuel = TDone cr /\ cr_err cr = Some e /\
             cr_files cr = match ar_file a with Some f => fs1 ++ [f] | None => fs1 end.
Proof.
  intros Hc Hdata Hwf Ea Ee Heof. unfold entry_DecodeChained. destruct (chain_ok_lengths _ _ _ _ _ _ Hc) as [HL _].
  destruct (chain_then o g pre fs1 g1 q1 Hc tail rd fuel 0 (S (length (rd_data rd))) [] [] Hdata Hwf) as (rd1 & A & D1 & ->);
    [rewrite Hdata, app_length; lia|].
  destruct (S (length (rd_data rd)) - length pre) as [|k] eqn:Ek; [rewrite Hdata, app_length in Ek; lia|]. cbn [decode_chained].
  rewrite <- D1, <- (adv_term _ _ _ A) in Ea.
  destruct (decode_of_a o MFull g1 rd1 fuel a (adv_wf _ _ _ _ A Hwf) Ea) as (r & -> & M).
  rewrite (mt_err _ _ _ M), (mt_file _ _ _ M), Ee.
  assert (HM : forall X Y : tout cres, match e, length pre + 0 with EReadSizeEOF, S _ => X | _, _ => Y end = Y).
  { intros X Y. destruct e; try reflexivity. rewrite (Heof eq_refl). reflexivity. }
  rewrite HM. eexists. split; [reflexivity|]. split; reflexivity.
Qed.

(* a cut or a fault inside the file that follows a decodable chain prefix: DecodeChained returns an error, together
   with the Files of the complete files (and at most the partial one).  Cases covered by the side condition:
   the empty input (pre = [], k = 0), a cut strictly inside a file (0 < k), a read fault exactly on a file boundary
   (k = 0, TFault).  The remaining case -- clean EOF exactly on a boundary after at least one file -- is the
   exception: chained_concat for the prefix. *)
Theorem chained_cut_is_error o g pre fs1 g1 q1 bs r : chain_ok o g pre fs1 g1 q1 ->
  decode o MFull g1 (solo bs) (solo_fuel bs) = TDone r -> dr_err r = None -> rd_data (dr_rd r) = [] ->
  forall k rd fuel, k < length bs -> rd_data rd = concat pre ++ firstn k bs -> wf rd fuel ->
  pre = [] \/ 0 < k \/ rd_term rd = TFault ->
  exists cr e, entry_DecodeChained o g rd fuel = TDone cr /\ cr_err cr = Some e /\
               firstn (length fs1) (cr_files cr) = fs1 /\ length (cr_files cr) <= S (length fs1).
Proof.
  intros Hc Hd He Hnil k rd fuel Hk Hdata Hwf Hside.
  destruct (solo_step o MFull g1 bs r Hd He ltac:(discriminate) Hnil) as (a & Ea & A1 & A2 & _).
  destruct (decode_a_cut o MFull g1 bs TEOF a Ea A1 ltac:(discriminate) A2 k (rd_term rd) Hk) as (a' & e & Ea' & Ee & Heof).
  destruct (chained_then_error o g pre fs1 g1 q1 rd fuel _ a' e Hc Hdata Hwf Ea' Ee) as (cr & Hcr & Hce & Hcf).
  { intros E. destruct (Heof E) as [-> Ht]. destruct Hside as [->|[Hs|Hs]]; [reflexivity|lia|congruence]. }
  exists cr, e. split; [exact Hcr|]. split; [exact Hce|]. rewrite Hcf. destruct (ar_file a') as [f|].
  - rewrite firstn_app, Nat.sub_diag, firstn_all, app_length. cbn [firstn length]. rewrite app_nil_r. split; [reflexivity|lia].
  - rewrite firstn_all. split; [reflexivity|lia].
Qed.

Theorem chained_fault_at_end o g pre fs1 g1 q1 : chain_ok o g pre fs1 g1 q1 ->
  forall rd fuel, rd_data rd = concat pre -> rd_term rd = TFault -> wf rd fuel ->
  exists cr e, entry_DecodeChained o g rd fuel = TDone cr /\ cr_err cr = Some e /\ cr_files cr = fs1.
Proof.
  intros Hc rd fuel Hdata Ht Hwf. rewrite <- (app_nil_r (concat pre)) in Hdata.
  destruct (chained_then_error o g pre fs1 g1 q1 rd fuel [] _ EReadSize Hc Hdata Hwf ltac:(rewrite Ht; reflexivity) eq_refl)
    as (cr & Hcr & Hce & Hcf); [discriminate|].
  exists cr, EReadSize. split; [exact Hcr|]. split; [exact Hce|exact Hcf].
Qed.
