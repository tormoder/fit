(* Tie of the accumulator model to the current accumu.go by translation: Gen/AccumuFuncs.v is accumu.go translated
   on every check (harness/gen_accumu.go: the struct of uint32 fields as a record over N, the constructor as a
   function, the pointer-receiver method as a state transformer, uint32 arithmetic written out mod 2^32).  The lemmas
   below prove that the translated constructor and method compute, for EVERY argument and state, what
   Model/Components.v's new_accum / accumulate compute -- the definitions accumulate_spec, the csd lemmas and the
   stream theorems of C18 (and the history / race witnesses of C08 / C09) are about. *)
From Coq Require Import NArith ZArith Lia ZifyN.
From FitV Require Import Proofs.Util Model.Components Gen.AccumuFuncs.
Local Open Scope N_scope.
(* lia is to see through the mod 2^32 of the translated uint32 arithmetic.  The redefinition is global: a file that
   requires this one (Props/C18.v) has it too. *)
Ltac Zify.zify_post_hook ::= Z.div_mod_to_equations.

Definition acc_abs (s : go_uint32Accumulator) : accum := mk_accum (go_accumuValue s) (go_lastValue s) (go_mask s).

(* the uint32 subtraction after the wrapped shift *)
Lemma sub1_mod p : 0 < p -> (p - 1) mod 2 ^ 32 = (p mod 2 ^ 32 + 2 ^ 32 - 1) mod 2 ^ 32.
Proof. intros Hp. change (2 ^ 32) with 4294967296. lia. Qed.

Lemma go_new_accumulator_is bits : acc_abs (go_uint32NewAccumulator bits) = new_accum bits.
Proof.
  unfold acc_abs, go_uint32NewAccumulator, new_accum, u32_sub, u32_shl; cbn [go_accumuValue go_lastValue go_mask].
  f_equal. rewrite N.shiftl_1_l. symmetry. apply sub1_mod, pow2_pos.
Qed.

Lemma go_accumulate_is s v :
  (fst (go_uint32Accumulator_accumulate s v), acc_abs (snd (go_uint32Accumulator_accumulate s v))) = accumulate (acc_abs s) v.
Proof.
  unfold go_uint32Accumulator_accumulate, accumulate, acc_abs, u32_add, u32_sub;
  cbn [fst snd go_accumuValue go_lastValue go_mask ac_value ac_last ac_mask].
  first [ reflexivity | repeat f_equal; lia ].
Qed.

(* new(uint32Accumulator): Go's zero value *)
Lemma go_zero_accumulator_is : acc_abs (mk_go_uint32Accumulator 0 0 0) = zero_accum.
Proof. reflexivity. Qed.

Fixpoint go_run (s : go_uint32Accumulator) (vs : list N) : list N * go_uint32Accumulator :=
  match vs with
  | nil => (nil, s)
  | cons v tl => let '(r, s') := go_uint32Accumulator_accumulate s v in
                 let '(rs, s'') := go_run s' tl in (cons r rs, s'')
  end.
Fixpoint model_run (a : accum) (vs : list N) : list N * accum :=
  match vs with
  | nil => (nil, a)
  | cons v tl => let '(r, a') := accumulate a v in
                 let '(rs, a'') := model_run a' tl in (cons r rs, a'')
  end.

Lemma go_run_is vs : forall s, (fst (go_run s vs), acc_abs (snd (go_run s vs))) = model_run (acc_abs s) vs.
Proof.
  induction vs as [|v tl IH]; intros s; [reflexivity|].
  cbn [go_run model_run]. rewrite <- (go_accumulate_is s v).
  destruct (go_uint32Accumulator_accumulate s v) as [r s']. cbn [fst snd]. rewrite <- (IH s').
  now destruct (go_run s' tl).
Qed.
