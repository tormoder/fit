(* The buffered reader of reader.go (4096-byte buffer, fill capped by limit - n,
   chunked io.Reader with empty reads, EOF or fault, data-with-EOF) simulates
   the abstract byte-list interpreter, for EVERY decoder program.  Seen from
   the reader [rd0] on which the buffered phase started, a state [c] of the
   buffered reader IS a state of the byte-list interpreter, [abs rd0 c];
   [BInv rd0 crc0 c] says what the buffer holds.  ONE walk over fill, readFull
   (readByte is readFull of one byte, [c_byte_take]) and run_c ([run_c_abs]) shows that a concrete run gives up for want
   of fuel (never when the fuel exceeds the reader's measure) or is the abstract
   run, keeps BInv, and leaves the underlying reader advanced ([C10IO.adv]) by
   the bytes taken and buffered: chunking independence (C10), the error on
   truncation/fault (C11), no OutOfFuel at the I/O layer (C01), for any fuel. *)
From Coq Require Import NArith List Bool Arith Lia.
From FitV Require Import Model.Crc Model.IO Proofs.Util Proofs.CrcProofs Proofs.C10IO.
Import ListNotations.

Lemma BUFSZ_pos : 1 <= BUFSZ. Proof. apply Nat.leb_le. vm_compute. reflexivity. Qed.

Definition err_of (limit : nat) (all : list N) (t : term) : ioerr :=
  if Nat.leb limit (length all) then IOBeyond else noEOF t.

Definition abs (rd0 : reader) (c : cst) : ast :=
  mk_ast (skipn (c_n c) (rd_data rd0)) (rd_term rd0) (c_n c) (c_limit c).

Record BInv (rd0 : reader) (crc0 : N) (c : cst) : Prop := {
  i_adv : adv rd0 (c_rd c) (c_n c + length (c_buf c));
  i_rest : skipn (c_n c) (rd_data rd0) = c_buf c ++ rd_data (c_rd c);
  i_in : c_n c <= length (rd_data rd0);
  i_bound : c_n c + length (c_buf c) <= c_limit c;
  i_crc : c_crc c = crc_write crc0 (firstn (c_n c + length (c_buf c)) (rd_data rd0))
}.

Lemma BInv_len rd0 crc0 c : BInv rd0 crc0 c ->
  length (rd_data rd0) = c_n c + length (c_buf c) + length (rd_data (c_rd c)).
Proof.
  intros [_ Hr Hi _ _]. apply (f_equal (@length N)) in Hr. rewrite skipn_length, app_length in Hr. lia.
Qed.

(* the state after an I/O error of the buffered reader in state c *)
Definition err_at (rd0 : reader) (c : cst) (e : ioerr) (c' : cst) : Prop :=
  adv rd0 (c_rd c') (Nat.min (c_limit c) (length (rd_data rd0))) /\
  e = err_of (c_limit c) (rd_data rd0) (rd_term rd0).

Lemma fill_inv rd0 crc0 c : BInv rd0 crc0 c -> c_buf c = [] ->
  match fill c with
  | COk _ c' => BInv rd0 crc0 c' /\ abs rd0 c' = abs rd0 c /\
                length (rd_data (c_rd c')) + length (rd_sched (c_rd c')) <
                length (rd_data (c_rd c)) + length (rd_sched (c_rd c)) /\ c_fuel c = S (c_fuel c')
  | CErr e c' => err_at rd0 c e c' /\ (c_n c = c_limit c \/ c_n c = length (rd_data rd0))
  | CFuel => c_fuel c = 0
  end.
Proof.
  intros HI He. pose proof (BInv_len _ _ _ HI) as Hall. destruct HI as [Ha Hr Hi Hb Hc].
  unfold fill. rewrite He in *. cbn [app length] in *. rewrite Nat.add_0_r in *.
  destruct (c_fuel c) as [|f]; [reflexivity|].
  destruct (Nat.eqb_spec (c_n c) (c_limit c)) as [E|NE].
  - split; [|left; exact E]. unfold err_at, err_of. rewrite (proj2 (Nat.leb_le _ _)) by lia.
    split; [|reflexivity]. apply (adv_min _ _ _ _ Ha). lia.
  - pose proof BUFSZ_pos.
    destruct (rd_read (c_rd c) (Nat.min BUFSZ (c_limit c - c_n c))) as [[bs e] rd'] eqn:Er.
    destruct (rd_read_spec _ _ _ _ _ Er) as (Hd & Hk & Ha' & Hprog & Hend).
    pose proof (adv_trans _ _ _ _ _ Ha Ha') as Ha2.
    (* a refill: the bytes read, possibly none, are the buffer *)
    assert (OK : e = None \/ bs <> [] ->
              let c' := mk_cst rd' bs (c_n c) (c_limit c) (crc_write (c_crc c) bs) f in
              BInv rd0 crc0 c' /\ abs rd0 c' = abs rd0 c /\
              length (rd_data rd') + length (rd_sched rd') < length (rd_data (c_rd c)) + length (rd_sched (c_rd c)) /\ S f = S (c_fuel c')).
    { intros Hp. split; [|split; [reflexivity|split; [apply Hprog; [lia|exact Hp]|reflexivity]]].
      constructor; cbn [c_rd c_buf c_n c_limit c_crc]; try assumption; try lia.
      - now rewrite Hr, Hd.
      - rewrite Hc, firstn_plus, Hr, Hd, firstn_len_app. symmetry. apply update_app. }
    destruct bs as [|x xs]; [destruct e as [t|]|]; [|apply OK; auto|apply OK; right; discriminate].
    cbn [app length] in *. destruct (Hend t eq_refl) as [-> Hnil]. rewrite Hd, Hnil in Hall. cbn [length] in Hall.
    split; [|right; lia]. unfold err_at, err_of. cbn [c_rd c_limit]. rewrite (proj2 (Nat.leb_gt _ _)) by lia.
    split; [apply (adv_min _ _ _ _ Ha2); lia|]. now rewrite (adv_term _ _ _ Ha).
Qed.

(* c' is a later state of the phase that c belongs to: fuel was spent on reads that made the reader shorter *)
Definition later (c c' : cst) : Prop :=
  c_limit c' = c_limit c /\ (wf (c_rd c) (c_fuel c) -> wf (c_rd c') (c_fuel c')).

Lemma later_refl c : later c c.
Proof. split; [reflexivity|exact id]. Qed.

Lemma later_trans c1 c2 c3 : later c1 c2 -> later c2 c3 -> later c1 c3.
Proof. intros [L1 W1] [L2 W2]. split; [congruence|auto]. Qed.

(* a step of readByte / readFull in state c against the abstract take; [val] relates the values *)
Definition step_rel rd0 crc0 (c : cst) (iters : nat) {A} (val : A -> list N -> Prop) (rc : cres A)
    (ra : list N * ast + ioerr) : Prop :=
  match rc, ra with
  | COk x c', inl (l, a') => val x l /\ BInv rd0 crc0 c' /\ a' = abs rd0 c' /\ later c c'
  | CErr e c', inr e' => e = e' /\ err_at rd0 c e c'
  | CFuel, _ => ~ wf (c_rd c) (Nat.min iters (c_fuel c))
  | _, _ => False
  end.

(* the loop body of c_byte and c_take: refill the empty buffer, go on with the refilled state *)
Lemma fill_then rd0 crc0 c iters {A} (val : A -> list N -> Prop) (next : cst -> cres A) k :
  BInv rd0 crc0 c -> c_buf c = [] -> 0 < k ->
  (forall c2, BInv rd0 crc0 c2 -> abs rd0 c2 = abs rd0 c -> step_rel rd0 crc0 c2 iters val (next c2) (a_take k (abs rd0 c))) ->
  step_rel rd0 crc0 c (S iters) val match fill c with COk _ c2 => next c2 | CErr e c2 => CErr e c2 | CFuel => CFuel end
           (a_take k (abs rd0 c)).
Proof.
  intros HI He Hk Hnext. pose proof (fill_inv _ _ _ HI He) as Hf. pose proof (BInv_len _ _ _ HI) as Hall.
  destruct (fill c) as [u c2|e c2|].
  - destruct Hf as (HI2 & Ea & Hdec & Hfu). specialize (Hnext c2 HI2 Ea).
    assert (L : later c c2) by (split; [exact (f_equal a_limit Ea)|unfold wf; lia]).
    unfold step_rel, err_at in *. rewrite (proj1 L) in Hnext.
    destruct (next c2) as [x c'|e c'|]; destruct (a_take k (abs rd0 c)) as [[l a']|e']; try exact Hnext; [|unfold wf in *; lia..].
    destruct Hnext as (V & I' & A' & W). repeat (split; [assumption|]). exact (later_trans _ _ _ L W).
  - destruct Hf as [HE Hwhy]. unfold step_rel. destruct (a_take_spec k (abs rd0 c)) as [H1 H2|_]; cbn [abs a_rest a_n a_limit a_term] in *.
    + rewrite skipn_length in H2. rewrite He in Hall. cbn [length] in Hall. lia.
    + split; [|exact HE]. rewrite (proj2 HE). unfold err_of. rewrite skipn_length.
      destruct (Nat.leb_spec (c_limit c) (length (rd_data rd0))), (Nat.leb_spec (c_limit c - c_n c) (length (rd_data rd0) - c_n c));
        try reflexivity; destruct (i_bound _ _ _ HI); lia.
  - unfold step_rel, wf. rewrite Hf. lia.
Qed.

Lemma BInv_step_buf rd0 crc0 c m : BInv rd0 crc0 c -> m <= length (c_buf c) ->
  BInv rd0 crc0 (mk_cst (c_rd c) (skipn m (c_buf c)) (c_n c + m) (c_limit c) (c_crc c) (c_fuel c)).
Proof.
  intros HI Hm. pose proof (BInv_len _ _ _ HI) as Hall. destruct HI as [Ha Hr Hi Hb Hc].
  constructor; cbn [c_rd c_buf c_n c_limit c_crc]; rewrite ?skipn_length; try lia.
  - apply (adv_min _ _ _ _ Ha). lia.
  - now rewrite <- skipn_skipn_add, Hr, skipn_app_le.
  - rewrite Hc. f_equal. f_equal. lia.
Qed.

Lemma a_take_split m k a : m <= k -> m <= a_limit a - a_n a -> m <= length (a_rest a) ->
  a_take k a = match a_take (k - m) (mk_ast (skipn m (a_rest a)) (a_term a) (a_n a + m) (a_limit a)) with
               | inl (l, a') => inl (firstn m (a_rest a) ++ l, a')
               | inr e => inr e
               end.
Proof.
  intros Hk Hl Hr. unfold a_take. cbn [a_rest a_term a_n a_limit]. rewrite skipn_length.
  destruct (Nat.leb_spec k (Nat.min (a_limit a - a_n a) (length (a_rest a)))),
           (Nat.leb_spec (k - m) (Nat.min (a_limit a - (a_n a + m)) (length (a_rest a) - m))); try lia.
  - rewrite <- firstn_plus, skipn_skipn_add, <- Nat.add_assoc. now replace (m + (k - m)) with k by lia.
  - destruct (Nat.leb_spec (a_limit a - a_n a) (length (a_rest a))),
             (Nat.leb_spec (a_limit a - (a_n a + m)) (length (a_rest a) - m)); try reflexivity; lia.
Qed.

Lemma c_take_abs rd0 crc0 : forall iters k acc c, BInv rd0 crc0 c ->
  step_rel rd0 crc0 c iters (fun x l => x = acc ++ l) (c_take iters k acc c) (a_take k (abs rd0 c)).
Proof.
  (* readFull first takes the m bytes of k that the buffer holds: BInv_step_buf keeps the invariant over them and
     a_take_split splits the abstract take of k at m.  If k - m = 0 the take is complete; otherwise the buffer is empty,
     and fill_then goes on in the refilled state, where the induction hypothesis takes the other k - m *)
  induction iters as [|it IH]; intros k acc c HI; cbn [c_take]; set (m := Nat.min k (length (c_buf c)));
    set (c1 := mk_cst (c_rd c) (skipn m (c_buf c)) (c_n c + m) (c_limit c) (c_crc c) (c_fuel c)).
  all: assert (HI1 : BInv rd0 crc0 c1) by (apply BInv_step_buf; [assumption|unfold m; lia]).
  all: assert (Ea1 : abs rd0 c1 = mk_ast (skipn m (a_rest (abs rd0 c))) (a_term (abs rd0 c)) (a_n (abs rd0 c) + m) (a_limit (abs rd0 c)))
         by (unfold abs, c1; cbn [c_n c_limit a_rest a_term a_n a_limit]; now rewrite skipn_skipn_add).
  all: pose proof (BInv_len _ _ _ HI) as Hall; pose proof (i_bound _ _ _ HI) as Hb; pose proof (i_rest _ _ _ HI) as Hr.
  all: rewrite (a_take_split m k (abs rd0 c)) by (cbn [abs a_rest a_n a_limit]; rewrite ?skipn_length; unfold m; lia).
  all: rewrite <- Ea1; cbn [abs a_rest]; rewrite Hr, firstn_app_le by (unfold m; lia).
  all: destruct (Nat.eqb_spec (k - m) 0) as [E|NE].
  1,3: rewrite E; unfold a_take; cbn [Nat.leb firstn skipn abs a_rest a_term a_n a_limit]; unfold step_rel.
  1,2: rewrite app_nil_r; split; [reflexivity|]; split; [exact HI1|]; split; [|split; [reflexivity|exact id]].
  1,2: unfold abs, c1; cbn [c_n c_limit]; now rewrite Nat.add_0_r.
  - unfold step_rel, wf. lia.
  - assert (Eb1 : c_buf c1 = []) by (apply skipn_all2; unfold m; lia).
    pose proof (fill_then rd0 crc0 c1 it (fun x l => x = (acc ++ firstn m (c_buf c)) ++ l)
                  (c_take it (k - m) (acc ++ firstn m (c_buf c))) (k - m) HI1 Eb1 ltac:(lia)) as H.
    specialize (H ltac:(intros c2 HI2 <-; apply IH, HI2)). unfold step_rel, err_at, later in *. change (c_rd c1) with (c_rd c) in H.
    change (c_fuel c1) with (c_fuel c) in H. change (c_limit c1) with (c_limit c) in H.
    destruct (fill c1) as [u c2|e c2|]; [destruct (c_take it (k - m) _ c2) as [x c'|e c'|]|..];
      destruct (a_take (k - m) (abs rd0 c1)) as [[l a']|e']; try exact H.
    destruct H as (-> & H). split; [now rewrite app_assoc|exact H].
Qed.

(* readByte is readFull of one byte *)
Lemma c_byte_take : forall iters c,
  c_byte iters c = match c_take iters 1 [] c with COk l c' => COk (hd 0%N l) c' | CErr e c' => CErr e c' | CFuel => CFuel end.
Proof.
  induction iters as [|it IH]; intros [rd [|b r] n lim crc fuel]; try reflexivity.
  cbn [c_byte c_take c_buf length Nat.min firstn skipn app Nat.sub Nat.eqb c_rd c_n c_limit c_crc c_fuel]. rewrite Nat.add_0_r.
  destruct (fill _); [apply IH|reflexivity..].
Qed.

Lemma c_byte_abs rd0 crc0 iters c : BInv rd0 crc0 c ->
  step_rel rd0 crc0 c iters (fun x l => l = [x]) (c_byte iters c) (a_take 1 (abs rd0 c)).
Proof.
  intros HI. pose proof (c_take_abs rd0 crc0 iters 1 [] c HI) as H. rewrite c_byte_take. unfold step_rel in *.
  destruct (c_take iters 1 [] c) as [x c'|e c'|]; try exact H.
  destruct (a_take_spec 1 (abs rd0 c)) as [_ H2|_]; [|exact H]. destruct H as (-> & H). split; [|exact H].
  destruct (a_rest (abs rd0 c)); [cbn in H2; lia|reflexivity].
Qed.

(* every program: the buffered run either runs out of fuel, and then the fuel did not exceed the reader's measure, or
   is the abstract run from [abs rd0 c]; it ends in a state that satisfies BInv again, after an I/O error with the
   reader at the end of the frame or of the data *)
Definition run_rel {S E A} rd0 crc0 (c : cst) (rc : result cst S E A) (ra : result ast S E A) : Prop :=
  match rc, ra with
  | ROk x c' s', ROk y a' s'' => x = y /\ s' = s'' /\ BInv rd0 crc0 c' /\ a' = abs rd0 c' /\ later c c'
  | RFail x c' s', RFail y a' s'' => x = y /\ s' = s'' /\ BInv rd0 crc0 c' /\ a' = abs rd0 c' /\ later c c'
  | RIOErr e c' s', RIOErr e' a' s'' => e = e' /\ s' = s'' /\ err_at rd0 c e c'
  | RPanic w, RPanic w' => w = w'
  | ROutOfFuel, _ => ~ wf (c_rd c) (c_fuel c)
  | _, _ => False
  end.

Lemma run_rel_later {S E A} rd0 crc0 c c1 (rc : result cst S E A) ra : later c c1 ->
  run_rel rd0 crc0 c1 rc ra -> run_rel rd0 crc0 c rc ra.
Proof.
  intros L. pose proof L as [El W]. unfold run_rel, err_at. rewrite El.
  destruct rc, ra; try exact id; try (intros (-> & -> & I & Ea & L'); pose proof (later_trans _ _ _ L L'); auto 6); auto.
Qed.

Theorem run_c_abs {S E A} rd0 crc0 : forall (p : prog S E A) c s, BInv rd0 crc0 c ->
  run_rel rd0 crc0 c (run_c p c s) (run_a p (abs rd0 c) s).
Proof.
  induction p as [x|e|w|k IH|n k IH|k IH|k IH|s' k IH]; intros c s HI; cbn [run_c run_a]; try (apply IH; exact HI).
  1,2: do 2 (split; [reflexivity|]); split; [exact HI|split; [reflexivity|apply later_refl]].
  - reflexivity.
  - pose proof (c_byte_abs rd0 crc0 (Datatypes.S (c_fuel c)) c HI) as H. unfold step_rel in H. rewrite Nat.min_r in H by lia.
    destruct (c_byte (Datatypes.S (c_fuel c)) c) as [b c'|e c'|]; destruct (a_take 1 (abs rd0 c)) as [[l a']|e']; try contradiction; try exact H.
    + destruct H as (-> & HI' & -> & L). apply (run_rel_later _ _ c c' _ _ L), IH, HI'.
    + destruct H as [-> HE]. do 2 (split; [reflexivity|]). exact HE.
  - pose proof (c_take_abs rd0 crc0 (Datatypes.S (c_fuel c)) n [] c HI) as H. unfold step_rel in H. rewrite Nat.min_r in H by lia.
    destruct (c_take (Datatypes.S (c_fuel c)) n [] c) as [b c'|e c'|]; destruct (a_take n (abs rd0 c)) as [[l a']|e']; try contradiction; try exact H.
    + destruct H as (-> & HI' & -> & L). apply (run_rel_later _ _ c c' _ _ L), IH, HI'.
    + destruct H as [-> HE]. do 2 (split; [reflexivity|]). exact HE.
Qed.

(* the state in which decode starts the buffered phase *)
Definition start_c (rd : reader) (limit : nat) (crc : N) (fuel : nat) : cst := mk_cst rd [] 0 limit crc fuel.
Definition start_a (rd : reader) (limit : nat) : ast := mk_ast (rd_data rd) (rd_term rd) 0 limit.

Lemma BInv_start rd limit crc fuel : BInv rd crc (start_c rd limit crc fuel).
Proof. constructor; cbn; try reflexivity; try lia. apply adv_refl. Qed.

(* The statements of C10/C11 speak of the relation [Rel]: it carries the fuel bound ([r_fuel]) and the data, position
   and checksum at the start of the phase, and forgets the reader's schedule and data-with-EOF flag.  BInv is free of
   fuel and remembers them (through [adv]); it is what the walk preserves.  Rel is BInv seen from a reader that could
   have stood at the start ([Rel_BInv] picks one with the present schedule and flag), plus the fuel bound
   ([BInv_Rel]); the step lemmas and the simulation theorem about Rel follow. *)
(* [all] is the data the reader held when the buffered phase started, [pos0]
   its position then, [crc0] the checksum register then *)
Record Rel (all : list N) (pos0 : nat) (crc0 : N) (c : cst) (a : ast) : Prop := {
  r_rest : a_rest a = c_buf c ++ rd_data (c_rd c);
  r_all : all = firstn (a_n a) all ++ a_rest a;
  r_len : length (firstn (a_n a) all) = a_n a;
  r_term : a_term a = rd_term (c_rd c);
  r_n : a_n a = c_n c;
  r_limit : a_limit a = c_limit c;
  r_bound : c_n c + length (c_buf c) <= c_limit c;
  r_fuel : length (rd_data (c_rd c)) + length (rd_sched (c_rd c)) < c_fuel c;
  r_pos : rd_pos (c_rd c) = pos0 + c_n c + length (c_buf c);
  r_crc : c_crc c = crc_write crc0 (firstn (c_n c + length (c_buf c)) all)
}.

(* what is known about the concrete state when a buffered primitive fails *)
Record ErrRel (all : list N) (pos0 : nat) (c : cst) (a : ast) (e : ioerr) : Prop := {
  e_pos_le : rd_pos (c_rd c) <= pos0 + a_limit a;
  e_pos_all : rd_pos (c_rd c) <= pos0 + length all;
  e_pos_exact : rd_pos (c_rd c) = pos0 + Nat.min (a_limit a) (length all);
  e_kind : e = (if Nat.leb (a_limit a) (length all) then IOBeyond else noEOF (a_term a))
}.

Definition sim {S E A} all pos0 crc0 (rc : result cst S E A) (ra : result ast S E A) : Prop :=
  match rc, ra with
  | ROk x c' s', ROk y a' s'' => x = y /\ s' = s'' /\ Rel all pos0 crc0 c' a'
  | RFail e c' s', RFail e' a' s'' => e = e' /\ s' = s'' /\ Rel all pos0 crc0 c' a'
  | RIOErr e c' s', RIOErr e' a' s'' => e = e' /\ s' = s'' /\ ErrRel all pos0 c' a' e
  | RPanic w, RPanic w' => w = w'
  | _, _ => False
  end.

Definition sim1 all pos0 crc0 (a : ast) (rc : cres N) (ra : list N * ast + ioerr) : Prop :=
  match rc, ra with
  | COk x c', inl (l, a') => l = [x] /\ Rel all pos0 crc0 c' a'
  | CErr e c', inr e' => e = e' /\ ErrRel all pos0 c' a e
  | _, _ => False
  end.

Definition simk all pos0 crc0 (a : ast) (acc : list N) (rc : cres (list N)) (ra : list N * ast + ioerr) : Prop :=
  match rc, ra with
  | COk x c', inl (l, a') => x = acc ++ l /\ Rel all pos0 crc0 c' a'
  | CErr e c', inr e' => e = e' /\ ErrRel all pos0 c' a e
  | _, _ => False
  end.

Lemma Rel_unread all pos0 crc0 c a : Rel all pos0 crc0 c a ->
  skipn (a_n a) all = c_buf c ++ rd_data (c_rd c) /\
  length all = a_n a + length (c_buf c) + length (rd_data (c_rd c)).
Proof.
  intros [Hr Ha Hl _ _ _ _ _ _ _]. rewrite <- Hr. split.
  - rewrite Ha at 1. rewrite <- Hl at 1. now rewrite skipn_app_le, skipn_all by lia.
  - rewrite Ha at 1. rewrite app_length, Hl, Hr, app_length. lia.
Qed.

Lemma Rel_BInv all pos0 crc0 c a : Rel all pos0 crc0 c a ->
  exists rd0, rd_data rd0 = all /\ rd_pos rd0 = pos0 /\ BInv rd0 crc0 c /\ a = abs rd0 c /\ wf (c_rd c) (c_fuel c).
Proof.
  intros HR. destruct (Rel_unread _ _ _ _ _ HR) as [Hsk Hall]. destruct HR as [Hr Ha Hl Ht Hn Hli Hb Hf Hp Hc].
  exists (mk_reader all (rd_sched (c_rd c)) (rd_term (c_rd c)) (rd_ewd (c_rd c)) pos0). rewrite Hn in *.
  split; [reflexivity|]. split; [reflexivity|]. split; [|split; [|exact Hf]].
  - constructor; cbn [rd_data rd_sched rd_term rd_ewd rd_pos]; try assumption; try lia.
    constructor; cbn [rd_data rd_sched rd_term rd_ewd rd_pos]; try reflexivity; try lia.
    now rewrite <- skipn_skipn_add, Hsk, skipn_app, skipn_all, Nat.sub_diag.
  - unfold abs. cbn [rd_data rd_term]. rewrite Hsk, <- Hr, <- Ht, <- Hn, <- Hli. now destruct a.
Qed.

Lemma BInv_Rel rd0 crc0 c : BInv rd0 crc0 c -> wf (c_rd c) (c_fuel c) -> Rel (rd_data rd0) (rd_pos rd0) crc0 c (abs rd0 c).
Proof.
  intros HI Hf. pose proof (BInv_len _ _ _ HI) as Hall. destruct HI as [Ha Hr Hi Hb Hc].
  constructor; cbn [abs a_rest a_term a_n a_limit]; try assumption; try reflexivity.
  - symmetry. apply firstn_skipn.
  - rewrite firstn_length. lia.
  - symmetry. apply (adv_term _ _ _ Ha).
  - rewrite (adv_pos _ _ _ Ha). lia.
Qed.

Lemma err_at_ErrRel rd0 c e c' a' : err_at rd0 c e c' -> a_limit a' = c_limit c /\ a_term a' = rd_term rd0 ->
  ErrRel (rd_data rd0) (rd_pos rd0) c' a' e.
Proof.
  intros [Ha ->] [Hl Ht]. pose proof (adv_pos _ _ _ Ha). constructor; rewrite ?Ht, ?Hl; try reflexivity; lia.
Qed.

Lemma step_rel_sim rd0 crc0 c iters {A} (val : A -> list N -> Prop) rc ra :
  step_rel rd0 crc0 c iters val rc ra -> wf (c_rd c) (Nat.min iters (c_fuel c)) ->
  match rc, ra with
  | COk x c', inl (l, a') => val x l /\ Rel (rd_data rd0) (rd_pos rd0) crc0 c' a'
  | CErr e c', inr e' => e = e' /\ ErrRel (rd_data rd0) (rd_pos rd0) c' (abs rd0 c) e
  | _, _ => False
  end.
Proof.
  unfold step_rel. intros H W. destruct rc, ra as [[l a']|e']; try contradiction.
  - destruct H as (V & HI & -> & _ & L). split; [exact V|]. apply BInv_Rel, L; [exact HI|]. unfold wf in *. lia.
  - destruct H as [-> HE]. split; [reflexivity|]. exact (err_at_ErrRel _ _ _ _ (abs rd0 c) HE (conj eq_refl eq_refl)).
Qed.

Lemma c_take_sim all pos0 crc0 : forall iters k acc c a, Rel all pos0 crc0 c a ->
  length (rd_data (c_rd c)) + length (rd_sched (c_rd c)) < iters ->
  simk all pos0 crc0 a acc (c_take iters k acc c) (a_take k a).
Proof.
  intros iters k acc c a HR Hit. destruct (Rel_BInv _ _ _ _ _ HR) as (rd0 & <- & <- & HI & -> & Hf).
  apply (step_rel_sim _ _ _ _ _ _ _ (c_take_abs rd0 crc0 iters k acc c HI)). unfold wf in *. lia.
Qed.

Lemma c_byte_sim all pos0 crc0 : forall iters c a, Rel all pos0 crc0 c a ->
  length (rd_data (c_rd c)) + length (rd_sched (c_rd c)) < iters ->
  sim1 all pos0 crc0 a (c_byte iters c) (a_take 1 a).
Proof.
  intros iters c a HR Hit. destruct (Rel_BInv _ _ _ _ _ HR) as (rd0 & <- & <- & HI & -> & Hf).
  apply (step_rel_sim _ _ _ _ _ _ _ (c_byte_abs rd0 crc0 iters c HI)). unfold wf in *. lia.
Qed.

Lemma fill_spec all pos0 crc0 c a : Rel all pos0 crc0 c a -> c_buf c = [] ->
  match fill c with
  | COk _ c' => Rel all pos0 crc0 c' a /\
                length (rd_data (c_rd c')) + length (rd_sched (c_rd c')) <
                length (rd_data (c_rd c)) + length (rd_sched (c_rd c))
  | CErr e c' => ErrRel all pos0 c' a e /\ (a_n a = a_limit a \/ a_rest a = [])
  | CFuel => False
  end.
Proof.
  intros HR He. destruct (Rel_BInv _ _ _ _ _ HR) as (rd0 & <- & <- & HI & -> & Hf).
  pose proof (fill_inv rd0 crc0 c HI He) as H. destruct (fill c) as [u c'|e c'|].
  - destruct H as (HI' & <- & Hd & Hfu). split; [|exact Hd]. apply BInv_Rel; [exact HI'|]. unfold wf in *. lia.
  - destruct H as [HE Hw]. split; [exact (err_at_ErrRel _ _ _ _ (abs rd0 c) HE (conj eq_refl eq_refl))|].
    destruct Hw as [Hw|Hw]; [left; exact Hw|right]. cbn [abs a_rest]. rewrite Hw. apply skipn_all.
  - unfold wf in Hf. lia.
Qed.

Theorem run_sim {S E A} all pos0 crc0 : forall (p : prog S E A) c a s, Rel all pos0 crc0 c a ->
  sim all pos0 crc0 (run_c p c s) (run_a p a s).
Proof.
  intros p c a s HR. destruct (Rel_BInv _ _ _ _ _ HR) as (rd0 & <- & <- & HI & -> & Hf).
  pose proof (run_c_abs rd0 crc0 p c s HI) as H. pose proof (run_a_inv p (abs rd0 c) s) as Hinv. unfold run_rel, sim in *.
  destruct (run_c p c s), (run_a p (abs rd0 c) s); try contradiction; try exact H.
  1,2: destruct H as (-> & -> & HI' & -> & _ & W); do 2 (split; [reflexivity|]); apply BInv_Rel; auto.
  destruct H as (-> & -> & HE). do 2 (split; [reflexivity|]). exact (err_at_ErrRel _ _ _ _ _ HE Hinv).
Qed.

Lemma Rel_start rd limit crc fuel : length (rd_data rd) + length (rd_sched rd) < fuel ->
  Rel (rd_data rd) (rd_pos rd) crc (start_c rd limit crc fuel) (start_a rd limit).
Proof.
  intros Hf. constructor; cbn; try reflexivity; try lia.
Qed.

(* observable outcome of a buffered run: everything but the I/O state *)
Inductive obs (S E A : Type) :=
| OOk (a : A) (s : S) | OFail (e : E) (s : S) | OIOErr (e : ioerr) (s : S) | OPanic (w : N) | OFuel.
Arguments OOk {S E A}. Arguments OFail {S E A}. Arguments OIOErr {S E A}. Arguments OPanic {S E A}. Arguments OFuel {S E A}.
Definition observe {X S E A} (r : result X S E A) : obs S E A :=
  match r with
  | ROk a _ s => OOk a s | RFail e _ s => OFail e s | RIOErr e _ s => OIOErr e s
  | RPanic w => OPanic w | ROutOfFuel => OFuel
  end.

Lemma sim_observe {S E A} all pos0 crc0 (rc : result cst S E A) ra : sim all pos0 crc0 rc ra -> observe rc = observe ra.
Proof.
  destruct rc, ra; try contradiction; cbn; [intros (-> & -> & _)..|intros ->]; reflexivity.
Qed.

(* C10/C01: for EVERY decoder program, the result of the buffered phase is the
   result of the abstract byte-list interpreter: it does not depend on the
   chunk schedule, on empty reads, on data-with-EOF, or on the fuel (as long as
   there is enough), and fuel is never exhausted *)
Theorem buffered_run_abstract {S E A} (p : prog S E A) rd limit crc fuel s :
  length (rd_data rd) + length (rd_sched rd) < fuel ->
  observe (run_c p (start_c rd limit crc fuel) s) = observe (run_a p (start_a rd limit) s).
Proof.
  intros Hf. exact (sim_observe _ _ _ _ _ (run_sim _ _ _ p _ _ s (Rel_start rd limit crc fuel Hf))).
Qed.

Corollary buffered_never_out_of_fuel {S E A} (p : prog S E A) rd limit crc fuel s :
  length (rd_data rd) + length (rd_sched rd) < fuel ->
  run_c p (start_c rd limit crc fuel) s <> ROutOfFuel.
Proof.
  intros Hf Hc. pose proof (run_sim _ _ crc p _ _ s (Rel_start rd limit crc fuel Hf)) as H. rewrite Hc in H. exact H.
Qed.

(* C10: the buffered phase never reads past the frame, whatever the program
   does and however it ends; when it returns without an I/O error the bytes
   read are those consumed plus those still buffered, and the checksum
   register covers exactly them; an I/O error leaves the reader at the end of
   the frame or of the data, whichever comes first *)
Theorem never_past_frame {S E A} (p : prog S E A) rd limit crc fuel s :
  length (rd_data rd) + length (rd_sched rd) < fuel ->
  match run_c p (start_c rd limit crc fuel) s with
  | ROk _ c' _ | RFail _ c' _ => rd_pos (c_rd c') <= rd_pos rd + limit /\
                                 rd_pos (c_rd c') = rd_pos rd + c_n c' + length (c_buf c') /\
                                 c_crc c' = crc_write crc (firstn (c_n c' + length (c_buf c')) (rd_data rd))
  | RIOErr e c' _ => rd_pos (c_rd c') = rd_pos rd + Nat.min limit (length (rd_data rd)) /\
                     e = err_of limit (rd_data rd) (rd_term rd)
  | _ => True
  end.
Proof.
  intros Hf. pose proof (run_sim (rd_data rd) (rd_pos rd) crc p _ _ s (Rel_start rd limit crc fuel Hf)) as H.
  unfold sim in H. pose proof (run_a_inv p (start_a rd limit) s) as Hinv.
  destruct (run_c p _ s) as [x c' s'|e c' s'|e c' s'|w|]; destruct (run_a p _ s) as [y a' s''|e' a' s''|e' a' s''|w'|];
    try contradiction; try exact I; destruct Hinv as [Hi Ht]; cbn in Hi, Ht.
  1,2: destruct H as (_ & _ & [_ _ _ _ _ Hl Hb _ Hp Hc]); repeat split; try assumption; lia.
  destruct H as (_ & _ & [_ _ Hp ->]). rewrite Hp, Hi, Ht. split; reflexivity.
Qed.
