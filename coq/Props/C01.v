(* C01 -- Decoding entry points are total: no panic or hang on any byte input.
   "For every byte sequence, however the reader splits it into reads, Decode, DecodeChained, CheckIntegrity,
   DecodeHeader and DecodeHeaderAndFileID return normally (a result or an error) without panicking or looping
   forever. In particular every field definition (any base-type byte, any size 0-255, either byte order) for every
   profile message and field number, and for unknown ones, is either rejected with an error or decoded safely."

   The model (Model/Decode.v, Model/IO.v, Model/Reflect.v, Model/Route.v) has an explicit Panic outcome at every
   point where the Go code can panic (reflect setters on the wrong kind, Value.Field, types.Base table accesses,
   ByteOrder.UintNN on a short slice, divide by zero, the explicit panics of reader.go, File.add) and runs every loop
   on fuel with a distinct OutOfFuel outcome. The reader oracle [rd] is ANY io.Reader of the modelled class: any
   data bytes, any chunk schedule including empty reads, EOF or a non-EOF fault at the end, with or without the
   last chunk arriving together with that condition. The profile and base-type tables are the ones regenerated from
   the compiled library on every run (Gen/ProfileData.v, Gen/BaseTables.v, Gen/RoutingData.v, Gen/Consts.v).

   Everything below is complete (no side conditions beyond: data are bytes, fuel > |data| + |schedule|).
   Not modelled (stated, not claimed): Go runtime memory safety outside the listed panic sites; the logger's
   formatting of values when WithLogger is set; a reader that returns (0, nil) forever (readByte then spins by the
   contract of io.Reader). *)
From Coq Require Import NArith ZArith List Bool Arith.
From FitV Require Import Model.Values Model.Bytes Model.Base Model.Profile Model.Reflect Model.Crc Model.IO Model.Header
  Model.Components Model.Route Model.Decode Spec.ProfileWf Proofs.ProfileProofs
  Proofs.C01Hoare Proofs.C01Cells Proofs.C01Fields Proofs.C01Records Proofs.C01Total Proofs.C01Extra Gen.Consts.
Import ListNotations.
Local Open Scope N_scope.

(* the main theorem: all five entry points, all options, every accumulator state, every reader *)
Theorem C01_decode_total : forall o (header_only : bool) g rd fuel,
  Forall (fun b => b < 256) (rd_data rd) -> (List.length (rd_data rd) + List.length (rd_sched rd) < fuel)%nat ->
  (exists r, entry_Decode o g rd fuel = TDone r) /\
  (exists r, entry_DecodeChained o g rd fuel = TDone r) /\
  (exists r, entry_CheckIntegrity header_only g rd fuel = TDone r) /\
  (exists r, entry_DecodeHeader g rd fuel = TDone r) /\
  (exists r, entry_DecodeHeaderAndFileID g rd fuel = TDone r).
Proof. exact decode_total. Qed.
Print Assumptions C01_decode_total.

(* validateFieldDef never panics: every message number, field number, base-type byte, size byte *)
Theorem C01_validate_no_panic : forall gmn fd w, fd_btype fd < 256 -> fd_size fd < 256 ->
  validate_field_def gmn fd <> VPanic w.
Proof. exact validate_no_panic. Qed.
Print Assumptions C01_validate_no_panic.

(* what the validator admits is stored without panic: for a definition message all of whose field definitions
   were accepted (fdef_ok = accepted + byte-sized), parseDataFields on ANY remaining input, either byte order,
   known or unknown message, listed or unlisted field numbers, never reaches Panic; a known message keeps its
   message value *)
Theorem C01_validate_admits_only_storable : forall o dm msgv x s,
  AInv x -> Forall (fdef_ok (dm_gmn dm)) (dm_fdefs dm) ->
  (known_msg (dm_gmn dm) = true -> msgv <> None) ->
  np (parse_data_fields o dm (known_msg (dm_gmn dm)) msgv) x s
     (fun om x' s' => AInv x' /\ frame s s' /\ (known_msg (dm_gmn dm) = true -> om <> None)).
Proof. exact validate_admits_only_storable. Qed.
Print Assumptions C01_validate_admits_only_storable.

(* the finite core: for every profile entry, every base-type byte and size, the cell is safe *)
Theorem C01_entry_cell : forall gmn fdn pf bt sz, get_field gmn fdn = Some pf -> bt < 256 -> sz < 256 ->
  cell_ok (fit_kind (pf_t pf)) (fit_array (pf_t pf)) (fit_base (pf_t pf)) bt sz = true.
Proof. exact entry_cell. Qed.
Print Assumptions C01_entry_cell.

(* progress: every record consumes at least one byte ... *)
Theorem C01_progress : forall o x s,
  match run_a (parse_record o) x s with
  | ROk _ x' _ => (a_n x < a_n x')%nat
  | _ => True
  end.
Proof. exact parse_record_progress. Qed.

(* ... so the buffered part of decode never panics, never exhausts the loop fuel, and in full mode ends with
   n = limit: the explicit pre-CRC panic of decode is dead code *)
Theorem C01_precrc_invariant : forall o fid x f g, AInv x -> f_inited f = None ->
  np (data_prog o fid (S (a_limit x))) x (init_dstate f g) (fun _ x' s' => fid = false -> a_n x' = a_limit x').
Proof. exact data_prog_np. Qed.
Print Assumptions C01_precrc_invariant.

(* the raw stages finish and DecodeChained's chain fuel suffices: every decode returns, and a successful one has
   consumed input *)
Theorem C01_decode_done : forall o md g rd fuel, reader_ok rd -> (rmeasure rd < fuel)%nat ->
  exists r, decode o md g rd fuel = TDone r /\ rd_le (dr_rd r) rd /\
            (dr_err r = None -> (List.length (rd_data (dr_rd r)) < List.length (rd_data rd))%nat).
Proof. exact decode_done. Qed.

(* the for {} loop of the string-array scanner terminates within the model's fuel *)
Theorem C01_string_scanner_terminates : forall buf dsize extra, (0 < dsize)%nat ->
  scan_strings (S dsize + extra) buf dsize 0 0 [] = scan_strings (S dsize) buf dsize 0 0 [].
Proof. exact string_scanner_terminates. Qed.

(* Go array bounds the model does not carry as Panic outcomes, from the generated constants *)
Theorem C01_slots_in_bounds : forall b, b < 256 ->
  N.land b c_localMesgNumMask < c_maxLocalMesgs /\
  N.shiftr (N.land b c_compressedLocalMesgNumMask) 5 < 4 /\ 4 <= c_maxLocalMesgs.
Proof. exact slots_in_bounds. Qed.
Theorem C01_tmp_in_bounds : forall nf size, nf < 256 -> size < 256 ->
  3 * nf <= c_tmpLen /\ size <= c_tmpLen /\ 4 <= c_tmpLen /\ c_bytesForCRC <= c_tmpLen.
Proof. exact tmp_in_bounds. Qed.

(* the latent hole of the validator, about the validator as a function of the profile descriptor: a float32
   profile scalar with a sint32 definition is accepted and the store panics. The compiled profile has no float
   fields (C15), so C01_decode_total is not affected. *)
Theorem C01_validate_float_hole_refuted : exists pd bt size ty,
  pd = (false, base_float32) /\ ty = TF 32 /\
  validate_cell (Some pd) bt size = VOk /\
  forall be num buf, parse_fit_field be (mk_fdef num size bt) buf ty = FPanic 3 \/
                     parse_fit_field be (mk_fdef num size bt) buf ty = FPanic 5.
Proof. exact validate_float_hole_refuted. Qed.
Theorem C01_no_float_fields : forall gmn fdn pf, get_field gmn fdn = Some pf ->
  b_float (fit_base (pf_t pf)) = Some false /\ exists s, b_size (fit_base (pf_t pf)) = Some s /\ 1 <= s <= 4.
Proof. exact no_float_fields. Qed.
Print Assumptions C01_validate_float_hole_refuted.

(* definitions in Proofs/C01Extra.v *)
(* ex_stream: a valid activity file: file_id (type 4), a record definition (timestamp uint32, heart_rate uint8) and one
   record; 12-byte header, file CRC computed by the model's CRC. ex_reader delivers it in small reads with an empty
   read in between, EOF together with the last byte. Decode succeeds and consumes all of it. *)
Example C01_example_decode : exists r,
  entry_Decode no_opts g_init ex_reader 100 = TDone r /\ dr_err r = None /\
  (rd_pos (dr_rd r) = List.length ex_stream)%nat.
Proof. eexists. split; [vm_compute; reflexivity|]. split; reflexivity. Qed.

(* the hypotheses of the main theorem hold for it *)
Example C01_example_hyps :
  Forall (fun b => b < 256) (rd_data ex_reader) /\
  (List.length (rd_data ex_reader) + List.length (rd_sched ex_reader) < 100)%nat.
Proof. split; [repeat constructor|vm_compute; repeat constructor]. Qed.

(* an accepted definition narrower than the profile type: uint16 (size 2) for a uint32 profile field is a safe cell;
   a size below the base type size is rejected *)
Example C01_example_cells :
  validate_cell (Some (false, base_uint32)) base_uint16 2 = VOk /\
  store_safe kind_native false base_uint32 base_uint16 2 = true /\
  validate_cell (Some (false, base_uint32)) base_uint32 3 = VErr.
Proof. vm_compute. repeat split. Qed.
