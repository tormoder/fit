(* Frame facts about Model/Decode.v alone: which parts of the decoder state each of its programs can store to.
   Stated once per program for every predicate J that is indifferent to those parts, they give the counters of C16,
   the File of C07 and C11, and the slots and File of C01 and C02 as instances. *)
From Coq Require Import NArith ZArith List Bool.
From FitV Require Import Model.Values Model.Bytes Model.Base Model.Profile Model.Reflect Model.IO
  Model.Route Model.Components Model.Decode Gen.Consts Proofs.C10IO.
Import ListNotations.
Local Open Scope N_scope.

(* [okp J p]: p has no loop test, and every state p stores satisfies J provided every state it
   reads does *)
Fixpoint okp {A} (J : dstate -> Prop) (p : P A) : Prop :=
  match p with
  | Ret _ => True
  | Fail _ => True
  | Panic _ => True
  | ReadByte k => forall b, okp J (k b)
  | ReadFull _ k => forall l, okp J (k l)
  | More _ => False
  | Get k => forall s, J s -> okp J (k s)
  | Put s k => J s /\ okp J k
  end.

Lemma okp_bind {A B} (J : dstate -> Prop) (p : P A) (f : A -> P B) :
  okp J p -> (forall a, okp J (f a)) -> okp J (bind p f).
Proof. intros Hp Hf. induction p; cbn [bind okp] in *; intuition auto. Qed.

(* the conclusion is [StreamDenoteFail.post J] of the run, written out *)
Lemma okp_sound {A} (J : dstate -> Prop) (p : P A) : okp J p -> forall x s, J s ->
  match run_a p x s with
  | ROk _ _ s' | RFail _ _ s' | RIOErr _ _ s' => J s'
  | RPanic _ | ROutOfFuel => True
  end.
Proof.
  induction p as [a|e|w|k IH|n k IH|k IH|k IH|s' k IH]; intros Hp x s Hs; cbn [okp run_a] in *; try tauto.
  - destruct (a_take 1 x) as [[l x']|e]; [apply IH; auto|exact Hs].
  - destruct (a_take n x) as [[l x']|e]; [apply IH; auto|exact Hs].
  - apply IH; auto.
  - apply IH; tauto.
Qed.

(* The decoder stores to three parts of its state: the definition slots and the clock (any record), the two
   counter lists (unknown messages, unlisted fields), the File with the accumulators (a completed message,
   File.init).  A predicate on the state is indifferent to a part when it survives every store to it (for the
   counters: every bump): the counters [cs] of StreamDenoteFail.v to the slots and the File, the File [fg] of
   C11Partial.v to the slots and the counters, [distinct_keys] to all three.  A data record stores to the clock
   only, not to the slots: to that [frame] of C01Fields.v (slots and File) and of StreamDenoteData.v (with the
   accumulators) are indifferent. *)
Definition slots_free (J : dstate -> Prop) : Prop := forall s d ts lo h,
  J s -> J (mk_dstate d ts lo (ds_unkf s) (ds_unkm s) (ds_file s) (ds_g s) (ds_quirks s) h).
Definition clock_free (J : dstate -> Prop) : Prop := forall s ts lo h,
  J s -> J (mk_dstate (ds_defs s) ts lo (ds_unkf s) (ds_unkm s) (ds_file s) (ds_g s) (ds_quirks s) h).
Definition counts_free (J : dstate -> Prop) : Prop :=
  (forall s k, J s -> J (with_unkf s (bump2 k (ds_unkf s)))) /\ (forall s k, J s -> J (with_unkm s (bump1 k (ds_unkm s)))).
Definition file_free (J : dstate -> Prop) : Prop := forall s f g, J s -> J (with_file s f g).

Lemma slots_clock J : slots_free J -> clock_free J.
Proof. intros H s. apply H. Qed.

Lemma pts_free J s u k n ov s' : parse_time_stamp s u k n = (ov, s') -> clock_free J -> J s -> J s'.
Proof.
  intros E HJ Hs. unfold parse_time_stamp in E. destruct (u =? 0xFFFFFFFF); [inversion E; subst; exact Hs|].
  destruct (k =? kind_timeutc).
  - destruct (n =? c_fieldNumTimeStamp); inversion E; subst; [apply HJ|]; exact Hs.
  - destruct (negb (ds_hasts s) || (ds_ts s <? c_systemTimeMarker)); inversion E; subst; exact Hs.
Qed.

Lemma okp_bind_get {B} (J : dstate -> Prop) (f : dstate -> P B) :
  (forall s, J s -> okp J (f s)) -> okp J (bind get_st f).
Proof. intros H. unfold get_st. cbn [bind okp]. exact H. Qed.

(* descends through binds, primitives and matches; [solver] is tried on what is left: the sub-programs with a
   lemma of their own and the stored states.  A solver that is [fail] or a [match goal] is passed as [idtac; tac]:
   alone, Ltac would run it once where okp_walk is called, not on each goal left *)
Tactic Notation "okp_walk" tactic(solver) :=
  repeat first
    [ progress intros
    | match goal with |- okp _ (bind get_st _) => apply okp_bind_get end
    | match goal with |- okp _ (bind _ _) => apply okp_bind end
    | progress cbn [okp read_byte read_full put_st fail panic]
    | progress cbv beta zeta
    | match goal with
      | |- True => exact I
      | |- _ /\ _ => split
      | |- okp _ (match ?x with _ => _ end) => destruct x eqn:?
      end
    | solver ].

(* closes [J s'] for a stored state s': the one parse_time_stamp returns by [pts_free]; any other by the hypothesis
   in the context whose conclusion is that store (clock_free J, slots_free J, file_free J, or one conjunct of
   counts_free J), its premise being J of the state read.  A hypothesis is applied as it stands, so a caller with
   counts_free J at hand takes out the conjunct it needs first *)
Ltac free_solve :=
  match goal with
  | E : parse_time_stamp _ _ _ _ = (_, ?s') |- _ ?s' => apply (pts_free _ _ _ _ _ _ _ E); assumption
  | H : _ |- _ => apply H; assumption
  end.

Lemma okp_read_byte J : okp J read_byte.
Proof. unfold read_byte. cbn [okp]. intros b. exact I. Qed.

Lemma okp_skip_dev J : forall devs, okp J (skip_dev_fields devs).
Proof.
  induction devs as [|[[a sz] c] r IH]; cbn [skip_dev_fields]; [exact I|].
  apply okp_bind; [cbn [okp read_full]; intros; exact I|intros _; exact IH].
Qed.

Lemma okp_parse_def J b : okp J (parse_definition_message b).
Proof. unfold parse_definition_message. okp_walk (idtac; fail). Qed.

Lemma okp_add_msg J m : file_free J -> okp J (add_msg m).
Proof. intros HJ. unfold add_msg. okp_walk (idtac; free_solve). Qed.

Lemma okp_set_def J dm : slots_free J -> okp J (set_def dm).
Proof. intros HJ. unfold set_def. okp_walk (idtac; free_solve). Qed.

(* a field the profile lists for the message bumps no counter *)
Lemma okp_pof J o dm known fd msgv : clock_free J ->
  (get_field (dm_gmn dm) (fd_num fd) = None -> counts_free J) -> okp J (parse_one_field o dm known fd msgv).
Proof.
  intros HJ HC. unfold parse_one_field.
  (* listed: the clock only (HJ, through parse_time_stamp); unlisted: the unknown-field counter, HC' *)
  destruct (get_field (dm_gmn dm) (fd_num fd)) as [p|]; [clear HC|destruct (HC eq_refl) as [HC' _]]; okp_walk (idtac; free_solve).
Qed.

Lemma okp_fields J o dm known : clock_free J -> counts_free J ->
  forall fds msgv, okp J (parse_fields o dm known fds msgv).
Proof.
  intros HJ HC. induction fds as [|fd r IH]; intros msgv; cbn [parse_fields]; [exact I|].
  apply okp_bind; [apply okp_pof; auto|intros m'; apply IH].
Qed.

Lemma okp_data_fields J o dm known msgv : clock_free J -> counts_free J -> okp J (parse_data_fields o dm known msgv).
Proof.
  intros HJ HC. unfold parse_data_fields. apply okp_bind; [now apply okp_fields|intros m].
  apply okp_bind; [apply okp_skip_dev|intros _; exact I].
Qed.

Lemma okp_data_message J o b c : clock_free J -> counts_free J -> okp J (parse_data_message o b c).
Proof.
  (* its own stores: the unknown-message counter (HC') and, under a compressed header, the clock (HJ) *)
  intros HJ HC. unfold parse_data_message. pose proof (proj2 HC) as HC'.
  okp_walk (first [now apply okp_data_fields | free_solve]).
Qed.

(* the continuation is StreamDenoteDef.tail_k *)
Lemma okp_data_record J o b c : clock_free J -> counts_free J -> file_free J ->
  okp J (om <- parse_data_message o b c ;; match om with Some m => add_msg m | None => Ret tt end).
Proof.
  intros HJ HC HF. apply okp_bind; [now apply okp_data_message|intros [m|]]; [now apply okp_add_msg|exact I].
Qed.

Lemma okp_record J o : slots_free J -> counts_free J -> file_free J -> okp J (parse_record o).
Proof.
  intros HJ HC HF. pose proof (slots_clock J HJ) as HK. unfold parse_record. apply okp_bind; [apply okp_read_byte|intros b].
  destruct (_ =? _); [now apply okp_data_record|].
  destruct (_ =? _); [apply okp_bind; [apply okp_parse_def|intros dm; now apply okp_set_def]|].
  destruct (_ =? _); [now apply okp_data_record|exact I].
Qed.

Lemma okp_file_id J o : slots_free J -> counts_free J -> file_free J -> okp J (parse_file_id_msg o).
Proof.
  intros HJ HC HF. pose proof (slots_clock J HJ) as HK. unfold parse_file_id_msg.
  (* set_def stores to the slots (HJ), the data message to the clock and the counters (HK, HC), add_msg to the File (HF) *)
  okp_walk (first [apply okp_parse_def | now apply okp_set_def | now apply okp_data_message | now apply okp_add_msg]).
Qed.

(* [on_err J p]: a state p returns with a failure satisfies J if the state it starts from does.  Unlike okp J this
   needs no indifference of J to the File: File.add is the last step of a record and neither reads nor fails *)
Definition on_err (J : dstate -> Prop) {A} (p : P A) : Prop := forall x s, J s ->
  match run_a p x s with RFail _ _ s' | RIOErr _ _ s' => J s' | _ => True end.

Lemma on_err_okp J {A} (p : P A) : okp J p -> on_err J p.
Proof. intros Hp x s Hs. pose proof (okp_sound _ _ Hp x s Hs) as H. now destruct (run_a p x s). Qed.

Lemma on_err_bind J {A B} (p : P A) (k : A -> P B) : okp J p -> (forall a, on_err J (k a)) -> on_err J (bind p k).
Proof.
  intros Hp Hk x s Hs. rewrite run_a_bind. pose proof (okp_sound _ _ Hp x s Hs) as H.
  destruct (run_a p x s); [now apply Hk|exact H..].
Qed.

Lemma on_err_fail J {A} e : on_err J (@fail A e).
Proof. intros x s Hs. exact Hs. Qed.

Lemma on_err_add J m : on_err J (add_msg m).
Proof.
  intros x s _. unfold add_msg. rewrite run_a_bind. unfold get_st. cbn [run_a].
  destruct (file_add (ds_file s) (ds_g s) m); exact I.
Qed.

Lemma on_err_data_record J o b c : clock_free J -> counts_free J ->
  on_err J (om <- parse_data_message o b c ;; match om with Some m => add_msg m | None => Ret tt end).
Proof.
  intros HJ HC. apply on_err_bind; [now apply okp_data_message|]. intros [m|]; [apply on_err_add|intros x s _; exact I].
Qed.

Lemma on_err_record J o : slots_free J -> counts_free J -> on_err J (parse_record o).
Proof.
  intros HJ HC. pose proof (slots_clock J HJ) as HK. unfold parse_record. apply on_err_bind; [apply okp_read_byte|intros b].
  destruct (_ =? _); [now apply on_err_data_record|].
  destruct (_ =? _); [apply on_err_okp, okp_bind; [apply okp_parse_def|intros dm; now apply okp_set_def]|].
  destruct (_ =? _); [now apply on_err_data_record|apply on_err_fail].
Qed.

Lemma on_err_file_id J o : slots_free J -> counts_free J -> on_err J (parse_file_id_msg o).
Proof.
  intros HJ HC. pose proof (slots_clock J HJ) as HK. unfold parse_file_id_msg. apply on_err_bind; [apply okp_read_byte|intros b].
  destruct (negb _); [apply on_err_fail|]. apply on_err_bind; [apply okp_parse_def|intros dm].
  destruct (negb _); [apply on_err_fail|]. apply on_err_bind; [now apply okp_set_def|intros _].
  apply on_err_bind; [apply okp_read_byte|intros b2].
  destruct (negb _); [apply on_err_fail|]. apply on_err_bind; [now apply okp_data_message|intros [m|]]; [|intros x s _; exact I].
  destruct (_ =? _); [apply on_err_add|apply on_err_fail].
Qed.
