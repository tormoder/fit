(* C04: what the verdict functions of Spec/Integrity.v say of a byte string, no decoder involved: what they accept
   (header_stage_none_iff, verdict_none_iff); that on byte strings they are those of the bitwise CRC-16/ARC
   (verdict_arc); that a stored checksum is the right one exactly when the residue is 0 (residue_iff); that an error
   string with a non-zero checksum outside the size fields, a burst of at most 16 contiguous bits in particular,
   turns acceptance into an error (error_detected, corrupted_verdict); that the framing Spec/Grammar.v demands,
   which is what Encode emits, is accepted (grammar_integrity_ok). *)
From Coq Require Import NArith ZArith List Bool Arith Lia.
From Coq Require Import ZifyN ZifyNat ZifyBool.
From FitV Require Import Model.Bytes Model.Crc Model.IO Model.Header Model.Decode Gen.Consts
  Spec.CrcSpec Spec.Burst Spec.Integrity Spec.Grammar Proofs.Util Proofs.BytesUtil Proofs.CrcProofs Proofs.IOSim Proofs.C04Crc.
Import ListNotations.
Local Open Scope N_scope.

Lemma header_stage_none_legal crcf bs tm : header_stage_with crcf bs tm = None ->
  (hdr_size bs = 12 \/ hdr_size bs = 14)%nat /\ (hdr_size bs <= length bs)%nat.
Proof.
  destruct bs as [|sz t]; [discriminate|]. unfold header_stage_with, hdr_size, b_at. cbn [nth].
  change c_headerSizeCRC with 14. change c_headerSizeNoCRC with 12.
  destruct ((sz =? 14) || (sz =? 12)) eqn:Esz; [|discriminate].
  destruct (Nat.ltb_spec (length (sz :: t)) (N.to_nat sz)); [discriminate|]. lia.
Qed.

Lemma header_stage_legal crcf bs tm : (hdr_size bs = 12 \/ hdr_size bs = 14)%nat -> (hdr_size bs <= length bs)%nat ->
  header_stage_with crcf bs tm =
    if negb (proto_ok (b_at bs 1)) then Some EProto
    else if negb (list_eqb (firstn 4 (skipn 8 bs)) fit_dtype) then Some ENotFit
    else if b_at bs 0 =? 12 then None
    else if stored_hdr_crc bs =? 0 then None
    else if negb (crcf (firstn 14 bs) =? 0) then Some EHdrCRC else None.
Proof.
  destruct bs as [|sz t]; [intros [H|H]; discriminate H|]. unfold header_stage_with, hdr_size, b_at at 1 2 3. cbn [nth].
  change c_headerSizeCRC with 14. change c_headerSizeNoCRC with 12. intros Hsz Hlen.
  replace ((sz =? 14) || (sz =? 12)) with true by lia.
  replace (Nat.ltb _ (N.to_nat sz)) with false by (symmetry; apply Nat.ltb_ge, Hlen). reflexivity.
Qed.

Lemma header_stage_none_iff crcf bs tm : header_stage_with crcf bs tm = None <->
  (hdr_size bs = 12 \/ hdr_size bs = 14)%nat /\ (hdr_size bs <= length bs)%nat /\
  proto_ok (b_at bs 1) = true /\ firstn 4 (skipn 8 bs) = fit_dtype /\
  (hdr_size bs = 14%nat -> stored_hdr_crc bs <> 0 -> crcf (firstn 14 bs) = 0).
Proof.
  enough (H : (hdr_size bs = 12 \/ hdr_size bs = 14)%nat -> (hdr_size bs <= length bs)%nat ->
              (header_stage_with crcf bs tm = None <-> proto_ok (b_at bs 1) = true /\ firstn 4 (skipn 8 bs) = fit_dtype /\
                 (hdr_size bs = 14%nat -> stored_hdr_crc bs <> 0 -> crcf (firstn 14 bs) = 0)))
    by (pose proof (header_stage_none_legal crcf bs tm); tauto).
  intros Hsz Hlen. rewrite header_stage_legal, <- list_eqb_iff by assumption. unfold hdr_size in *.
  destruct (proto_ok _); cbn [negb]; [|split; [discriminate|intros (X & _); discriminate X]].
  destruct (list_eqb _ fit_dtype); cbn [negb]; [|split; [discriminate|intros (_ & X & _); discriminate X]].
  destruct (N.eqb_spec (b_at bs 0) 12); [split; [lia|reflexivity]|].
  destruct (N.eqb_spec (stored_hdr_crc bs) 0); [split; [tauto|reflexivity]|].
  destruct (N.eqb_spec (crcf (firstn 14 bs)) 0) as [|NZ]; cbn [negb]; [split; [tauto|reflexivity]|].
  split; [discriminate|]. intros (_ & _ & X). elim NZ. apply X; [lia|assumption].
Qed.

Lemma verdict_none_iff crcf bs tm : crc_verdict_with crcf bs tm = None <->
  header_stage_with crcf bs tm = None /\ (frame_len bs <= length bs)%nat /\ crcf (firstn (frame_len bs) bs) = 0.
Proof.
  unfold crc_verdict_with. destruct (header_stage_with crcf bs tm); [split; [discriminate|intros (X & _); discriminate X]|].
  destruct (Nat.ltb_spec (length bs) (hdr_size bs + data_size bs)); [split; [discriminate|unfold frame_len; lia]|].
  destruct (Nat.ltb_spec (length bs) (frame_len bs)); [split; [discriminate|lia]|].
  destruct (N.eqb_spec (crcf (firstn (frame_len bs) bs)) 0); split; auto; [discriminate|now intros (_ & _ & X)].
Qed.

(* only the answer to an empty input depends on how the reader ends *)
Lemma verdict_term_irrelevant crcf bs t1 t2 :
  (forall e, crc_verdict_with crcf bs t1 = Some e -> is_integrity e = true) ->
  crc_verdict_with crcf bs t2 = crc_verdict_with crcf bs t1.
Proof. destruct bs; [|reflexivity]. intros H. specialize (H _ eq_refl). now destruct t1. Qed.

Lemma header_stage_arc bs tm : is_bytes (firstn 14 bs) -> header_stage_with checksum bs tm = header_stage_with arc bs tm.
Proof. intros Hb. destruct bs as [|sz t]; [reflexivity|]. unfold header_stage_with. now rewrite checksum_is_arc. Qed.

Theorem verdict_arc bs tm : is_bytes bs -> crc_verdict_with checksum bs tm = crc_verdict_with arc bs tm.
Proof.
  intros Hb. unfold crc_verdict_with. rewrite header_stage_arc, (checksum_is_arc (firstn (frame_len bs) bs)) by now apply Forall_firstn.
  reflexivity.
Qed.

Lemma lo_hi_iff a b c : a < 256 -> (a + 256 * b = c <-> a = lo8 c /\ b = hi8 c).
Proof.
  intros Ha. unfold lo8, hi8. change 255 with (N.ones 8). rewrite N.land_ones, N.shiftr_div_pow2.
  change (2 ^ 8) with 256. lia.
Qed.

Theorem residue_iff : forall d l, is_bytes l -> length l = 2%nat -> (checksum (d ++ l) = 0 <-> le16 l = checksum d).
Proof.
  intros d [|a [|b [|? ?]]] Hl; try discriminate. intros _.
  inversion Hl as [|? ? Ha Hl']; subst. inversion Hl' as [|? ? Hb _]; subst.
  pose proof (checksum_lt_all d) as Hc.
  change (le16 [a; b]) with (a + 256 * b). rewrite lo_hi_iff by assumption.
  unfold checksum at 1. rewrite update_app. fold (checksum d). generalize dependent (checksum d). intros c Hc.
  assert (R : update c [lo8 c; hi8 c] = 0) by exact (residue_state c Hc).
  split; [|intros [-> ->]; exact R]. intros H0.
  (* the difference [x; y] of two strings with residue 0 has checksum 0: it must be the zero string *)
  pose proof (crc_linear_from [a; b] [lo8 c; hi8 c] c c eq_refl) as L.
  rewrite H0, R, N.lxor_nilpotent in L. cbn [xorl] in L.
  assert (Hx : N.lxor a (lo8 c) < 256) by (change 256 with (2 ^ 8); apply lxor_lt_pow2; [assumption|apply lo8_lt]).
  assert (Hy : N.lxor b (hi8 c) < 256) by (change 256 with (2 ^ 8); apply lxor_lt_pow2; [assumption|now apply hi8_lt]).
  assert (Hxy : ~ (N.lxor a (lo8 c) <> 0 \/ N.lxor b (hi8 c) <> 0)).
  { intros Hne. refine (two_byte_error_detected [0; 0] 0 _ _ _ _ Hx Hy Hne _); [reflexivity|cbn; lia|].
    cbn [repeat app xorl]. rewrite !N.lxor_0_l. exact L. }
  split; apply N.lxor_eq; lia.
Qed.

Lemma header_residue_iff bs : is_bytes (firstn 14 bs) -> (14 <= length bs)%nat ->
  (checksum (firstn 14 bs) = 0 <-> stored_hdr_crc bs = checksum (firstn 12 bs)).
Proof.
  intros Hb Hl. change (firstn 14 bs) with (firstn (12 + 2) bs) in *. rewrite firstn_plus in *. apply residue_iff.
  - now apply Forall_app in Hb.
  - rewrite firstn_length, skipn_length. lia.
Qed.

Lemma xorl_nth_untouched : forall a e i, nth i e 0 = 0 -> nth i (xorl a e) 0 = nth i a 0.
Proof.
  induction a as [|x a IH]; intros e i H; [reflexivity|].
  destruct e as [|y e]; [reflexivity|]. destruct i as [|i]; cbn in *.
  - subst y. apply N.lxor_0_r.
  - now apply IH.
Qed.

Lemma le32_at l : le32 (firstn 4 (skipn 4 l)) = nth 4 l 0 + 256 * nth 5 l 0 + 65536 * nth 6 l 0 + 16777216 * nth 7 l 0.
Proof.
  unfold le32, b_at.
  destruct l as [|a0 [|a1 [|a2 [|a3 [|a4 [|a5 [|a6 [|a7 l]]]]]]]]; reflexivity.
Qed.

Lemma firstn_xorl : forall n a e, firstn n (xorl a e) = xorl (firstn n a) (firstn n e).
Proof.
  induction n as [|n IH]; intros a e; [reflexivity|].
  destruct a as [|x a]; [reflexivity|]. destruct e as [|y e]; [reflexivity|]. cbn. now rewrite IH.
Qed.

Lemma untouched_frame bs e : outside_size_fields e = true -> frame_len (xorl bs e) = frame_len bs.
Proof.
  unfold outside_size_fields, untouched. rewrite !andb_true_iff, !N.eqb_eq. intros ((((H0 & H4) & H5) & H6) & H7).
  unfold frame_len, hdr_size, data_size, b_at. now rewrite !le32_at, !xorl_nth_untouched.
Qed.

(* the checksum is linear, so the residue of the corrupted frame is the checksum of the error *)
Theorem error_detected : forall bs tm tm' e,
  crc_verdict_with checksum bs tm = None ->
  length e = frame_len bs -> outside_size_fields e = true -> checksum e <> 0 ->
  crc_verdict_with checksum (xorl bs e) tm' <> None.
Proof.
  intros bs tm tm' e Hv He Ho Hne Hv'.
  apply verdict_none_iff in Hv as (_ & Hlen & Hc). apply verdict_none_iff in Hv' as (_ & _ & Hc').
  rewrite (untouched_frame bs e Ho), firstn_xorl, (firstn_all2 e), crc_linear, Hc, N.lxor_0_l in Hc'
    by (rewrite ?firstn_length; lia).
  contradiction.
Qed.

Theorem corrupted_verdict : forall bs tm tm' off p,
  crc_verdict_with checksum bs tm = None ->
  burst16 (frame_len bs) off p ->
  outside_size_fields (burst (frame_len bs) off p) = true ->
  crc_verdict_with checksum (xorl bs (burst (frame_len bs) off p)) tm' <> None.
Proof.
  intros bs tm tm' off p Hv Hb Ho.
  apply (error_detected bs tm); [assumption|apply err_bytes_length|assumption|now apply burst16_nonzero].
Qed.

(* Spec/Grammar.v reads its numbers with le_num *)
Lemma le_num_16 l : le_num (firstn 2 l) = le16 (firstn 2 l).
Proof. unfold le16, b_at. destruct l as [|a [|b l]]; cbn [firstn le_num nth]; lia. Qed.

Lemma le_num_32 l : le_num (firstn 4 l) = le32 (firstn 4 l).
Proof. unfold le32, b_at. destruct l as [|a [|b [|c [|d l]]]]; cbn [firstn le_num nth]; lia. Qed.

Lemma header_ok_frame_len bs : header_ok bs = true -> frame_len bs = length bs.
Proof.
  unfold header_ok. cbv zeta. rewrite !andb_true_iff, N.eqb_eq. intros (((_ & Hlen) & _) & _).
  unfold frame_len, hdr_size, data_size, b_at. unfold hdrsize, datasize in Hlen. rewrite le_num_32 in Hlen. lia.
Qed.

(* a byte string with the framing of Spec/Grammar.v (header_ok, trailer_ok: what Encode is proved to emit,
   theorem encode_framing) and a supported protocol version passes the integrity check *)
Theorem grammar_integrity_ok : forall bs tm, is_bytes bs ->
  header_ok bs = true -> trailer_ok bs = true -> proto_ok (nth 1 bs 0) = true ->
  crc_verdict_with arc bs tm = None.
Proof.
  intros bs tm Hb Hh Ht Hp. rewrite <- verdict_arc by assumption.
  pose proof (header_ok_frame_len bs Hh) as Hf.
  unfold header_ok in Hh. cbv zeta in Hh. rewrite !andb_true_iff, orb_true_iff, !N.eqb_eq in Hh.
  destruct Hh as (((Hsz & _) & Hmagic) & Hcrc). apply list_eqb_iff in Hmagic. (* bytes_eqb is list_eqb *) unfold hdrsize in *.
  unfold trailer_ok, filecrc in Ht. apply N.eqb_eq in Ht.
  assert (Hl : (hdr_size bs + 2 <= length bs)%nat) by (unfold frame_len in Hf; lia).
  apply verdict_none_iff. rewrite Hf, firstn_all. split; [|split; [lia|]].
  - apply header_stage_none_iff. unfold hdr_size, b_at in *.
    split; [lia|]. split; [lia|]. split; [exact Hp|]. split; [exact Hmagic|]. intros H14 Hst.
    replace (nth 0 bs 0 =? 14) with true in Hcrc by (symmetry; apply N.eqb_eq; lia).
    unfold hdrcrc in Hcrc. rewrite le_num_16 in Hcrc. fold (stored_hdr_crc bs) in Hcrc.
    apply header_residue_iff; [now apply Forall_firstn|lia|].
    rewrite checksum_is_arc by now apply Forall_firstn.
    apply orb_true_iff in Hcrc. rewrite !N.eqb_eq in Hcrc. now destruct Hcrc.
  - rewrite <- (firstn_skipn (length bs - 2) bs) at 1. apply residue_iff.
    + now apply Forall_skipn.
    + rewrite skipn_length. unfold hdr_size in Hl. lia.
    + rewrite checksum_is_arc by now apply Forall_firstn.
      rewrite <- Ht, <- (firstn_all2 (n := 2) (skipn _ bs)) by (rewrite skipn_length; lia). symmetry. apply le_num_16.
Qed.
