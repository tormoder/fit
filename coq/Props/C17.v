(* C17 -- Coordinate and time value types convert exactly and flag invalids
   consistently. *)
From Coq Require Import ZArith Reals String.
From Flocq Require Import Core IEEE754.Binary IEEE754.Bits.
From FitV Require Import Model.FitTime Proofs.FitTimeProofs Model.LatLng Spec.FixedPoint Proofs.LatLngProofs.
From FitV Require Import Gen.C17Consts Proofs.C17Consts Gen.C17Funcs Proofs.C17Funcs.
Local Open Scope Z_scope.

(* the three constants of latlng.go, as `vh gen` reads them out of the source
   (Gen/C17Consts.v), are the ones the model uses; C17_time_source_agrees
   below does the same for timeBase of time.go *)
Theorem C17_latlng_source_agrees :
  src_sint32Invalid = sint32_invalid /\ src_precision = precision /\ src_stringInvalid = string_invalid.
Proof. exact latlng_consts_agree. Qed.

(* latlng.go itself, translated function by function into Gen/C17Funcs.v on every check (harness/gen_c17funcs.go),
   computes on every argument what the model of this file computes: every int32 receiver / argument, every float64
   argument (NaN and infinities included).  The proofs are semantic (case analysis on the comparisons), so a rewrite
   of the source that keeps the behaviour keeps them. *)
Theorem C17_latlng_translated :
  (forall s, is_i32 s -> go_NewLatitude s = lat_semicircles (new_latitude s) /\
                         go_Latitude_Semicircles s = lat_semis (mk_lat s) /\
                         go_Latitude_Invalid s = lat_invalid (mk_lat s) /\
                         go_Latitude_Degrees s = lat_degrees (mk_lat s) /\
                         go_Latitude_String s = lat_string (mk_lat s) /\
                         go_NewLongitude s = lng_semicircles (new_longitude s) /\
                         go_Longitude_Semicircles s = lng_semis (mk_lng s) /\
                         go_Longitude_Invalid s = lng_invalid (mk_lng s) /\
                         go_Longitude_Degrees s = lng_degrees (mk_lng s) /\
                         go_Longitude_String s = lng_string (mk_lng s)) /\
  (forall d, go_NewLatitudeDegrees d = lat_semicircles (new_latitude_degrees d) /\
             go_NewLongitudeDegrees d = lng_semicircles (new_longitude_degrees d)) /\
  go_NewLatitudeInvalid = lat_semicircles new_latitude_invalid /\
  go_NewLongitudeInvalid = lng_semicircles new_longitude_invalid.
Proof. exact latlng_translated. Qed.
Print Assumptions C17_latlng_translated.

(* time.go likewise: the translated IsBaseTime, decodeDateTime and encodeTime are the model's functions on every
   argument (every uint32 second count and every time.Time of the model), timeBase is the model's epoch *)
Theorem C17_time_translated :
  go_var_timeBase = time_base /\ (forall t, go_IsBaseTime t = is_base_time t) /\
  (forall dt, go_decodeDateTime dt = decode_date_time dt) /\ (forall t, go_encodeTime t = encode_time t).
Proof. exact time_translated. Qed.
Print Assumptions C17_time_translated.

Theorem C17_time_source_agrees :
  match src_timeBase with
  | (y :: m :: d :: h :: mi :: s :: ns :: nil)%list =>
      (days_from_civil y m d - days_from_civil 1 1 1) * 86400 + h * 3600 + mi * 60 + s = base_abs + t_sec time_base /\
      ns = t_nsec time_base
  | _ => False
  end /\
  src_timeBase_loc = "UTC"%string /\ t_zone time_base = None.
Proof. exact time_consts_agree. Qed.

(* a latitude is invalid exactly when it is the sentinel or outside the code's
   range [-2^30, 2^30 - 1] *)
Theorem C17_lat_invalid_iff : forall s,
  lat_invalid (new_latitude s) = true <-> s = 2 ^ 31 - 1 \/ s < - 2 ^ 30 \/ s > 2 ^ 30 - 1.
Proof. exact lat_invalid_iff. Qed.
Print Assumptions C17_lat_invalid_iff.

(* that is the property's "sentinel or outside +-90 degrees" everywhere except at +90 degrees *)
Theorem C17_lat_literal_iff : forall s, s <> 2 ^ 30 ->
  (lat_invalid (new_latitude s) = true <-> s = 2 ^ 31 - 1 \/ Z.abs s * 180 > 90 * 2 ^ 31).
Proof.
  intros s Hs. rewrite lat_invalid_iff. unfold lat_code_invalid, lat_literal_invalid. Lia.lia.
Qed.
Print Assumptions C17_lat_literal_iff.

(* known finding lat_plus90: exactly +90 degrees is flagged invalid, -90 degrees is not *)
Theorem C17_lat_plus90_refuted :
  exists s, is_i32 s /\ s * 180 = 90 * 2 ^ 31 /\ ~ lat_literal_invalid s /\
            lat_invalid (new_latitude s) = true /\ lat_invalid (new_latitude (- s)) = false.
Proof.
  exists (2 ^ 30). unfold is_i32, lat_literal_invalid, min_int32, max_int32.
  repeat split; try Lia.lia; vm_compute; reflexivity.
Qed.
Print Assumptions C17_lat_plus90_refuted.

Theorem C17_lng_invalid_iff : forall s, lng_invalid (new_longitude s) = true <-> s = 2 ^ 31 - 1.
Proof. exact lng_invalid_iff. Qed.
Print Assumptions C17_lng_invalid_iff.

(* Semicircles returns the stored value *)
Theorem C17_lat_semicircles_id : forall s,
  (lat_invalid (new_latitude s) = false -> lat_semis (new_latitude s) = s) /\
  (lat_invalid (new_latitude s) = true -> lat_semis (new_latitude s) = sint32_invalid).
Proof. exact lat_semicircles_id. Qed.
Print Assumptions C17_lat_semicircles_id.

Theorem C17_lng_semicircles_id : forall s, lng_semis (new_longitude s) = s.
Proof. exact lng_semicircles_id. Qed.
Print Assumptions C17_lng_semicircles_id.

(* Degrees is exactly semicircles x 180 / 2^31 (no rounding) *)
Theorem C17_lat_degrees_exact : forall s, is_i32 s -> lat_invalid (new_latitude s) = false ->
  B2R 53 1024 (lat_degrees (new_latitude s)) = (IZR s * 180 / 2 ^ 31)%R /\
  is_finite 53 1024 (lat_degrees (new_latitude s)) = true.
Proof. exact lat_degrees_exact. Qed.
Print Assumptions C17_lat_degrees_exact.

Theorem C17_lng_degrees_exact : forall s, is_i32 s -> lng_invalid (new_longitude s) = false ->
  B2R 53 1024 (lng_degrees (new_longitude s)) = (IZR s * 180 / 2 ^ 31)%R /\
  is_finite 53 1024 (lng_degrees (new_longitude s)) = true.
Proof. exact lng_degrees_exact. Qed.
Print Assumptions C17_lng_degrees_exact.

(* ... and NaN iff invalid *)
Theorem C17_lat_degrees_nan_iff : forall s, is_i32 s ->
  (is_nan 53 1024 (lat_degrees (new_latitude s)) = true <-> lat_invalid (new_latitude s) = true).
Proof.
  intros s Hs. destruct (lat_invalid (new_latitude s)) eqn:Hv.
  - unfold lat_degrees. unfold lat_invalid in Hv. rewrite Hv. split; reflexivity.
  - rewrite finite_not_nan by apply (lat_degrees_exact s Hs Hv). split; discriminate.
Qed.
Print Assumptions C17_lat_degrees_nan_iff.

Theorem C17_lng_degrees_nan_iff : forall s, is_i32 s ->
  (is_nan 53 1024 (lng_degrees (new_longitude s)) = true <-> lng_invalid (new_longitude s) = true).
Proof.
  intros s Hs. destruct (lng_invalid (new_longitude s)) eqn:Hv.
  - unfold lng_degrees. unfold lng_invalid in Hv. rewrite Hv. split; reflexivity.
  - rewrite finite_not_nan by apply (lng_degrees_exact s Hs Hv). split; discriminate.
Qed.
Print Assumptions C17_lng_degrees_nan_iff.

(* constructing from the degrees gives back the coordinate within one
   semicircle whenever the degrees lie strictly inside the legal range *)
Theorem C17_lat_deg_roundtrip : forall s, is_i32 s -> lat_invalid (new_latitude s) = false ->
  (-90 < B2R 53 1024 (lat_degrees (new_latitude s)) < 90)%R ->
  Z.abs (lat_semis (new_latitude_degrees (lat_degrees (new_latitude s))) - s) <= 1 /\
  lat_invalid (new_latitude_degrees (lat_degrees (new_latitude s))) = false.
Proof.
  intros s Hs Hv Hr. rewrite lat_deg_roundtrip_exact by assumption. split; [|exact Hv].
  rewrite (proj1 (lat_semicircles_id s) Hv). Lia.lia.
Qed.
Print Assumptions C17_lat_deg_roundtrip.

Theorem C17_lng_deg_roundtrip : forall s, is_i32 s -> lng_invalid (new_longitude s) = false ->
  (-180 < B2R 53 1024 (lng_degrees (new_longitude s)) < 180)%R ->
  Z.abs (lng_semis (new_longitude_degrees (lng_degrees (new_longitude s))) - s) <= 1 /\
  lng_invalid (new_longitude_degrees (lng_degrees (new_longitude s))) = false.
Proof.
  intros s Hs Hv Hr. rewrite lng_deg_roundtrip_exact by assumption. split; [|exact Hv].
  rewrite lng_semicircles_id. Lia.lia.
Qed.
Print Assumptions C17_lng_deg_roundtrip.

(* stronger than asked: the round trip is exact (degToSemiFactor is rounded up
   by 44/2^60, the product leans away from zero by < 1/2, truncation restores s) *)
Theorem C17_lat_deg_roundtrip_exact : forall s, is_i32 s -> lat_invalid (new_latitude s) = false ->
  (-90 < B2R 53 1024 (lat_degrees (new_latitude s)) < 90)%R ->
  new_latitude_degrees (lat_degrees (new_latitude s)) = new_latitude s.
Proof. exact lat_deg_roundtrip_exact. Qed.
Print Assumptions C17_lat_deg_roundtrip_exact.

Theorem C17_lng_deg_roundtrip_exact : forall s, is_i32 s -> lng_invalid (new_longitude s) = false ->
  (-180 < B2R 53 1024 (lng_degrees (new_longitude s)) < 180)%R ->
  new_longitude_degrees (lng_degrees (new_longitude s)) = new_longitude s.
Proof. exact lng_deg_roundtrip_exact. Qed.
Print Assumptions C17_lng_deg_roundtrip_exact.

(* the hypotheses of the round trip are satisfiable *)
Example C17_roundtrip_hypotheses :
  is_i32 703539217 /\ lat_invalid (new_latitude 703539217) = false /\
  (-90 < B2R 53 1024 (lat_degrees (new_latitude 703539217)) < 90)%R /\
  lng_invalid (new_longitude (-2000000000)) = false /\
  (-180 < B2R 53 1024 (lng_degrees (new_longitude (-2000000000))) < 180)%R.
Proof. exact roundtrip_hypotheses. Qed.

(* the printed form, read back by an independent fixed-point reader
   (Spec/FixedPoint.v: [-]digits.ddddd -> (negative, n) standing for +-n/10^5),
   is within 2e-5 degrees of Degrees; invalid coordinates print "Invalid" *)
Theorem C17_lat_string_close : forall s, is_i32 s -> lat_invalid (new_latitude s) = false ->
  exists sn, parse_fixed5 (lat_string (new_latitude s)) = Some sn /\
             (Rabs (fixed_value sn - B2R 53 1024 (lat_degrees (new_latitude s))) <= 2 / 100000)%R.
Proof.
  intros s Hs Hv. unfold lat_string. rewrite lat_degrees_unfold by exact Hv.
  unfold lat_invalid in Hv. rewrite Hv. apply degrees_of_parse_close, i32_abs, Hs.
Qed.
Print Assumptions C17_lat_string_close.

Theorem C17_lng_string_close : forall s, is_i32 s -> lng_invalid (new_longitude s) = false ->
  exists sn, parse_fixed5 (lng_string (new_longitude s)) = Some sn /\
             (Rabs (fixed_value sn - B2R 53 1024 (lng_degrees (new_longitude s))) <= 2 / 100000)%R.
Proof.
  intros s Hs Hv. unfold lng_string. rewrite lng_degrees_unfold by exact Hv.
  unfold lng_invalid in Hv. rewrite Hv. apply degrees_of_parse_close, i32_abs, Hs.
Qed.
Print Assumptions C17_lng_string_close.

Theorem C17_lat_string_invalid : forall s, lat_invalid (new_latitude s) = true -> lat_string (new_latitude s) = "Invalid"%string.
Proof. intros s. unfold lat_string, lat_invalid. intros ->. reflexivity. Qed.

Theorem C17_lng_string_invalid : forall s, lng_invalid (new_longitude s) = true -> lng_string (new_longitude s) = "Invalid"%string.
Proof. intros s. unfold lng_string, lng_invalid. intros ->. reflexivity. Qed.

Example C17_coord_nonvacuous :
  is_i32 703539217 /\ lat_invalid (new_latitude 703539217) = false /\
  lat_string (new_latitude 703539217) = "58.96997"%string /\
  lat_semis (new_latitude_degrees (lat_degrees (new_latitude 703539217))) = 703539217 /\
  lng_string (new_longitude (- 2 ^ 31)) = "-180.00000"%string /\
  lng_string (new_longitude (2 ^ 23)) = "0.70312"%string /\
  lat_invalid (new_latitude (- 2 ^ 30)) = false /\ lat_invalid (new_latitude (2 ^ 30)) = true.
Proof. exact coord_examples. Qed.

(* encodeTime inverts decodeDateTime *)
Theorem C17_time_roundtrip : forall u, is_u32 u -> encode_time (decode_date_time u) = u.
Proof. exact time_roundtrip. Qed.
Print Assumptions C17_time_roundtrip.

Theorem C17_decode_injective : forall u v, is_u32 u -> is_u32 v ->
  decode_date_time u = decode_date_time v -> u = v.
Proof. exact decode_injective. Qed.
Print Assumptions C17_decode_injective.

(* the image is exactly u whole seconds after the FIT epoch, UTC *)
Theorem C17_decode_whole_seconds : forall u, is_u32 u -> decode_date_time u = mk_time u 0 None.
Proof. exact decode_whole_seconds. Qed.
Print Assumptions C17_decode_whole_seconds.

(* onto: every whole second a uint32 can count is decodeDateTime of its encoding *)
Theorem C17_decode_surjective : forall t, whole_second t ->
  is_u32 (encode_time t) /\ decode_date_time (encode_time t) = t.
Proof.
  intros t. destruct t as [s n z]. unfold whole_second. cbn [t_sec t_nsec t_zone].
  intros (Hs & -> & ->).
  rewrite encode_whole_seconds by exact Hs.
  split; [exact Hs|]. apply decode_whole_seconds. exact Hs.
Qed.
Print Assumptions C17_decode_surjective.

Theorem C17_isbasetime_iff : forall u, is_u32 u -> (is_base_time (decode_date_time u) = true <-> u = 0).
Proof. exact isbasetime_iff. Qed.
Print Assumptions C17_isbasetime_iff.

(* Sub's saturation is unreachable on the image (it is reached further out:
   FitTimeProofs.sub_saturates_somewhere) *)
Theorem C17_sub_no_saturation : forall u, is_u32 u -> time_sub (mk_time u 0 None) time_base = u * second.
Proof. exact sub_no_saturation. Qed.
Print Assumptions C17_sub_no_saturation.

Example C17_time_nonvacuous :
  is_u32 1000000000 /\ encode_time (decode_date_time 1000000000) = 1000000000 /\
  is_u32 (2 ^ 32 - 1) /\ encode_time (decode_date_time (2 ^ 32 - 1)) = 2 ^ 32 - 1.
Proof. exact time_roundtrip_nonvacuous. Qed.
