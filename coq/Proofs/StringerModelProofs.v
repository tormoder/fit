(* C20 -- the stringer's table construction is correct for ANY type name and
   ANY list of constants whose values fit the type's width: the String method
   that [stringer_model] builds tests exactly the constants' values, prints
   for each of them one of its names without the type prefix, and prints
   Type(n) for every other value.

   The construction sorts and de-duplicates the constants ([model_list]),
   splits them into runs of consecutive values and lays each run out as a
   name string with an index of end offsets.  All that the three theorems need
   of a list of runs is stated for any list of runs ([runs_domain],
   [runs_shape_ok], [runs_string_of]). *)
From Coq Require Import NArith List String Ascii Bool Lia.
From FitV Require Import Model.Stringer Spec.StringSpec Proofs.Util Proofs.StringSpecProofs Proofs.StringerProofs.
Import ListNotations.
Local Open Scope N_scope.

Local Arguments N.sub : simpl never.
Local Arguments N.of_nat : simpl never.
Local Arguments N.pow : simpl never.
Local Arguments N.add : simpl never.

Definition vals (l : list (string * N)) : list N := map snd l.

Lemma slen_append a b : slen (a ++ b) = slen a + slen b.
Proof.
  unfold slen. rewrite <- Nat2N.inj_add. f_equal.
  induction a as [|c a IH]; simpl; [reflexivity|now rewrite IH].
Qed.

Lemma substring_middle p x q : substring (String.length p) (String.length x) (p ++ x ++ q) = x.
Proof.
  induction p as [|c p IH]; simpl; [|exact IH].
  induction x as [|c x IH]; simpl; [now destruct q|now rewrite IH].
Qed.

Lemma slice_middle p x q : slice (p ++ x ++ q) (slen p) (slen p + slen x) = Some x.
Proof.
  unfold slice. change (N.of_nat (String.length (p ++ x ++ q))) with (slen (p ++ x ++ q)).
  rewrite !slen_append.
  replace (slen p <=? slen p + slen x) with true by (symmetry; apply N.leb_le; lia).
  replace (slen p + slen x <=? slen p + (slen x + slen q)) with true by (symmetry; apply N.leb_le; lia).
  replace (slen p + slen x - slen p) with (slen x) by lia.
  unfold slen. rewrite !Nat2N.id. simpl. now rewrite substring_middle.
Qed.

(* the stringer's strings.TrimPrefix is the spec's prefix stripping *)
Lemma strip_is_prefix p : forall s,
  strip p s = if is_prefix p s then Some (drop (String.length p) s) else None.
Proof.
  induction p as [|a p IH]; intros [|b s]; simpl; try reflexivity.
  destruct (Ascii.eqb a b); [apply IH|reflexivity].
Qed.

Lemma trim_prefix_short s p : trim_prefix s p = short_name p s.
Proof. unfold trim_prefix, short_name. rewrite strip_is_prefix. now destruct (is_prefix p s). Qed.

(* sorting and de-duplication: same values, no new pairs *)

Lemma insert_stable_In x l y : In y (insert_stable x l) <-> y = x \/ In y l.
Proof.
  induction l as [|a l IH]; simpl.
  - intuition.
  - destruct (snd x <=? snd a); simpl; [intuition|]. rewrite IH. intuition.
Qed.

Lemma sort_stable_In l y : In y (sort_stable l) <-> In y l.
Proof.
  unfold sort_stable. induction l as [|a l IH]; simpl; [reflexivity|].
  rewrite insert_stable_In, IH. intuition.
Qed.

(* [dedup (x :: r)] is [x :: dedup_aux (snd x) r]: both facts are shown of that form, for every kept head x *)
Lemma dedup_incl l : incl (dedup l) l.
Proof.
  destruct l as [|x r]; [easy|]. simpl. revert x.
  induction r as [|a r IH]; intros x; simpl; [apply incl_refl|].
  destruct (snd a =? snd x).
  - apply incl_tran with (x :: r); [apply IH|]. apply incl_cons; [now left|]. now do 2 apply incl_tl.
  - apply incl_cons; [now left|]. apply incl_tl, IH.
Qed.

(* a value is dropped only when it is the one just kept *)
Lemma dedup_vals l : incl (vals l) (vals (dedup l)).
Proof.
  destruct l as [|x r]; [easy|]. simpl. revert x.
  induction r as [|a r IH]; intros x; simpl; [apply incl_refl|].
  destruct (N.eqb_spec (snd a) (snd x)) as [E|NE]; intros v Hv.
  - apply IH. destruct Hv as [H|[H|H]]; [now left|left; congruence|now right].
  - destruct Hv as [H|H]; [now left|right]. apply (IH a), H.
Qed.

Definition model_list (tname : string) (consts : list (string * N)) : list (string * N) :=
  dedup (sort_stable (map (fun c => (trim_prefix (fst c) tname, snd c)) consts)).

Lemma model_list_In tname consts x : In x (model_list tname consts) ->
  In (snd x) (vals consts) /\ In (fst x) (names_of tname consts (snd x)).
Proof.
  intros H. apply dedup_incl, sort_stable_In, in_map_iff in H as [[n v] [<- Hc]]. simpl.
  split; [exact (in_map snd _ _ Hc)|]. rewrite trim_prefix_short. apply names_of_spec. now exists n.
Qed.

Lemma model_list_vals tname consts v : In v (vals (model_list tname consts)) <-> In v (vals consts).
Proof.
  split; intros H.
  - apply in_map_iff in H as [x [<- Hx]]. now apply model_list_In in Hx.
  - apply in_map_iff in H as [c [<- Hc]]. apply dedup_vals.
    apply (in_map snd _ (trim_prefix (fst c) tname, snd c)), sort_stable_In, in_map_iff. now exists c.
Qed.

Definition is_run (r : list (string * N)) : Prop :=
  r <> [] /\ vals r = range (List.length r) (first_value r).

Lemma run_length_pos r : is_run r -> 0 < N.of_nat (List.length r).
Proof. intros [Hne _]. destruct r; [congruence|simpl List.length; lia]. Qed.

Lemma last_value_run r : is_run r -> last_value r = first_value r + N.of_nat (List.length r) - 1.
Proof.
  intros [Hne Hv]. unfold last_value.
  replace (first_value (rev r)) with (hd 0 (rev (vals r))) by (unfold vals; rewrite <- map_rev; now destruct (rev r)).
  rewrite Hv. destruct (List.length r) as [|n] eqn:E; [destruct r; [congruence|discriminate]|].
  rewrite range_snoc, rev_app_distr. simpl. lia.
Qed.

Lemma run_snoc r x : is_run r -> snd x = last_value r + 1 -> is_run (r ++ [x]).
Proof.
  intros Hr Hx. pose proof (run_length_pos r Hr). rewrite (last_value_run r Hr) in Hx. destruct Hr as [Hne Hv].
  split; [now destruct r|]. unfold vals. rewrite map_app, app_length. fold (vals r).
  replace (List.length r + List.length [x])%nat with (S (List.length r)) by (simpl; lia). rewrite range_snoc.
  replace (first_value (r ++ [x])) with (first_value r) by now destruct r.
  rewrite <- Hv. simpl. do 2 f_equal. lia.
Qed.

(* [cur] is the run being collected, latest pair first *)
Lemma split_runs_aux_spec l : forall cur, is_run (rev cur) ->
  Forall is_run (split_runs_aux cur (first_value cur) l) /\
  List.concat (split_runs_aux cur (first_value cur) l) = rev cur ++ l.
Proof.
  induction l as [|x l IH]; intros cur Hcur; simpl.
  - split; [now constructor|now rewrite app_nil_r].
  - destruct (N.eqb_spec (snd x) (first_value cur + 1)) as [E|NE].
    + destruct (IH (x :: cur)) as [F C].
      * apply run_snoc; [assumption|]. unfold last_value. now rewrite rev_involutive.
      * simpl in F, C. split; [exact F|]. rewrite C. now rewrite <- app_assoc.
    + destruct (IH [x]) as [F C]; [split; [discriminate|reflexivity]|].
      simpl in F, C. split; [now constructor|]. simpl. now rewrite C.
Qed.

Lemma split_runs_spec l : Forall is_run (split_runs l) /\ List.concat (split_runs l) = l.
Proof.
  destruct l as [|x l]; simpl; [split; [constructor|reflexivity]|].
  apply (split_runs_aux_spec l [x]). split; [discriminate|reflexivity].
Qed.

Lemma run_vals r v : is_run r ->
  (In v (vals r) <-> first_value r <= v < first_value r + N.of_nat (List.length r)).
Proof. intros [_ ->]. split; [apply in_range|apply range_in]. Qed.

Lemma in_iv_run r v : is_run r -> (in_iv v (first_value r, last_value r) = true <-> In v (vals r)).
Proof.
  intros Hr. pose proof (run_length_pos r Hr). rewrite in_iv_le, (last_value_run r Hr), (run_vals r v Hr). lia.
Qed.

Lemma run_nth r i x : is_run r -> nth_error r i = Some x -> snd x = first_value r + N.of_nat i.
Proof.
  intros [_ Hv] H. apply (map_nth_error snd) in H. fold (vals r) in H. rewrite Hv in H. now apply range_nth in H.
Qed.

Lemma concat_names_app a b : concat_names (a ++ b) = (concat_names a ++ concat_names b)%string.
Proof. induction a as [|x a IH]; simpl; [reflexivity|]. now rewrite IH, append_assoc. Qed.

Lemma end_offsets_length run : forall off, List.length (end_offsets off run) = List.length run.
Proof. induction run as [|x r IH]; intros off; simpl; [reflexivity|now rewrite IH]. Qed.

Lemma index_of_run_length r : N.of_nat (List.length (index_of_run r)) - 1 = N.of_nat (List.length r).
Proof. unfold index_of_run. simpl List.length. rewrite end_offsets_length. lia. Qed.

Lemma offsets_at pre x post : forall off,
  let l := off :: end_offsets off (pre ++ x :: post) in
  let a := off + slen (concat_names pre) in
  nth_error l (List.length pre) = Some a /\ nth_error l (S (List.length pre)) = Some (a + slen (fst x)).
Proof.
  induction pre as [|y pre IH]; intros off; simpl.
  - change (slen "") with 0. now rewrite N.add_0_r.
  - rewrite slen_append, N.add_assoc. apply IH.
Qed.

Lemma idx_nth l i a : nth_error l i = Some a -> idx l (N.of_nat i) = Some a.
Proof.
  intros H. unfold idx. assert (Hi : (i < List.length l)%nat) by (apply nth_error_Some; congruence).
  rewrite (proj2 (N.ltb_lt _ _)) by lia. now rewrite Nat2N.id.
Qed.

Lemma table_lookup bits r i x : nth_error r i = Some x -> N.of_nat (List.length r) < 2 ^ bits ->
  index_slice bits (concat_names r) (index_of_run r) (N.of_nat i) = Some (fst x).
Proof.
  intros H Hlen. assert (Hi : (i < List.length r)%nat) by (apply nth_error_Some; congruence).
  apply nth_error_split in H as (pre & post & -> & <-).
  destruct (offsets_at pre x post 0) as [Ha Hb]. rewrite N.add_0_l in Ha, Hb.
  unfold index_slice, uadd, index_of_run. rewrite N.mod_small by lia.
  replace (N.of_nat (List.length pre) + 1) with (N.of_nat (S (List.length pre))) by lia.
  rewrite (idx_nth _ _ _ Ha), (idx_nth _ _ _ Hb), concat_names_app. apply slice_middle.
Qed.

Lemma run_lookup bits r v : is_run r -> N.of_nat (List.length r) < 2 ^ bits -> In v (vals r) ->
  exists x, In x r /\ snd x = v /\
    index_slice bits (concat_names r) (index_of_run r) (v - first_value r) = Some (fst x).
Proof.
  intros Hr Hlen Hv. apply (run_vals r v Hr) in Hv.
  destruct (nth_error r (N.to_nat (v - first_value r))) as [x|] eqn:E; [|apply nth_error_None in E; lia].
  exists x. split; [exact (nth_error_In _ _ E)|]. split; [rewrite (run_nth r _ x Hr E); lia|].
  rewrite <- (N2Nat.id (v - first_value r)). now apply table_lookup.
Qed.

(* `i -= lo` of the generated code, written only when lo is not 0 *)
Lemma sub_offset bits lo v : lo <= v -> v < 2 ^ bits ->
  match opt_offset lo with Some k => usub bits v k | None => v end = v - lo.
Proof.
  intros Hlo Hv. unfold opt_offset. destruct (N.eqb_spec lo 0) as [->|NE]; [now rewrite N.sub_0_r|].
  apply usub_ge; [apply pow2_pos|assumption..].
Qed.

Lemma opt_offset_default lo : match opt_offset lo with Some k => k | None => 0 end = lo.
Proof. unfold opt_offset. now destruct (N.eqb_spec lo 0) as [->|]. Qed.

Definition shape_of_runs (runs : list (list (string * N))) : shape :=
  match runs with
  | [run] => build_one run
  | _ => if N.of_nat (List.length runs) <=? 10 then SMulti (map build_case runs) else build_map runs
  end.

Lemma model_shape tname consts :
  m_shape (stringer_model tname consts) = shape_of_runs (split_runs (model_list tname consts)).
Proof. reflexivity. Qed.

Lemma shape_of_runs_cases runs :
  (exists r, runs = [r] /\ shape_of_runs runs = build_one r) \/
  shape_of_runs runs = SMulti (map build_case runs) \/ shape_of_runs runs = build_map runs.
Proof.
  unfold shape_of_runs. destruct runs as [|r [|r2 rest]]; [|left; now exists r|];
    right; destruct (N.of_nat _ <=? 10); auto.
Qed.

Lemma in_concat_vals (runs : list (list (string * N))) v :
  In v (vals (List.concat runs)) <-> exists r, In r runs /\ In v (vals r).
Proof.
  unfold vals. rewrite concat_map, in_concat. split.
  - intros [l [Hl Hv]]. apply in_map_iff in Hl as [r [<- Hr]]. now exists r.
  - intros [r [Hr Hv]]. exists (map snd r). split; [now apply in_map|assumption].
Qed.

Lemma case_interval_build r : is_run r -> case_interval (build_case r) = (first_value r, last_value r).
Proof.
  intros [Hne _]. destruct r as [|x [|y r]]; [congruence|reflexivity|reflexivity].
Qed.

Lemma map_entries_keys l : forall off, map (fun e => (fst e, fst e)) (map_entries off l) = map (fun v => (v, v)) (vals l).
Proof. induction l as [|x l IH]; intros off; simpl; [reflexivity|now rewrite IH]. Qed.

Lemma runs_domain runs m v : m_shape m = shape_of_runs runs -> Forall is_run runs ->
  (in_domain v (domain m) = true <-> In v (vals (List.concat runs))).
Proof.
  intros Hm Hr. unfold in_domain, domain. rewrite Hm.
  destruct (shape_of_runs_cases runs) as [[r [-> ->]]|[->| ->]].
  - apply Forall_inv in Hr. pose proof (run_length_pos r Hr).
    unfold build_one. cbv beta iota zeta. rewrite index_of_run_length, opt_offset_default.
    rewrite (proj2 (N.eqb_neq _ _)), <- (last_value_run r Hr) by lia.
    simpl. rewrite app_nil_r, orb_false_r. now apply in_iv_run.
  - rewrite Forall_forall in Hr. rewrite in_concat_vals, map_map, existsb_map.
    split; intros [r [Hin H]]; exists r; (split; [assumption|]).
    + rewrite case_interval_build in H by auto. apply in_iv_run in H; auto.
    + rewrite case_interval_build by auto. apply in_iv_run; auto.
  - unfold build_map. cbv beta iota zeta. rewrite map_entries_keys, existsb_map. split.
    + intros [w [Hw H]]. apply in_iv_le in H. now replace v with w by lia.
    + intros H. exists v. split; [assumption|]. apply in_iv_le. lia.
Qed.

Lemma runs_shape_ok bits runs m : m_shape m = shape_of_runs runs -> Forall is_run runs ->
  (forall v, In v (vals (List.concat runs)) -> v < 2 ^ bits) -> shape_ok bits m = true.
Proof.
  intros Hm Hr Hfit. unfold shape_ok. rewrite Hm.
  destruct (shape_of_runs_cases runs) as [[r [-> ->]]|[->| ->]]; [|reflexivity..].
  apply Forall_inv in Hr. simpl in Hfit. rewrite app_nil_r in Hfit.
  pose proof (run_length_pos r Hr) as Hpos.
  assert (Hl : first_value r + N.of_nat (List.length r) - 1 < 2 ^ bits) by (apply Hfit, run_vals; [assumption|lia]).
  unfold build_one. cbv beta iota zeta. rewrite index_of_run_length.
  unfold opt_offset. destruct (first_value r =? 0); [reflexivity|].
  rewrite N.eqb_refl. simpl. apply andb_true_iff. split; [apply N.ltb_lt|apply N.leb_le]; lia.
Qed.

Lemma case_result_build bits r v : is_run r -> N.of_nat (List.length r) < 2 ^ bits -> v < 2 ^ bits ->
  In v (vals r) -> exists x, In x r /\ snd x = v /\ case_result bits (build_case r) v = Some (fst x).
Proof.
  intros Hr Hlen Hv Hin. pose proof (proj1 (run_vals r v Hr) Hin) as Hle.
  destruct (run_lookup bits r v Hr Hlen Hin) as [x [Hx [Hsv E]]].
  destruct r as [|y [|z r]]; [destruct Hx| |].
  - destruct Hx as [<-|[]]. exists y. split; [now left|]. split; [assumption|reflexivity].
  - exists x. split; [assumption|]. split; [assumption|].
    unfold build_case. cbv beta iota zeta. unfold case_result. now rewrite sub_offset by lia.
Qed.

Lemma run_cases_build bits v runs : v < 2 ^ bits ->
  Forall (fun r => is_run r /\ N.of_nat (List.length r) < 2 ^ bits) runs -> In v (vals (List.concat runs)) ->
  exists x, In x (List.concat runs) /\ snd x = v /\ run_cases bits (map build_case runs) v = Some (Some (fst x)).
Proof.
  intros Hv Hr. induction Hr as [|r runs [Hr Hlen] _ IH]; simpl; [intros []|].
  unfold vals. rewrite map_app, in_app_iff, case_matches_iv, case_interval_build by assumption.
  fold (vals r). rewrite <- (in_iv_run r v Hr). destruct (in_iv v _) eqn:E.
  - intros _. apply (in_iv_run r v Hr) in E.
    destruct (case_result_build bits r v Hr Hlen Hv E) as (x & Hx & Hsv & Ec).
    exists x. rewrite Ec, in_app_iff. auto.
  - intros [H|Hin]; [discriminate|]. destruct (IH Hin) as (x & Hx & H). exists x. rewrite in_app_iff. auto.
Qed.

Lemma assoc_map_entries l v : In v (vals l) -> forall off,
  exists pre x post, l = pre ++ x :: post /\ snd x = v /\
    assoc v (map_entries off l) = Some (off + slen (concat_names pre), off + slen (concat_names pre) + slen (fst x)).
Proof.
  induction l as [|a l IH]; intros Hin off; [destruct Hin|]. simpl.
  destruct (N.eqb_spec v (snd a)) as [E|NE].
  - exists [], a, l. change (slen (concat_names [])) with 0. now rewrite N.add_0_r.
  - destruct Hin as [Hin|Hin]; [congruence|].
    destruct (IH Hin (off + slen (fst a))) as (pre & x & post & -> & Hsv & E).
    exists (a :: pre), x, post. simpl. now rewrite slen_append, N.add_assoc.
Qed.

Lemma runs_string_of bits runs m v : m_shape m = shape_of_runs runs -> Forall is_run runs ->
  (forall r, In r runs -> N.of_nat (List.length r) < 2 ^ bits) -> v < 2 ^ bits ->
  In v (vals (List.concat runs)) ->
  exists x, In x (List.concat runs) /\ snd x = v /\ string_of bits m v = Some (fst x).
Proof.
  intros Hm Hr Hlen Hv Hin. unfold string_of. rewrite Hm.
  destruct (shape_of_runs_cases runs) as [[r [-> ->]]|[->| ->]].
  - apply Forall_inv in Hr. change (List.concat [r]) with (r ++ []) in *. rewrite app_nil_r in *.
    pose proof (proj1 (run_vals r v Hr) Hin) as Hle.
    unfold build_one. cbv beta iota zeta. rewrite index_of_run_length, sub_offset by lia.
    rewrite (proj2 (N.leb_gt _ _)) by lia. apply run_lookup; auto. apply Hlen. now left.
  - destruct (run_cases_build bits v runs Hv) as [x [Hx [Hsv E]]]; [|assumption|exists x; now rewrite E].
    rewrite Forall_forall in *. auto.
  - destruct (assoc_map_entries _ v Hin 0) as (pre & x & post & El & Hsv & E). exists x.
    unfold build_map. cbv beta iota zeta.
    rewrite E, El, N.add_0_l, concat_names_app. split; [apply in_elt|]. split; [assumption|apply slice_middle].
Qed.

Theorem stringer_model_cover tname consts v :
  in_domain v (domain (stringer_model tname consts)) = true <-> In v (vals consts).
Proof.
  destruct (split_runs_spec (model_list tname consts)) as [Hruns Hcat].
  rewrite (runs_domain _ _ v (model_shape tname consts) Hruns), Hcat. apply model_list_vals.
Qed.

Theorem stringer_model_other bits tname consts v :
  bits <= 63 -> (forall c, In c consts -> snd c < 2 ^ bits) -> v < 2 ^ bits -> ~ In v (vals consts) ->
  string_of bits (stringer_model tname consts) v = Some (other_text tname v).
Proof.
  intros Hbits Hfit Hv Hnot.
  destruct (split_runs_spec (model_list tname consts)) as [Hruns Hcat].
  assert (Hfall : fallback (stringer_model tname consts) v = other_text tname v).
  { unfold fallback, other_text, stringer_model. simpl. rewrite format_int64_small.
    - now rewrite append_assoc.
    - eapply N.lt_le_trans; [exact Hv|]. apply N.pow_le_mono_r; [discriminate|assumption]. }
  rewrite <- Hfall. apply string_of_outside; [|assumption|].
  - apply (runs_shape_ok bits _ _ (model_shape tname consts) Hruns). rewrite Hcat.
    intros w Hw. apply model_list_vals, in_map_iff in Hw as [c [<- Hc]]. now apply Hfit.
  - apply not_true_is_false. intros D. now apply Hnot, (stringer_model_cover tname).
Qed.

Theorem stringer_model_const bits tname consts n v :
  v < 2 ^ bits -> N.of_nat (List.length consts) < 2 ^ bits -> In (n, v) consts ->
  exists s, string_of bits (stringer_model tname consts) v = Some s /\ In s (names_of tname consts v).
Proof.
  intros Hv Hlen Hin.
  destruct (split_runs_spec (model_list tname consts)) as [Hruns Hcat].
  destruct (runs_string_of bits _ _ v (model_shape tname consts) Hruns) as [x [Hx [Hsv E]]].
  - (* the values of a run are distinct values of constants, so a run is no longer than the constant list *)
    intros r Hr. assert (H : (List.length (vals r) <= List.length (vals consts))%nat).
    { apply NoDup_incl_length.
      - rewrite Forall_forall in Hruns. destruct (Hruns r Hr) as [_ E]. rewrite E. apply range_NoDup.
      - intros w Hw. apply (model_list_vals tname). rewrite <- Hcat. apply in_concat_vals. now exists r. }
    unfold vals in H. rewrite !map_length in H. lia.
  - exact Hv.
  - rewrite Hcat. apply model_list_vals. exact (in_map snd _ _ Hin).
  - exists (fst x). split; [exact E|]. rewrite Hcat in Hx. apply model_list_In in Hx. now rewrite Hsv in Hx.
Qed.
