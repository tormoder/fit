(* C07: Encode's output passes CheckIntegrity.  CheckIntegrity accepts every framed byte string (header,
   data of the announced size, CRC-16 trailer), whatever follows it, for any reader schedule, and what
   Encode writes for a well-formed File is such a frame.  The header of a File that Decode returned
   satisfies what Encode needs, so a decoded File that Encode accepts yields bytes CheckIntegrity accepts. *)
From Coq Require Import NArith ZArith List Bool Lia String.
From FitV Require Import Model.Values Model.Bytes Model.Base Model.Profile Model.Reflect Model.Components Model.Route
  Model.Crc Model.Header Model.IO Model.Decode Model.Encode Spec.RoundTrip Spec.RouteSpec
  Spec.CrcSpec Proofs.Util Proofs.BytesUtil Proofs.CrcProofs Proofs.EncodeProofs Proofs.IOSim Proofs.StreamDenoteDefs Proofs.StreamDenoteFrame Proofs.StreamDenoteDecode
  Spec.Integrity Proofs.C06Lay Proofs.C07Reencode Proofs.C07DecodeWf Gen.Consts.
From FitV Require Proofs.C10Frame Proofs.C04Verdict Proofs.C04Encode.
Import ListNotations.
Local Open Scope N_scope.

(* Encode's bytes are accepted on the reader that holds them alone (C04), so their verdict is acceptance
   (accepted_verdict), and it stays so whatever follows them (verdict_none_app) *)
Theorem encode_integrity : forall f be bs f' g rd fuel extra,
  wf_header (f_header f) = true -> proto_ok (h_proto (f_header f)) = true ->
  encode f be = EOk (bs, f') -> N.of_nat (List.length bs) < 4294967296 ->
  rd_data rd = bs ++ extra ->
  (List.length (rd_data rd) + List.length (rd_sched rd) < fuel)%nat ->
  exists r, entry_CheckIntegrity false g rd fuel = TDone r /\ dr_err r = None.
Proof.
  intros f be bs f' g rd fuel extra Hh Hpo Henc Hlen Hd Hf.
  destruct (C04Encode.encode_output_accepted f be bs f' Hh Hpo Henc Hlen no_opts g _ (C10Frame.solo bs) eq_refl (C10Frame.solo_wf bs))
    as (r0 & E0 & He0 & _).
  destruct (C04Verdict.accepted_verdict _ _ _ _ _ MCrcOnly (or_intror eq_refl) (C10Frame.solo_wf bs) E0 He0) as [Hv _].
  destruct (C04Verdict.check_integrity_spec no_opts g fuel rd Hf) as (r & E & Hr & _).
  exists r. split; [exact E|]. rewrite Hr, Hd. exact (C04Verdict.verdict_none_app _ _ extra _ Hv).
Qed.

Lemma list_eqb_true a b : list_eqb a b = true -> a = b.
Proof. apply list_eqb_iff. Qed.

Theorem decode_file_header : forall o g rd fuel h file' rd' g' q,
  Forall (fun b => b < 256) (rd_data rd) ->
  entry_Decode o g rd fuel = TDone (mk_dres None h (Some file') rd' g' q) ->
  f_header file' = h /\ wf_header h = true /\ proto_ok (h_proto h) = true /\ h_profile h < 65536.
Proof.
  intros o g rd fuel h file' rd' g' q Hb Hd.
  destruct (decode_full_ok o g rd fuel _ Hb Hd eq_refl) as [(f & Hf & _ & Hh) [_ Hfacts]].
  cbn [dr_file dr_hdr] in *. injection Hf as <-. now split.
Qed.

Lemma decoded_encodable o g rd fuel h f rd' g' q :
  Forall (fun b => b < 256) (rd_data rd) ->
  entry_Decode o g rd fuel = TDone (mk_dres None h (Some f) rd' g' q) -> f_inited f = Some (file_type f) ->
  wf_file f = true /\ wf_header (f_header f) = true /\ proto_ok (h_proto (f_header f)) = true /\ h_profile (f_header f) < 65536.
Proof.
  intros Hb Hd Hi. destruct (decode_file_header _ _ _ _ _ _ _ _ _ Hb Hd) as (<- & Hh).
  split; [|exact Hh]. eapply decode_wf; [exact Hb|exact Hd|exact Hi|reflexivity].
Qed.

(* C07: on a File Decode returned (FileId.Type still naming its container) Encode either fails with the UTF-8
   error or writes bytes that CheckIntegrity accepts, whatever follows them and however the reader cuts them *)
Theorem reencode_total_integrity : forall o g rd fuel h file' rd' g' q be,
  Forall (fun b => b < 256) (rd_data rd) ->
  entry_Decode o g rd fuel = TDone (mk_dres None h (Some file') rd' g' q) ->
  f_inited file' = Some (file_type file') ->
  encode file' be = EErr EEString \/
  exists bs f'', encode file' be = EOk (bs, f'') /\
    (N.of_nat (List.length bs) < 4294967296 ->
     forall g2 rd2 fuel2 extra, rd_data rd2 = bs ++ extra ->
       (List.length (rd_data rd2) + List.length (rd_sched rd2) < fuel2)%nat ->
       exists r, entry_CheckIntegrity false g2 rd2 fuel2 = TDone r /\ dr_err r = None).
Proof.
  intros o g rd fuel h file' rd' g' q be Hb Hd Hi.
  destruct (decoded_encodable _ _ _ _ _ _ _ _ _ Hb Hd Hi) as (Hwf & Hwh & Hpo & Hpr).
  destruct (encode_total file' be Hwf) as [[[bs f''] He]|He]; [right|left; exact He].
  exists bs, f''. split; [exact He|]. intros Hlen g2 rd2 fuel2 extra. now apply (encode_integrity file' be bs f'').
Qed.

(* non-vacuity: decode StreamDenoteDecode.ok_reader, encode the File (both byte orders), check the bytes *)
Example reencode_integrity_example :
  forallb (fun be : bool =>
    match entry_Decode no_opts g_init ok_reader 200 with
    | TDone r =>
        match dr_err r, dr_file r with
        | None, Some f =>
            match encode f be with
            | EOk (bs, _) =>
                match entry_CheckIntegrity false g_init (mk_reader (bs ++ [7; 7]) [2; 0; 5]%nat TEOF true 0) (10 + List.length bs) with
                | TDone r2 => match dr_err r2 with None => Nat.ltb 0 (List.length bs) | Some _ => false end
                | _ => false
                end
            | _ => false
            end
        | _, _ => false
        end
    | _ => false
    end) [false; true] = true.
Proof. (* the decoding is named so that the checker evaluates it once *)
  set (d := entry_Decode no_opts g_init ok_reader 200). vm_compute. reflexivity.
Qed.
