(* C08: results do not depend on call history -- calls, histories, witnesses. *)
From Coq Require Import NArith ZArith List Bool String Lia.
From FitV Require Import Model.Values Model.IO Model.Header Model.Components Model.Route Model.Decode Model.Encode
  Model.Shared Gen.Consts Proofs.C08Sim Proofs.C08Route Proofs.C08Decode.
Import ListNotations.
Local Open Scope N_scope.

Lemma gwf_init : gwf g_init.
Proof. split; intros a H; discriminate H. Qed.

Definition call_rel (g1 g2 : gstate) (x1 x2 : obs * gstate) : Prop :=
  obs_sim (fst x1) (fst x2) /\ acc_rel g1 g2 (snd x1) (snd x2) (fst x1 = fst x2).

Lemma call_rel_same g1 g2 o : gwf g1 -> gwf g2 -> obs_sim o o -> call_rel g1 g2 (o, g1) (o, g2).
Proof. intros W1 W2 H. split; [exact H|apply acc_rel_start; auto]. Qed.

Lemma obs_dec_rel g1 g2 t1 t2 : gwf g1 -> gwf g2 -> tout_rel (dres_rel g1 g2) t1 t2 ->
  call_rel g1 g2 (obs_dec g1 t1) (obs_dec g2 t2).
Proof.
  intros W1 W2 H. destruct t1 as [r1|w1|], t2 as [r2|w2|]; try contradiction.
  - destruct H as (A & B & C & D & E & T). split; [cbn; auto|].
    apply (acc_rel_impl _ _ _ _ _ _ T). cbn. intros X. rewrite A, B, C, X. reflexivity.
  - destruct H. apply call_rel_same; auto. reflexivity.
  - apply call_rel_same; auto.
Qed.

Lemma obs_chain_rel g1 g2 t1 t2 : gwf g1 -> gwf g2 -> tout_rel (cres_rel g1 g2 [] []) t1 t2 ->
  call_rel g1 g2 (obs_chain g1 t1) (obs_chain g2 t2).
Proof.
  intros W1 W2 H. destruct t1 as [r1|w1|], t2 as [r2|w2|]; try contradiction.
  - destruct H as (A & B & C & D & T). split; [cbn; auto|].
    apply (acc_rel_impl _ _ _ _ _ _ T). cbn. intros X. rewrite A, B, (X eq_refl). reflexivity.
  - destruct H. apply call_rel_same; auto. reflexivity.
  - apply call_rel_same; auto.
Qed.

Theorem run_call_rel c g1 g2 : gwf g1 -> gwf g2 -> call_rel g1 g2 (run_call g1 c) (run_call g2 c).
Proof.
  intros W1 W2. destruct c; cbn [run_call].
  2: { apply obs_chain_rel; auto. apply decode_chained_rel; auto. }
  5: { apply call_rel_same; auto. reflexivity. }
  all: apply obs_dec_rel; auto; apply decode_rel; assumption.
Qed.

(* a call without compressed_speed_distance source returns, after any
   history that left the distance accumulator nil, what it returns in a fresh
   process; and it leaves the distance accumulator nil *)
Theorem decode_history_free c g : gwf g -> g_dist g = None -> no_distance_source c ->
  fst (run_call g c) = fresh c /\ g_dist (snd (run_call g c)) = None /\ gwf (snd (run_call g c)).
Proof.
  intros W D H. destruct (run_call_rel c g_init g gwf_init W) as (_ & _ & Wb & T1 & _).
  destruct (T1 H) as (_ & E & G). split; [symmetry; exact E|]. split; [rewrite G; exact D|exact Wb].
Qed.

(* lifted to call histories: a process started in any reachable accumulator state, against one
   fresh process per call.  The outcome class, error, header, reader position and every non-record
   message are those of the fresh call whatever the history; the whole observation is, as long as no
   call of the history creates the distance accumulator (whether the process had one before does not
   matter). *)
Theorem run_history_fresh cs : forall g, gwf g ->
  Forall2 obs_sim (map fresh cs) (run_history g cs) /\
  (Forall no_distance_source cs -> run_history g cs = map fresh cs).
Proof.
  induction cs as [|c r IH]; intros g W; cbn [run_history map]; [split; [constructor|reflexivity]|].
  destruct (run_call_rel c g_init g gwf_init W) as (S & _ & Wb & T1 & _). destruct (IH _ Wb) as (A & B).
  split; [constructor; assumption|]. intro H. inversion_clear H as [|? ? Hc Hr].
  destruct (T1 Hc) as (_ & E & _). rewrite <- E, (B Hr). reflexivity.
Qed.

Theorem history_free cs : Forall no_distance_source cs -> run_history g_init cs = map fresh cs.
Proof. exact (proj2 (run_history_fresh cs g_init gwf_init)). Qed.

Theorem history_control_free cs : Forall2 obs_sim (map fresh cs) (run_history g_init cs).
Proof. exact (proj1 (run_history_fresh cs g_init gwf_init)). Qed.

(* a call that reaches no accumulating expansion neither changes the
   accumulators nor depends on them (the basis of C09) *)
Theorem call_untouched c g : gwf g -> no_accumulated_source c -> run_call g c = (fresh c, g).
Proof.
  intros W H. destruct (run_call_rel c g_init g gwf_init W) as (_ & _ & _ & _ & T2).
  destruct (T2 H) as (_ & E & G). rewrite (surjective_pairing (run_call g c)). f_equal; [symmetry; exact E|exact G].
Qed.

(* a 42-byte activity file: file_id, then two record messages carrying
   compressed_speed_distance (raw distances 50 and 100) *)
Definition csd_stream : list N :=
  [12; 16; 92; 8; 28; 0; 0; 0; 46; 70; 73; 84; 64; 0; 0; 0; 0; 1; 0; 1; 0; 0; 4; 65; 0; 0; 20; 0; 1; 8; 3; 13;
   1; 16; 32; 3; 1; 16; 64; 6; 98; 175].
Definition csd_call : call := CDecode no_opts (mk_reader csd_stream [] TEOF false 0) 100.

(* the same file with the compressed_speed_distance bytes all 0xFF (invalid) *)
Definition plain_stream : list N :=
  [12; 16; 92; 8; 28; 0; 0; 0; 46; 70; 73; 84; 64; 0; 0; 0; 0; 1; 0; 1; 0; 0; 4; 65; 0; 0; 20; 0; 1; 8; 3; 13;
   1; 255; 255; 255; 1; 255; 255; 255; 190; 157].
Definition plain_call : call := CDecode no_opts (mk_reader plain_stream [] TEOF false 0) 100.

Definition record_distances (o : obs) : list N :=
  match o with
  | ODec _ _ (Some f) _ =>
      flat_map (fun sl => flat_map (fun m => if m_num m =? c_MesgNumRecord then [uval (fld m "Distance")] else []) sl) (f_slots f)
  | _ => []
  end.
Definition obs_ok (o : obs) : bool := match o with ODec None _ (Some _) _ => true | _ => false end.

Lemma csd_fresh_distances : obs_ok (fresh csd_call) = true /\ record_distances (fresh csd_call) = [50; 100].
Proof. split; vm_compute; reflexivity. Qed.
Lemma csd_second_distances :
  record_distances (fst (run_call (snd (run_call g_init csd_call)) csd_call)) = [4146; 4196].
Proof. vm_compute. reflexivity. Qed.

(* the full statement fails: the second decode of csd_call in a process differs from the first *)
Theorem history_dependence_refuted :
  exists c, run_history g_init [c; c] <> map fresh [c; c] /\ no_distance_sourceb c = false.
Proof.
  exists csd_call. split.
  - cbn [run_history map]. intro H.
    apply (f_equal (fun l => match l with [_; o] => record_distances o | _ => [] end)) in H.
    cbv beta iota in H. cbn [fst snd] in H. rewrite csd_second_distances in H.
    destruct csd_fresh_distances as [_ E]. rewrite E in H. discriminate H.
  - vm_compute. reflexivity.
Qed.

(* Encode is a function of the File and the byte order alone *)
Theorem encode_deterministic f be g1 g2 :
  fst (run_call g1 (CEncode f be)) = fst (run_call g2 (CEncode f be)) /\ snd (run_call g1 (CEncode f be)) = g1.
Proof. split; reflexivity. Qed.

(* the side conditions are satisfiable by a file that decodes without error and holds record messages *)
Lemma plain_call_ok : no_accumulated_sourceb plain_call = true /\ no_distance_sourceb plain_call = true /\
  obs_ok (fresh plain_call) = true /\ List.length (record_distances (fresh plain_call)) = 2%nat.
Proof. split; [|split; [|split]]; vm_compute; reflexivity. Qed.

(* two record messages carrying cycles (5, 9) and no compressed_speed_distance: inside the domain of
   history_free (total_cycles is always 0: mask 0), outside that of C09's noninterference *)
Definition cycles_stream : list N :=
  [12; 16; 92; 8; 24; 0; 0; 0; 46; 70; 73; 84; 64; 0; 0; 0; 0; 1; 0; 1; 0; 0; 4; 65; 0; 0; 20; 0; 1; 18; 1; 2;
   1; 5; 1; 9; 150; 215].
Definition cycles_call : call := CDecode no_opts (mk_reader cycles_stream [] TEOF false 0) 100.
Lemma cycles_call_ok : no_distance_sourceb cycles_call = true /\ no_accumulated_sourceb cycles_call = false /\
  obs_ok (fresh cycles_call) = true /\ touched cycles_call = [LCycles] /\ touched csd_call = [LDist].
Proof. split; [|split; [|split; [|split]]]; vm_compute; reflexivity. Qed.

Lemma no_accumulated_sourceb_spec c : no_accumulated_sourceb c = true <-> no_accumulated_source c.
Proof.
  unfold no_accumulated_sourceb, no_accumulated_source. destruct (snd (run_call g_init c)) as [[a|] [b|] [d|]]; unfold g_init;
    split; intro H; try discriminate H; reflexivity.
Qed.
