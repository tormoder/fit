(* C18 on whole streams: vocabulary.  [stored_run] is File.add's treatment of a message sequence made explicit:
   every message of a type the container expands (record, lap, session, event, segment_lap held by a slot of the
   container proper) is replaced by expand_components of it, in stream order, threading the accumulator state.
   Below it, what the statements ask of one message: its shape (msg_shape), whether it is a record (is_record), the
   bytes of its compressed_speed_distance field and the generated code's test on them (csd_bytes, csd_valid), its
   Distance (distance_of). *)
From Coq Require Import NArith ZArith List Bool String.
From FitV Require Import Model.Values Model.Reflect Model.Profile Model.Components Model.Route Spec.RouteSpec Gen.Consts.
Import ListNotations.
Local Open Scope N_scope.

Fixpoint stored_run (ft : N) (g : gstate) (ms : list msg) : option (list msg * gstate) :=
  match ms with
  | [] => Some ([], g)
  | m :: r =>
      match stored ft g m with
      | None => None
      | Some (m', g') => match stored_run ft g' r with Some (l, gl) => Some (m' :: l, gl) | None => None end
      end
  end.

Lemma stored_run_ind ft (P : gstate -> list msg -> list msg -> gstate -> Prop) :
  (forall g, P g [] [] g) ->
  (forall g m r m' g' l gl, stored ft g m = Some (m', g') -> P g' r l gl ->
     P g (m :: r) (m' :: l) gl) ->
  forall ms g sm gl, stored_run ft g ms = Some (sm, gl) -> P g ms sm gl.
Proof.
  intros H0 Hs. induction ms as [|m r IH]; intros g sm gl H; cbn [stored_run] in H.
  - injection H as <- <-. apply H0.
  - destruct (stored ft g m) as [[m' g']|] eqn:E; [|discriminate].
    destruct (stored_run ft g' r) as [[l gl']|] eqn:E'; [|discriminate].
    injection H as <- <-. exact (Hs g m r m' g' l gl' E (IH g' l gl' E')).
Qed.

Lemma stored_run_seq ft : forall ms g l gl, stored_run ft g ms = Some (l, gl) -> stored_seq ft g ms = Some l.
Proof.
  apply (stored_run_ind ft (fun g ms l _ => stored_seq ft g ms = Some l)); [reflexivity|].
  intros g m r m' g' l gl E IH. cbn [stored_seq]. now rewrite E, IH.
Qed.

Definition csd_bytes (m : msg) : list N :=
  match fld m "CompressedSpeedDistance"%string with VList l => map uval l | _ => [] end.
(* the source is valid: three bytes, not all 0xFF (the test of the generated code) *)
Definition csd_valid (m : msg) : bool :=
  Nat.eqb (List.length (csd_bytes m)) 3 && existsb (fun v => negb (v =? 0xFF)) (csd_bytes m).

(* a message value of the shape the decoder produces *)
Definition msg_shape (m : msg) : Prop := List.length (m_fields m) = List.length (msg_layout (m_num m)).

Definition is_record (m : msg) : bool := m_num m =? c_MesgNumRecord.
Definition distance_of (m : msg) : N := uval (fld m "Distance"%string).
