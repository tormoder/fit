(* C18 on whole streams: the messages the reference semantics denotes have the shape the expansion lemmas
   need: as many fields as the struct, and a compressed_speed_distance field holding bytes. *)
From Coq Require Import NArith ZArith List Bool String Lia Arith.
From FitV Require Import Proofs.Util Proofs.BytesUtil Model.Values Model.Bytes Model.Base Model.Reflect Model.Profile Model.Components
  Spec.FitSyntax Spec.ProfileWf Proofs.ProfileProofs Proofs.RouteProofs Proofs.C18Defs
  Proofs.StreamDenoteArith Proofs.StreamDenoteDefs Proofs.StreamDenoteField Proofs.StreamDenoteData Proofs.StreamDenoteSkip Gen.Consts.
Import ListNotations.
Local Open Scope N_scope.

(* record.compressed_speed_distance as the regenerated profile has it: struct field 9 of Record, field number 8,
   types.Fit 45 = the array flag 0x20 over base type byte (0x0D), three elements.  csd_sindex, csd_get_field and
   csd_type evaluate Gen/ProfileData.v against these constants: they are what fails when the profile moves the field. *)
Definition csd_idx : nat := 9.
Definition csd_num : N := 8.
Definition csd_pf : pfield := mk_pfield 9 8 45 3.

Lemma csd_sindex : sindex_of c_MesgNumRecord "CompressedSpeedDistance" = Some csd_idx.
Proof. vm_compute. reflexivity. Qed.
Lemma csd_get_field : get_field c_MesgNumRecord csd_num = Some csd_pf.
Proof. vm_compute. reflexivity. Qed.
Lemma csd_type : field_type c_MesgNumRecord csd_idx = Some (TSlice (TU 8)).
Proof. vm_compute. reflexivity. Qed.

Definition bytes_val (v : goval) : Prop :=
  match v with VList l => Forall (fun b => b < 256) (map uval l) | _ => True end.

Definition good (m : msg) : Prop :=
  msg_shape m /\ (m_num m = c_MesgNumRecord -> bytes_val (nth csd_idx (m_fields m) VOther)).

Lemma good_csd_bytes m : good m -> is_record m = true -> Forall (fun b => b < 256) (csd_bytes m).
Proof.
  intros [_ H] Hr. unfold is_record in Hr. apply N.eqb_eq in Hr. specialize (H Hr).
  unfold csd_bytes, fld. rewrite Hr, csd_sindex. unfold bytes_val in H.
  destruct (nth csd_idx (m_fields m) VOther); try constructor. exact H.
Qed.

Lemma csd_value be f ref bytes v : compat c_MesgNumRecord f = true -> sf_num f = csd_num -> all_bytes bytes = true ->
  denote_field be f csd_pf (TSlice (TU 8)) ref bytes = Some v -> bytes_val v.
Proof.
  intros Hc Hn Hb Hd.
  assert (Hk : known_msg c_MesgNumRecord = true) by (vm_compute; reflexivity).
  pose proof csd_get_field as Hg. rewrite <- Hn in Hg.
  (* a native array whose base type the definition repeats: one element per byte *)
  pose proof (proj1 (proj2 (compat_listed c_MesgNumRecord f csd_pf Hc Hk Hg))) as Ebt.
  unfold denote_field in Hd. rewrite Ebt in Hd. injection Hd as <-.
  cbn [bytes_val]. change (Pos.to_nat 1) with 1%nat. rewrite (split_every_1 _ _ bytes (le_n _)), !map_map.
  apply Forall_forall. intros x Hx. apply in_map_iff in Hx. destruct Hx as (b & <- & Hin).
  cbn [uval]. unfold wire_unsigned. rewrite get_val_1. exact (all_bytes_In bytes b Hb Hin).
Qed.

Lemma good_set_at m i x : good m -> (m_num m = c_MesgNumRecord -> i = csd_idx -> bytes_val x) ->
  good (mk_msg (m_num m) (set_at i x (m_fields m))).
Proof.
  intros [Hs Hv] Hx. split; cbn [m_num m_fields].
  - unfold msg_shape in *. cbn [m_num m_fields]. now rewrite set_at_length.
  - intros E. specialize (Hv E). rewrite <- nth_default_eq in *. unfold nth_default in *.
    rewrite nth_error_set_nth.
    destruct (Nat.eqb_spec csd_idx i) as [<-|_]; [|exact Hv]. destruct (nth_error (m_fields m) csd_idx); [now apply Hx|exact I].
Qed.

Lemma dstep_good be gmn f bytes m ref unl : good m -> m_num m = gmn -> compat gmn f = true -> all_bytes bytes = true ->
  good (fst (fst (dstep be gmn f bytes m ref unl))) /\ m_num (fst (fst (dstep be gmn f bytes m ref unl))) = gmn.
Proof.
  intros Hg Hn Hc Hb. unfold dstep. destruct (get_field gmn (sf_num f)) as [p|] eqn:Eg; [|now split].
  cbv zeta. destruct (denote_field be f p _ ref bytes) as [v|] eqn:Ed; [|now split].
  cbn [fst m_num]. split; [|exact Hn]. apply good_set_at; [exact Hg|]. rewrite Hn. intros -> Ei.
  assert (En : sf_num f = csd_num) by exact (distinct_struct_fields _ _ _ p csd_pf Eg csd_get_field Ei).
  rewrite En, csd_get_field in Eg. injection Eg as <-.
  change (pf_sindex csd_pf) with csd_idx in Ed. rewrite csd_type in Ed.
  exact (csd_value be f ref bytes v Hc En Hb Ed).
Qed.

Lemma denote_fields_good be gmn : forall fds pay m ref unl,
  good m -> m_num m = gmn -> forallb (compat gmn) fds = true -> all_bytes pay = true ->
  good (fst (fst (denote_fields be gmn fds pay m ref unl))).
Proof.
  induction fds as [|f r IH]; intros pay m ref unl Hg Hn Hc Hb; [exact Hg|].
  cbn [forallb] in Hc. apply andb_prop in Hc. destruct Hc as [Hc1 Hc].
  destruct (all_bytes_split (N.to_nat (sf_size f)) pay Hb) as [Hb1 Hb2].
  rewrite denote_fields_cons. destruct (dstep_good be gmn f _ m ref unl Hg Hn Hc1 Hb1) as [Hg' Hn'].
  destruct (dstep be gmn f _ m ref unl) as [[m' ref'] unl']. now apply IH.
Qed.

Definition sgood (s : sstate) : Prop :=
  Forall good (ss_msgs s) /\ forall l d, lookup_def (ss_env s) l = Some d -> forallb (compat (sd_gmn d)) (sd_fds d) = true.

Lemma record_invalid_csd m0 : mesg_all_invalid c_MesgNumRecord = Some m0 -> nth csd_idx (m_fields m0) VOther = VNil.
Proof. intros H. vm_compute in H. inversion H; subst m0. reflexivity. Qed.

Lemma all_invalid_good gmn m0 : known_msg gmn = true -> mesg_all_invalid gmn = Some m0 -> good m0 /\ m_num m0 = gmn.
Proof.
  intros Hk Hm. destruct (known_has_constructor gmn Hk) as (md & Ef & _ & _ & Hmai & Hlen).
  rewrite Hmai in Hm. inversion Hm; subst m0. split; [split|reflexivity].
  - unfold msg_shape, msg_layout. cbn [m_num m_fields]. rewrite Ef. now symmetry.
  - cbn [m_num]. intros ->. rewrite (record_invalid_csd _ Hmai). exact I.
Qed.

(* whatever a compressed header's time stamp does to the all-invalid message, the field loop starts from a good one *)
Lemma data_effect_good d off ref pay ref' ms unl :
  forallb (compat (sd_gmn d)) (sd_fds d) = true -> all_bytes pay = true ->
  data_effect d off ref pay = Some (ref', ms, unl) -> Forall good ms.
Proof.
  intros Hc Hb H. unfold data_effect in H. cbv zeta in H.
  destruct (known_msg (sd_gmn d)) eqn:Ek; [|injection H as _ <- _; constructor].
  destruct (mesg_all_invalid (sd_gmn d)) as [m0|] eqn:Em; [|discriminate].
  destruct (all_invalid_good _ _ Ek Em) as [Hg0 Hn0].
  match type of H with context [denote_fields _ _ _ _ ?m1 ?r1 _] =>
    assert (Hg1 : good m1 /\ m_num m1 = sd_gmn d);
    [|pose proof (denote_fields_good (sd_be d) (sd_gmn d) (sd_fds d) pay m1 r1 [] (proj1 Hg1) (proj2 Hg1) Hc Hb) as Hg2] end.
  { unfold stamp_msg. destruct off, ref, (get_field (sd_gmn d) c_fieldNumTimeStamp); try now split.
    split; [apply good_set_at; [exact Hg0|intros _ _; exact I]|exact Hn0]. }
  destruct (denote_fields _ _ _ _ _ _ _) as [[m2 ref2] unl2]. injection H as _ <- _. now constructor.
Qed.

Lemma denote_data_good s l off pay dev s' : sgood s -> all_bytes pay = true ->
  denote_data s l off pay dev = Some s' -> sgood s'.
Proof.
  intros [Hg He] Hb H. rewrite denote_data_effect in H.
  destruct (lookup_def (ss_env s) l) as [d|] eqn:El; [|discriminate].
  destruct (_ || _); [discriminate|].
  destruct (data_effect d off (ss_ref s) pay) as [[[ref' ms] unl]|] eqn:Ee; [|discriminate].
  injection H as <-. split; cbn [ss_msgs ss_env]; [|exact He].
  apply Forall_app. split; [exact Hg|exact (data_effect_good d off _ pay ref' ms unl (He l d El) Hb Ee)].
Qed.

Lemma denote_record_good s r s' : sgood s -> rec_wf r = true -> denote_record s r = Some s' -> sgood s'.
Proof.
  intros Hs Hwf H. unfold rec_wf in Hwf. apply andb_prop in Hwf. destruct Hwf as [Hb _].
  destruct r as [l be gmn fds devflag devs|l pay dev|l off pay dev]; cbn [denote_record] in H.
  - destruct ((16 <=? l) || (gmn =? c_MesgNumInvalid) || negb (forallb (compat gmn) fds)) eqn:E; [discriminate|].
    apply orb_false_elim in E. destruct E as [_ Ec]. apply negb_false_iff in Ec.
    inversion H; subst s'. destruct Hs as [Hg He]. split; cbn [ss_msgs ss_env]; [exact Hg|].
    intros l' d. rewrite lookup_def_cons. destruct (l =? l'); [intros [= <-]; exact Ec|apply He].
  - exact (denote_data_good s l None pay dev s' Hs (payload_bytes _ pay dev Hb) H).
  - destruct (4 <=? l); [discriminate|].
    exact (denote_data_good s l (Some off) pay dev s' Hs (payload_bytes _ pay dev Hb) H).
Qed.

Theorem denote_good : forall rs ss, stream_wf rs = true -> denote rs = Some ss -> Forall good (ss_msgs ss).
Proof.
  intros rs ss Hwf Hd.
  apply (denote_from_inv sgood rec_wf (fun r s s' Hr E Hs => denote_record_good s r s' Hs Hr E) rs ss_init ss Hwf Hd).
  split; [constructor|]. intros l d E. discriminate E.
Qed.
