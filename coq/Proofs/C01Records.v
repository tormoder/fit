(* C01: definition messages, data messages, the record loop and the buffered
   part of decode never panic, on any bytes; every record consumes at least
   one byte, so the loop fuel of decode_file_data is never exhausted and the
   loop exits with n = limit (the pre-CRC invariant). *)
From Coq Require Import NArith ZArith List Bool Arith Lia String.
From FitV Require Import Proofs.Util Model.Values Model.Bytes Model.Base Model.Profile Model.Reflect Model.IO
  Model.Header Model.Components Model.Route Model.Decode Spec.ProfileWf Spec.RouteSpec Proofs.ProfileProofs Proofs.RouteProofs
  Proofs.IOSim Proofs.DecodeLemmas Proofs.DecodeFrame
  Proofs.C01Hoare Proofs.C01Cells Proofs.C01Fields Gen.Consts Gen.RoutingData.
Import ListNotations.
Local Close Scope string_scope.
Local Open Scope N_scope.

Definition def_ok (dm : defmsg) : Prop := Forall (fdef_ok (dm_gmn dm)) (dm_fdefs dm).
Definition DInv (s : dstate) : Prop := Forall (opt_all def_ok) (ds_defs s).
Lemma DInv_defs s s' : ds_defs s' = ds_defs s -> DInv s -> DInv s'.
Proof. unfold DInv. now intros ->. Qed.

Lemma chunk3_fdefs : forall n l, (List.length l <= n)%nat -> Forall isbyte l ->
  Forall (fun fd => fd_btype fd < 256 /\ fd_size fd < 256)
         (map (fun t : N * N * N => let '(a, b, c) := t in mk_fdef a b c) (chunk3 l)).
Proof.
  induction n as [|n IH]; intros l Hl H.
  - destruct l; [constructor|cbn in Hl; lia].
  - destruct l as [|a [|b [|c r]]]; cbn [chunk3 map]; try constructor.
    all: inversion_clear H as [|? ? Ha H1]; inversion_clear H1 as [|? ? Hb H2]; inversion_clear H2 as [|? ? Hc H3].
    + split; assumption.
    + apply IH; [cbn in Hl; lia|assumption].
Qed.

(* func (d) parseDefinitionMessage: never panics; what it returns was validated *)
Lemma parse_definition_message_np b x s : AInv x ->
  np (parse_definition_message b) x s
     (fun dm x' s' => AInv x' /\ s' = s /\ def_ok dm /\ dm_local dm = N.land b c_localMesgNumMask).
Proof.
  intros HA. unfold parse_definition_message. cbv zeta.
  apply np_read_byte; [assumption|]. intros r0 x1 _ HA1.
  apply np_read_byte; [assumption|]. intros arch x2 _ HA2.
  apply np_seq with (R := fun (_ : bool) x' s' => x' = x2 /\ s' = s).
  { destruct (arch =? c_littleEndian); [split; reflexivity|].
    destruct (arch =? c_bigEndian); [split; reflexivity|exact I]. }
  intros be x' s' [-> ->].
  apply np_read_full; [assumption|]. intros g2 x3 _ _ HA3.
  destruct (get16 be g2 =? c_MesgNumInvalid); [exact I|].
  apply np_read_byte; [assumption|]. intros nf x4 _ HA4.
  apply np_read_full; [assumption|]. intros fb x5 Hfb Hlen HA5.
  pose proof (validate_all_cases (get16 be g2) _ (chunk3_fdefs _ fb (Nat.le_refl _) Hfb)) as Hok.
  destruct (validate_all (get16 be g2) _); [|exact I|contradiction].
  destruct (N.land b c_devDataMask =? c_devDataMask).
  - apply np_read_byte; [assumption|]. intros nd x6 _ HA6.
    apply np_read_full; [assumption|]. intros db x7 _ _ HA7.
    apply np_ret. auto.
  - apply np_ret. auto.
Qed.

Lemma parse_data_message_np o b compressed x s : AInv x -> DInv s ->
  np (parse_data_message o b compressed) x s
     (fun om x' s' => (AInv x' /\
        match nth (N.to_nat (local_of b compressed)) (ds_defs s) None with
        | Some dm => known_msg (dm_gmn dm) = true -> om <> None
        | None => False
        end) /\ frame s s').
Proof.
  intros HA HD. apply (np_okp (frame s)); [|apply okp_data_message; [apply frame_clock|apply frame_counts]|apply frame_refl].
  unfold np.
  destruct (nth (N.to_nat (local_of b compressed)) (ds_defs s) None) as [dm|] eqn:En;
    [rewrite (data_message_uses_own_slot o b compressed x s dm En)|now rewrite (undefined_local_is_error o b compressed x s En)].
  pose proof (Forall_nth_default (opt_all def_ok) None I _ (N.to_nat (local_of b compressed)) HD) as Hd. rewrite En in Hd.
  (* a stamp keeps a message value a message value *)
  assert (K : forall msgv s1, (known_msg (dm_gmn dm) = true -> msgv <> None) ->
            np (stamp_view o b compressed dm msgv) x s1 (fun om x' _ => AInv x' /\ (known_msg (dm_gmn dm) = true -> om <> None))).
  { intros msgv s1 Hm. unfold stamp_view. cbv zeta. destruct (negb compressed); [now apply parse_data_fields_np|].
    apply np_get. destruct (negb (ds_hasts s1)); [now apply parse_data_fields_np|]. apply np_put.
    apply parse_data_fields_np; try assumption. now destruct msgv. }
  destruct (known_msg (dm_gmn dm)) eqn:Ek.
  - destruct (dmw_known o b compressed dm s Ek) as (m0 & _ & ->). apply K. discriminate.
  - rewrite (dmw_unknown o b compressed dm s Ek). destruct (o_unkm o); apply K; discriminate.
Qed.

Definition file_ready (f : file) : Prop := exists ft, f_inited f = Some ft /\ In ft valid_file_types.

Lemma add_msg_np m x s : file_ready (ds_file s) ->
  np (add_msg m) x s (fun _ x' s' => x' = x /\ ds_defs s' = ds_defs s /\ file_ready (ds_file s')).
Proof.
  intros (ft & Hi & Hft). unfold add_msg. apply np_get.
  destruct (add_no_panic ft Hft (ds_file s) (ds_g s) m Hi) as (f' & g' & -> & Hi' & _).
  cbn. split; [reflexivity|split; [reflexivity|]]. exists ft. split; assumption.
Qed.

(* the file_id message is stored before init: File.add handles it itself *)
Lemma fileid_add_np m x s : f_inited (ds_file s) = None -> m_num m = c_MesgNumFileId ->
  np (add_msg m) x s (fun _ x' s' => x' = x /\ ds_defs s' = ds_defs s).
Proof.
  intros Hi Hn. unfold add_msg. apply np_get. rewrite (file_add_uninited _ _ m Hi), Hn, file_id_slot.
  cbn. split; reflexivity.
Qed.

Lemma DInv_set_def dm s : def_ok dm -> DInv s ->
  DInv (with_defs s (set_nth (N.to_nat (dm_local dm)) (Some dm) (ds_defs s))).
Proof. intros Hd HD. unfold DInv. cbn. now apply Forall_set_nth. Qed.

Lemma set_def_np dm x s :
  np (set_def dm) x s (fun _ x' s' => x' = x /\ s' = with_defs s (set_nth (N.to_nat (dm_local dm)) (Some dm) (ds_defs s))).
Proof. split; reflexivity. Qed.

Lemma parse_record_np o x s : AInv x -> DInv s -> file_ready (ds_file s) ->
  np (parse_record o) x s (fun _ x' s' => AInv x' /\ DInv s' /\ file_ready (ds_file s')).
Proof.
  intros HA HD HF. unfold parse_record.
  apply np_read_byte; [assumption|]. intros b x1 _ HA1.
  assert (Hdata : forall c, np (om <- parse_data_message o b c ;; match om with Some m => add_msg m | None => Ret tt end) x1 s
                              (fun _ x' s' => AInv x' /\ DInv s' /\ file_ready (ds_file s'))).
  { intros c. eapply np_seq; [apply parse_data_message_np; assumption|].
    intros om x2 s2 ((HA2 & _) & [Hfd Hff]).
    assert (HD2 : DInv s2) by exact (DInv_defs _ _ Hfd HD).
    assert (HF2 : file_ready (ds_file s2)) by now rewrite Hff.
    destruct om as [m|]; [|now apply np_ret].
    eapply np_conseq; [apply add_msg_np; assumption|]. cbv beta. intros _ x3 s3 (-> & Hd3 & HF3).
    split; [assumption|split; [exact (DInv_defs _ _ Hd3 HD2)|assumption]]. }
  destruct (N.land b c_compressedHeaderMask =? c_compressedHeaderMask); [apply Hdata|].
  destruct (N.land b c_mesgDefinitionMask =? c_mesgDefinitionMask).
  - eapply np_seq; [apply parse_definition_message_np; assumption|]. intros dm x2 s2 (HA2 & -> & Hd & _).
    split; [assumption|]. split; [now apply DInv_set_def|assumption].
  - destruct (N.land b c_mesgDefinitionMask =? c_mesgHeaderMask); [apply Hdata|exact I].
Qed.

Lemma read_first_progress {A} (k : N -> P A) x s :
  match run_a (bind read_byte k) x s with
  | ROk _ x' _ => (a_n x < a_n x')%nat
  | _ => True
  end.
Proof.
  unfold read_byte. cbn [bind run_a].
  destruct (C10IO.a_take_spec 1 x) as [_ _|_]; [|exact I]. cbn [bind].
  set (b := hd 0 _). set (x1 := mk_ast _ _ _ _).
  pose proof (run_a_mono (k b) x1 s) as Hm. destruct (run_a (k b) x1 s); try exact I. cbn [x1 a_n] in Hm. lia.
Qed.

Lemma parse_record_progress o x s :
  match run_a (parse_record o) x s with
  | ROk _ x' _ => (a_n x < a_n x')%nat
  | _ => True
  end.
Proof. unfold parse_record. apply read_first_progress. Qed.

(* func (d) decodeFileData: the loop fuel is never exhausted, and the loop
   ends with n = limit *)
Lemma decode_file_data_np o : forall fuel x s, (a_limit x - a_n x < fuel)%nat ->
  AInv x -> DInv s -> file_ready (ds_file s) ->
  np (decode_file_data o fuel) x s (fun _ x' s' => a_n x' = a_limit x').
Proof.
  induction fuel as [|f IH]; intros x s Hfuel HA HD HF; [lia|].
  cbn [decode_file_data]. apply np_more.
  destruct (Nat.ltb_spec (a_n x) (a_limit x)) as [L|G].
  - eapply np_seq.
    { apply np_and with (Q' := fun x' => (a_n x < a_n x')%nat); [|apply parse_record_progress].
      apply np_frame. apply parse_record_np; assumption. }
    intros _ x' s' (((HA' & HD' & HF') & Hl) & Hp). apply IH; try assumption. lia.
  - apply np_ret. destruct HA as [_ Hle]. lia.
Qed.

Lemma parse_file_id_msg_np o x f g : AInv x -> f_inited f = None ->
  np (parse_file_id_msg o) x (init_dstate f g)
     (fun _ x' s' => AInv x' /\ DInv s').
Proof.
  intros HA Hi. unfold parse_file_id_msg.
  apply np_read_byte; [assumption|]. intros b x1 _ HA1.
  destruct (negb (N.land b c_mesgDefinitionMask =? c_mesgDefinitionMask)); [exact I|].
  eapply np_seq; [apply parse_definition_message_np; assumption|]. intros dm x2 s2 (HA2 & -> & Hd & Hl).
  destruct (N.eqb_spec (dm_gmn dm) c_MesgNumFileId) as [Eg|NE]; cbn [negb]; [|exact I].
  eapply np_seq; [apply set_def_np|]. intros _ x3 s3 (-> & ->).
  assert (HD3 : DInv (with_defs (init_dstate f g) (set_nth (N.to_nat (dm_local dm)) (Some dm) (ds_defs (init_dstate f g))))).
  { apply DInv_set_def; [exact Hd|]. unfold DInv, init_dstate. cbn. repeat constructor. }
  apply np_read_byte; [assumption|]. intros b2 x4 _ HA4.
  destruct (negb (N.land b2 c_mesgHeaderMask =? c_mesgHeaderMask)); [exact I|].
  eapply np_seq; [apply parse_data_message_np; assumption|]. intros om x5 s5 ((HA5 & Hom) & [Hfd Hff]).
  (* the slot that was read is the one just written: the message is file_id, which has a constructor *)
  destruct (nth _ _ None) as [dm'|] eqn:Hnth; [|contradiction]. cbn [ds_defs with_defs init_dstate] in Hnth.
  destruct (N.eq_dec (local_of b2 false) (dm_local dm)) as [E|NE];
    [|rewrite (slots_independent _ _ _ NE), nth_repeat in Hnth; discriminate].
  rewrite E, latest_def_wins in Hnth by (rewrite repeat_length, Hl; pose proof (normal_local_lt b); lia).
  injection Hnth as <-. rewrite Eg in Hom. specialize (Hom known_fileid).
  destruct om as [m|]; [|congruence].
  destruct (N.eqb_spec (m_num m) c_MesgNumFileId) as [Em|NEm]; [|exact I].
  eapply np_conseq; [apply fileid_add_np; [rewrite Hff; exact Hi|exact Em]|].
  cbv beta. intros _ x6 s6 (-> & Hd6). pose proof (DInv_defs _ _ Hd6 (DInv_defs _ _ Hfd HD3)). auto.
Qed.

Lemma do_init_np x s :
  np do_init x s (fun _ x' s' => x' = x /\ ds_defs s' = ds_defs s /\ file_ready (ds_file s')).
Proof.
  unfold do_init. apply np_get. unfold file_init.
  destruct (ft_entry (file_type (ds_file s))) as [[[ok c] sl]|] eqn:Ee; [|exact I].
  destruct ok; [|exact I].
  cbn. split; [reflexivity|split; [reflexivity|]].
  exists (file_type (ds_file s)). split; [reflexivity|]. eapply ft_entry_valid; eassumption.
Qed.

(* the buffered part of decode: no panic; in full mode it ends with n = limit *)
Theorem data_prog_np o fid x f g : AInv x -> f_inited f = None ->
  np (data_prog o fid (S (a_limit x))) x (init_dstate f g)
     (fun _ x' s' => fid = false -> a_n x' = a_limit x').
Proof.
  intros HA Hi. unfold data_prog.
  eapply np_seq; [apply np_frame; apply parse_file_id_msg_np; assumption|].
  intros _ x1 s1 ((HA1 & HD1) & Hl).
  destruct fid; [cbn; discriminate|].
  eapply np_seq; [apply do_init_np|]. intros _ x2 s2 (-> & Hd2 & HF2).
  eapply np_conseq; [apply decode_file_data_np; try assumption|].
  - lia.
  - exact (DInv_defs _ _ Hd2 HD1).
  - cbv beta. auto.
Qed.
