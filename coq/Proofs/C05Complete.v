(* C05, record completeness: the records the recogniser returns for Encode's output (C05Grammar.encode_recs)
   match the File's messages completely (Spec/Grammar.v record_matches: message number, no field number twice,
   every field value, and every struct field the record does not carry is unset), hence wire_ok.  That the
   definition Encode chooses covers the set fields is part of the layout ([menc], C06Defs.v). *)
From Coq Require Import NArith ZArith List Bool Lia String.
From Coq Require Import ZifyN ZifyNat ZifyBool.
From FitV Require Import Model.Values Model.Bytes Model.Base Model.Profile Model.Crc Model.Header
  Model.Components Model.Route Model.Encode Spec.CrcSpec Spec.FitSyntax Spec.Grammar Spec.RoundTrip
  Proofs.Util Proofs.CrcProofs Proofs.EncodeProofs Proofs.C05Grammar Proofs.C05Wire Proofs.C06Defs
  Gen.Consts Gen.ProfileData Gen.RoutingData.
Import ListNotations.
Local Open Scope N_scope.

Lemma NoDup_nodup_n l : NoDup l -> nodup_n l = true.
Proof.
  induction 1 as [|x r Hx Hr IH]; [reflexivity|]. cbn [nodup_n]. rewrite IH, andb_true_r. apply negb_true_iff.
  apply not_true_iff_false. intros H. apply existsb_exists in H as (y & Hy & E). apply N.eqb_eq in E. subst y. contradiction.
Qed.

Lemma sindex_owned gmn md i : find_msg gmn = Some md -> (i < List.length (md_layout md))%nat -> exists pf, pfield_of_sindex gmn i = Some pf.
Proof.
  intros Ef Hi. destruct (mo_owned _ (find_msg_ok _ _ Ef) i Hi) as (e & He). unfold pfield_of_sindex. rewrite Ef, He. eauto.
Qed.

Lemma absent_from_covers gmn md nums : find_msg gmn = Some md ->
  forall vals invs i, List.length vals = List.length invs -> (i + List.length vals <= List.length (md_layout md))%nat ->
  (forall j v iv, nth_error vals j = Some v -> nth_error invs j = Some iv ->
     unset v iv = true \/ exists pf, get_field_by_sindex gmn (i + j) = Some pf /\ In (pf_num pf) nums) ->
  absent_unset gmn nums i vals invs = true.
Proof.
  intros Ef. induction vals as [|v vr IH]; intros invs i Hlen Hle Hc; destruct invs as [|iv ir]; try discriminate; [reflexivity|].
  cbn [absent_unset]. cbn [List.length] in Hlen, Hle. apply andb_true_iff. split.
  - destruct (sindex_owned gmn md i Ef ltac:(lia)) as (pf & Hpf). rewrite Hpf.
    destruct (Hc 0%nat v iv eq_refl eq_refl) as [Hu|(pf' & Hp' & Hin)]; [rewrite Hu; apply orb_true_r|].
    rewrite Nat.add_0_r in Hp'. rewrite (proj1 (pfs_by _ _ _ Hpf)) in Hp'. inversion Hp'; subst pf'.
    apply orb_true_iff. left. apply existsb_exists. exists (pf_num pf). split; [exact Hin|apply N.eqb_refl].
  - apply IH; [lia|lia|]. intros j v' iv' Hv Hiv. replace (S i + j)%nat with (i + S j)%nat by lia. apply (Hc (S j)); assumption.
Qed.

Lemma grec_nums be gmn fields : forall parts, List.length parts = List.length fields ->
  map (fun f : N * N * list N => fst (fst f)) (gr_fields (grec_of be gmn fields parts)) = map pf_num fields.
Proof.
  unfold grec_of. cbn [gr_fields]. induction fields as [|pf r IH]; intros parts Hl; destruct parts as [|p ps]; try discriminate; [reflexivity|].
  cbn [combine map fst snd]. rewrite IH; [reflexivity|]. cbn [List.length] in Hl. lia.
Qed.

Lemma rec_menc_matches be m r :
  rec_menc be m r -> vals_typed (msg_layout (m_num m)) (m_fields m) = true -> msg_sane m = true ->
  record_matches m r = true.
Proof.
  intros Hr Hty Hsane. destruct (rec_fields_match be m _ (rec_menc_of _ _ _ Hr) Hty Hsane) as (_ & _ & Hfm).
  destruct Hr as (fields & parts & (_ & Hnd & HF & Hcov) & ->).
  unfold record_matches. unfold fields_match in Hfm. cbn [gr_gmn gr_be] in Hfm |- *. rewrite N.eqb_refl. cbn [andb].
  rewrite (grec_nums be (m_num m) fields parts (Forall2_length' _ _ _ HF)). rewrite (NoDup_nodup_n _ Hnd). cbn [andb].
  rewrite Hfm. cbn [andb].
  destruct Hcov as (inv & Hinv & Hlen & Hc). rewrite Hinv.
  destruct (ProfileProofs.mesg_all_invalid_some _ _ Hinv) as (md & Ef & _).
  eapply absent_from_covers; [exact Ef|exact Hlen| |].
  - cbn [Nat.add]. rewrite (C07MsgWf.vals_typed_length _ _ Hty). unfold msg_layout. rewrite Ef. apply Nat.le_refl.
  - intros j v iv Hv Hiv. cbn [Nat.add]. now apply Hc.
Qed.

(* C05: the complete comparison of Spec/Grammar.v *)
Theorem encode_wire_ok f be bs f' :
  wf_file f = true -> wf_header (f_header f) = true -> file_sane f = true ->
  encode f be = EOk (bs, f') -> N.of_nat (List.length bs) < 4294967296 ->
  exists recs, grammar bs = Some recs /\ wire_ok f recs = true.
Proof.
  intros Hwf Hh Hsane Henc Hlen. destruct (encode_recs f be bs f' Hwf Hh Henc Hlen) as (recs & Hg & F).
  exists recs. split; [exact Hg|]. apply forall2b_Forall2.
  eapply Forall2_impl_l; [|exact (file_msgs_checked f Hwf Hsane)|exact F].
  intros m r [Hty Hs] Hr. now apply (rec_menc_matches be).
Qed.
