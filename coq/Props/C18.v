(* C18 -- Component fields expand per profile, with per-file accumulation.
   Model: Model/Components.v (generated expandComponents bodies with Go's
   operand widths, accumu.go, the package-level accumulators as explicit state).
   Where the faithful model refutes the property the witness is a theorem and
   the finding is listed in KNOWN_FINDINGS.txt. *)
From Coq Require Import NArith ZArith List Bool String.
From FitV Require Import Model.Values Model.Bytes Model.Profile Model.IO Model.Header Model.Components Model.Route Model.Decode
  Spec.FitSyntax Spec.RouteSpec Spec.ComponentSpec Proofs.ComponentProofs
  Proofs.C18Defs Proofs.C18Good Proofs.C18Messages Proofs.C18Main
  Proofs.StreamDenoteDefs Proofs.StreamDenoteLift Proofs.StreamDenoteMain Proofs.StreamDenoteFrame Proofs.StreamDenoteDecode
  Gen.AccumuFuncs Proofs.C18Accumu.
Import ListNotations.
Local Open Scope N_scope.

(* tie by translation: accumu.go itself, translated on every check into Gen/AccumuFuncs.v (struct of uint32
   fields, constructor, pointer-receiver method as a state transformer, uint32 arithmetic mod 2^32), computes on every
   state and argument -- and therefore on every sequence of calls -- what the accumulator of the model computes *)
Theorem C18_accumulator_translated :
  (forall bits, acc_abs (go_uint32NewAccumulator bits) = new_accum bits) /\
  acc_abs (mk_go_uint32Accumulator 0 0 0) = zero_accum /\
  (forall s v, (fst (go_uint32Accumulator_accumulate s v), acc_abs (snd (go_uint32Accumulator_accumulate s v))) =
               accumulate (acc_abs s) v) /\
  (forall vs s, (fst (go_run s vs), acc_abs (snd (go_run s vs))) = model_run (acc_abs s) vs).
Proof. exact (conj go_new_accumulator_is (conj go_zero_accumulator_is (conj go_accumulate_is go_run_is))). Qed.
Print Assumptions C18_accumulator_translated.

(* a 16-bit speed/altitude source is widened into its enhanced field, for every source bit pattern;
   an invalid source (0xFFFF) leaves the message untouched; no other field changes *)
Theorem C18_widen16_dst : forall m src dst j, sindex_of (m_num m) dst = Some j -> (j < List.length (m_fields m))%nat ->
  uval (fld m src) < 65536 ->
  uval (fld (widen16 m src dst) dst) = spec_enhanced (uval (fld m src)) (uval (fld m dst)).
Proof. exact widen16_dst. Qed.
Print Assumptions C18_widen16_dst.
Theorem C18_widen16_other : forall m src dst n i j, sindex_of (m_num m) dst = Some i -> sindex_of (m_num m) n = Some j -> i <> j ->
  fld (widen16 m src dst) n = fld m n.
Proof.
  intros m src dst n i j Hs Hs' Hne. apply widen16_ne. congruence.
Qed.
Theorem C18_widen16_invalid : forall m src dst, uval (fld m src) = 0xFFFF -> widen16 m src dst = m.
Proof. intros m src dst H. unfold widen16. now rewrite H. Qed.

(* event data: the bit slices of sport_point and gear change, for all 2^32 data values *)
Theorem C18_event_bit_slices : forall d, d < 2 ^ 32 ->
  N.land d 0xFFFF = spec_score d /\ N.land (N.shiftr d 16) 0xFFFF = spec_opponent_score d /\
  N.land d 0xFF = spec_gear_byte d 0 /\ N.land (N.shiftr d 8) 0xFF = spec_gear_byte d 1 /\
  N.land (N.shiftr d 16) 0xFF = spec_gear_byte d 2 /\ N.land (N.shiftr d 24) 0xFF = spec_gear_byte d 3.
Proof. intros d _. exact (event_bit_slices d). Qed.

(* compressed_speed_distance: the speed half is right for all byte values *)
Theorem C18_csd_speed : forall b0 b1, b0 < 256 -> b1 < 256 ->
  N.lor b0 (N.shiftl (N.land b1 0x0F) 8) = spec_csd_speed b0 b1.
Proof. intros b0 b1 H0 _. exact (csd_speed_spec b0 b1 H0). Qed.
(* FULL STATEMENT (refuted): forall b1 b2 < 256, model_csd_distance_raw b1 b2 = spec_csd_distance_raw b1 b2.
   Proved under the exact side condition b2 < 16; witness of the defect below (x[2]<<4 is evaluated in byte). *)
Theorem C18_csd_distance_partial : forall b1 b2, b1 < 256 -> b2 < 16 ->
  model_csd_distance_raw b1 b2 = spec_csd_distance_raw b1 b2.
Proof. exact csd_distance_partial. Qed.
Theorem C18_csd_distance_refuted : exists b1 b2, b1 < 256 /\ b2 < 256 /\ model_csd_distance_raw b1 b2 <> spec_csd_distance_raw b1 b2.
Proof. exists 0, 0x10. repeat split; try Lia.lia. vm_compute. discriminate. Qed.

(* accumulated destinations: an accumulator with mask 2^bits - 1 realises the running sum of
   rollover-corrected deltas, for every list of source values *)
Theorem C18_accumulate_spec : forall bits vals a, bits <= 32 -> ac_mask a = 2 ^ bits - 1 -> ac_last a < 2 ^ 32 ->
  Forall (fun v => v < 2 ^ 32) vals ->
  run_accum a vals = spec_accumulate_from bits (ac_value a) (ac_last a) vals.
Proof. exact accumulate_spec. Qed.
Print Assumptions C18_accumulate_spec.
Theorem C18_fresh_accumulator_spec : forall bits vals, 1 <= bits <= 32 -> Forall (fun v => v < 2 ^ 32) vals ->
  run_accum (new_accum bits) vals = spec_accumulate bits vals.
Proof. intros bits vals [_ Hb]. exact (fresh_accumulator_spec bits vals Hb). Qed.
(* FULL STATEMENT (refuted for total_cycles and accumulated_power): their accumulators are created by
   new(uint32Accumulator), mask 0, and never move *)
Theorem C18_zero_mask_accumulates_nothing : forall vals a, ac_mask a = 0 -> ac_value a < 2 ^ 32 ->
  Forall (fun x => x = ac_value a) (run_accum a vals).
Proof.
  induction vals as [|v r IH]; intros a Hm Hv; cbn [run_accum]; [constructor|].
  assert (E : accumulate a v = (ac_value a, mk_accum (ac_value a) v 0)).
  { unfold accumulate. rewrite Hm, N.land_0_r, N.add_0_r, (N.mod_small _ _ Hv). reflexivity. }
  rewrite E. constructor; [reflexivity|]. apply (IH (mk_accum (ac_value a) v 0)); simpl; auto.
Qed.
Theorem C18_total_cycles_refuted : exists vals, run_accum zero_accum vals <> spec_accumulate 8 vals.
Proof. exists [5; 9]. vm_compute. discriminate. Qed.

(* On whole streams (the stream machinery is C02's decode_denote).  The vocabulary, by the file that defines it:
   Proofs/C18Defs.v
     stored_run ft g ms   File.add's treatment of a message sequence: every message of a type the container expands
                          replaced by expand_components of it, in stream order, threading the accumulator state g;
     msg_shape m          as many fields as its struct;     is_record m, distance_of m: its number, its Distance field;
     csd_bytes m          the bytes of its compressed_speed_distance field;
     csd_valid m          the generated code's test on them: three bytes, not all FF.
   Proofs/C18Good.v
     good m               a message as the reference semantics denotes it: msg_shape, and a compressed_speed_distance
                          field holding bytes.
   Proofs/C18Messages.v
     raw_of m, spec_raw_of m    the raw distance the generated code feeds the accumulator, and the property's formula;
     dist_acc g           the Distance accumulator the next record will use (a fresh 12-bit one while g holds none);
     pick_valid src xs, leave_invalid src xs    xs at the positions where src has a valid, an invalid source;
     run_accum_state a vs the accumulator after the values vs (run_accum of ComponentProofs.v lists the outputs).
   Proofs/C18Main.v
     csd_stream, csd_hdr, csd_reader    the witness file of the examples and the reader it is decoded through;
     record_distances r, state_after r  the Distance column and the accumulator state of a Decode result r. *)

(* C18_stream_expanded: for every stream in the domain of decode_denote, through any reader, from ANY accumulator state g,
   every slot of the container proper in the File Decode returns holds the denoted messages of its type with
   expand_components applied in stream order, g threaded; Decode leaves the threaded state behind *)
Theorem C18_stream_expanded : forall o g rd fuel h rs ss1 f2 g1 extra,
  header_wf h -> h_dsize h = N.of_nat (List.length (ser_records rs)) ->
  starts_with_file_id rs = true -> stream_wf rs = true -> denote rs = Some ss1 ->
  start_file h g (hd dummy_msg (ss_msgs ss1)) = Some (f2, g1) ->
  rd_data rd = fit_file h rs ++ extra ->
  (List.length (rd_data rd) + List.length (rd_sched rd) < fuel)%nat ->
  exists rd' file' g' q ft m0 ms sm,
    entry_Decode o g rd fuel = TDone (mk_dres None h (Some file') rd' g' q) /\
    ss_msgs ss1 = m0 :: ms /\ Forall good ms /\
    In ft valid_file_types /\ f_inited file' = Some ft /\
    stored_run ft g ms = Some (sm, g') /\
    forall i name multi held, nth_error (slots_of ft) i = Some (name, multi, held) -> (NCOMMON <= i)%nat ->
      nth i (f_slots file') [] = slot_contents multi held [] sm.
Proof. exact stream_expanded. Qed.
Print Assumptions C18_stream_expanded.

(* per-field corollaries of one expansion, for every message of the shape the decoder produces.  Record: the enhanced
   field is the 16-bit source the record CARRIES when valid and untouched when 0xFFFF (the speed derived from
   compressed_speed_distance is written to Speed afterwards and is not re-expanded: that is the code's order; under
   re-encoding EnhancedSpeed follows the derived Speed one generation late, part of known finding csd_accumulator of C07) *)
Theorem C18_record_enhanced_speed : forall g m, m_num m = Gen.Consts.c_MesgNumRecord -> msg_shape m ->
  uval (fld m "Speed") < 65536 ->
  uval (fld (fst (expand_record g m)) "EnhancedSpeed") =
    spec_enhanced (uval (fld m "Speed")) (uval (fld m "EnhancedSpeed")).
Proof. exact (fun g m Hn Hs => record_enhanced g m _ _ Hn Hs (or_intror (or_introl eq_refl))). Qed.
Theorem C18_record_enhanced_altitude : forall g m, m_num m = Gen.Consts.c_MesgNumRecord -> msg_shape m ->
  uval (fld m "Altitude") < 65536 ->
  uval (fld (fst (expand_record g m)) "EnhancedAltitude") =
    spec_enhanced (uval (fld m "Altitude")) (uval (fld m "EnhancedAltitude")).
Proof. exact (fun g m Hn Hs => record_enhanced g m _ _ Hn Hs (or_introl eq_refl)). Qed.
(* session and lap: the five (source, enhanced) pairs; segment_lap: the three altitude pairs *)
Theorem C18_session_lap_enhanced : forall m src dst,
  m_num m = Gen.Consts.c_MesgNumSession \/ m_num m = Gen.Consts.c_MesgNumLap -> msg_shape m ->
  In (src, dst) session_lap_pairs -> uval (fld m src) < 65536 ->
  uval (fld (expand_session_lap m) dst) = spec_enhanced (uval (fld m src)) (uval (fld m dst)).
Proof.
  intros m src dst Hn. rewrite expand_session_lap_chain. destruct Hn as [Hn|Hn].
  - exact (widen_all_enhanced _ [] session_lap_pairs session_names_ok m src dst Hn).
  - exact (widen_all_enhanced _ [] session_lap_pairs lap_names_ok m src dst Hn).
Qed.
Theorem C18_segment_lap_enhanced : forall m src dst,
  m_num m = Gen.Consts.c_MesgNumSegmentLap -> msg_shape m ->
  In (src, dst) segment_lap_pairs -> uval (fld m src) < 65536 ->
  uval (fld (expand_segment_lap m) dst) = spec_enhanced (uval (fld m src)) (uval (fld m dst)).
Proof. intros m. rewrite expand_segment_lap_chain. exact (widen_all_enhanced _ [] segment_lap_pairs segment_lap_names_ok m). Qed.
(* event: data16 -> data, then the slices of sport_point *)
Theorem C18_event_data_field : forall m, m_num m = Gen.Consts.c_MesgNumEvent -> msg_shape m ->
  fld (expand_event m) "Data" =
    if uval (fld m "Data16") =? 0xFFFF then fld m "Data" else VU (N.land (uval (fld m "Data16")) 0xFFFF).
Proof. exact event_data_field. Qed.
Theorem C18_event_sport_point : forall m, m_num m = Gen.Consts.c_MesgNumEvent -> msg_shape m ->
  uval (fld m "Event") = Gen.Consts.c_EventSportPoint -> uval (fld m "Data") < 2 ^ 32 -> event_data m <> 0xFFFFFFFF ->
  fld (expand_event m) "Score" = VU (spec_score (event_data m)) /\
  fld (expand_event m) "OpponentScore" = VU (spec_opponent_score (event_data m)).
Proof.
  intros m Hn Hs Hev _ Hd. destruct (event_bit_slices (event_data m)) as (<- & <- & _).
  rewrite !(expand_event_fld m _ Hn Hs) by (apply C15Tables.mem_In; reflexivity).
  unfold event_tail. rewrite (proj2 (N.eqb_neq _ _) Hd), Hev. split; reflexivity.
Qed.
(* record, compressed_speed_distance: a valid source sets Speed and Distance and moves the distance accumulator;
   an invalid one (FF FF FF, or absent) leaves both fields and the accumulator untouched *)
Theorem C18_record_csd_valid : forall g m b0 b1 b2, m_num m = Gen.Consts.c_MesgNumRecord -> msg_shape m ->
  csd_bytes m = [b0; b1; b2] -> csd_valid m = true ->
  fld (fst (expand_record g m)) "Distance" =
    VU (fst (accumulate (get_acc (g_dist g) (new_accum 12)) (model_csd_distance_raw b1 b2))) /\
  (b0 < 256 -> b1 < 256 -> fld (fst (expand_record g m)) "Speed" = VU (spec_csd_speed b0 b1)) /\
  g_dist (snd (expand_record g m)) =
    Some (snd (accumulate (get_acc (g_dist g) (new_accum 12)) (model_csd_distance_raw b1 b2))).
Proof. exact record_csd_valid. Qed.
Theorem C18_record_csd_invalid : forall g m, m_num m = Gen.Consts.c_MesgNumRecord -> csd_valid m = false ->
  fld (fst (expand_record g m)) "Distance" = fld m "Distance" /\
  fld (fst (expand_record g m)) "Speed" = fld m "Speed" /\
  g_dist (snd (expand_record g m)) = g_dist g.
Proof. exact record_csd_invalid. Qed.
Print Assumptions C18_record_csd_valid.

(* C18_stream_distance: decoding, from a state whose distance accumulator is fresh (g_init: a fresh process), a stream in the
   domain of decode_denote: in the record slot, the Distance fields at the records whose source is valid are
   spec_accumulate 12 of the raw distances -- the running sum of rollover-corrected deltas since the start of the file --
   the records with an invalid source keep the Distance they carried; with all sources valid the whole Distance
   column is spec_accumulate 12 (raws); raw = model_csd_distance_raw, which is the property's b1/16 + 16*b2 when the
   high nibble of the third byte is clear (known finding csd_high_nibble otherwise) *)
Theorem C18_stream_distance : forall o g rd fuel h rs ss1 f2 g1 extra,
  header_wf h -> h_dsize h = N.of_nat (List.length (ser_records rs)) ->
  starts_with_file_id rs = true -> stream_wf rs = true -> denote rs = Some ss1 ->
  start_file h g (hd dummy_msg (ss_msgs ss1)) = Some (f2, g1) ->
  rd_data rd = fit_file h rs ++ extra ->
  (List.length (rd_data rd) + List.length (rd_sched rd) < fuel)%nat ->
  g_dist g = None ->
  exists rd' file' g' q ft m0 ms,
    entry_Decode o g rd fuel = TDone (mk_dres None h (Some file') rd' g' q) /\
    ss_msgs ss1 = m0 :: ms /\ f_inited file' = Some ft /\
    forall i, find_slot ft Gen.Consts.c_MesgNumRecord = Some (i, true) -> (NCOMMON <= i)%nat ->
      let recs := nth i (f_slots file') [] in
      let src := filter is_record ms in
      List.length recs = List.length src /\
      pick_valid src (map distance_of recs) = spec_accumulate 12 (map raw_of (filter csd_valid src)) /\
      leave_invalid src (map distance_of recs) = map distance_of (filter (fun m => negb (csd_valid m)) src) /\
      (Forall (fun m => is_record m = true -> csd_valid m = true) ms ->
         map distance_of recs = spec_accumulate 12 (map raw_of src)) /\
      (Forall (fun m => is_record m = true -> csd_valid m = true) ms ->
       Forall (fun m => is_record m = true -> nth 2 (csd_bytes m) 0 < 16) ms ->
         map distance_of recs = spec_accumulate 12 (map spec_raw_of src)).
Proof. exact stream_distance. Qed.
Print Assumptions C18_stream_distance.

(* from an arbitrary state the sum continues from what the previous file of the process left, and the state handed on
   is the accumulator run over this file's valid sources *)
Theorem C18_stream_distance_from_state : forall o g rd fuel h rs ss1 f2 g1 extra,
  header_wf h -> h_dsize h = N.of_nat (List.length (ser_records rs)) ->
  starts_with_file_id rs = true -> stream_wf rs = true -> denote rs = Some ss1 ->
  start_file h g (hd dummy_msg (ss_msgs ss1)) = Some (f2, g1) ->
  rd_data rd = fit_file h rs ++ extra ->
  (List.length (rd_data rd) + List.length (rd_sched rd) < fuel)%nat ->
  exists rd' file' g' q ft m0 ms,
    entry_Decode o g rd fuel = TDone (mk_dres None h (Some file') rd' g' q) /\
    ss_msgs ss1 = m0 :: ms /\ f_inited file' = Some ft /\
    forall i, find_slot ft Gen.Consts.c_MesgNumRecord = Some (i, true) -> (NCOMMON <= i)%nat ->
      pick_valid (filter is_record ms) (map distance_of (nth i (f_slots file') [])) =
        run_accum (dist_acc g) (map raw_of (filter csd_valid (filter is_record ms))) /\
      dist_acc g' = run_accum_state (dist_acc g) (map raw_of (filter csd_valid (filter is_record ms))).
Proof.
  intros o g rd fuel h rs ss1 f2 g1 extra Hh Hsz Hs Hwf Hd Hst Hdata Hfuel.
  destruct (stream_expanded o g rd fuel h rs ss1 f2 g1 extra Hh Hsz Hs Hwf Hd Hst Hdata Hfuel)
    as (rd' & file' & g' & q & ft & m0 & ms & sm & Hdec & Hm & Hgood & Hft & Hi & Hrun & Hc).
  exists rd', file', g', q, ft, m0, ms. split; [exact Hdec|]. split; [exact Hm|]. split; [exact Hi|].
  intros i Hf Hge. destruct (record_column ft ms g sm g' i _ Hft Hf Hge Hc Hgood Hrun) as [-> A].
  split; [apply expect_dist_pick|exact A].
Qed.

(* FULL STATEMENT (refuted): C18_stream_distance for an ARBITRARY accumulator state g (known finding accum_per_process:
   the accumulator is a package-level variable).  Witness: the example file below decoded a second time, from the
   state the first Decode left: the Distances are 4097, 4099, 4101 instead of 1, 3, 5 *)
Theorem C18_stream_distance_any_state_refuted :
  exists g, g_dist g <> None /\
    g = state_after (entry_Decode no_opts g_init csd_reader 200) /\
    record_distances (entry_Decode no_opts g csd_reader 200) = Some [4097; 4099; 4294967295; 4101] /\
    record_distances (entry_Decode no_opts g csd_reader 200) <> record_distances (entry_Decode no_opts g_init csd_reader 200).
Proof.
  eexists. split; [|split; [reflexivity|]].
  - vm_compute. discriminate.
  - split; [vm_compute; reflexivity|]. vm_compute. discriminate.
Qed.

(* the hypotheses of the two stream theorems are satisfiable: an activity file with four records carrying
   compressed_speed_distance (raw distances 1, 3, an invalid FF FF FF, 5), read in chunks of 4, 0, 9 bytes;
   the decoded Distances are the running sum at the valid records, the invalid one keeps its invalid Distance *)
Example C18_stream_example :
  header_wf csd_hdr /\ h_dsize csd_hdr = N.of_nat (List.length (ser_records csd_stream)) /\
  starts_with_file_id csd_stream = true /\ stream_wf csd_stream = true /\
  (exists ss f2 g1, denote csd_stream = Some ss /\ start_file csd_hdr g_init (hd dummy_msg (ss_msgs ss)) = Some (f2, g1)) /\
  g_dist g_init = None /\
  record_distances (entry_Decode no_opts g_init csd_reader 200) = Some [1; 3; 4294967295; 5] /\
  spec_accumulate 12 [1; 3; 5] = [1; 3; 5].
Proof. exact csd_stream_example. Qed.

(* PARTIAL: total_cycles / accumulated_power on streams are not stated (their accumulators never move: known finding
   accum_mask0, C18_zero_mask_accumulates_nothing); the stream theorems hold inside the domain of C02 decode_denote. *)

(* non-vacuity *)
Example C18_example : run_accum (new_accum 12) [4090; 5; 20] = [4090; 4101; 4116] /\ spec_accumulate 12 [4090; 5; 20] = [4090; 4101; 4116].
Proof. split; vm_compute; reflexivity. Qed.
