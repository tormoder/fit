(* Stream-level corollaries of the reference semantics (Spec/FitSyntax.v), proved
   about denote_from / denote_fields only:
   - C13: local message type slots are independent and the latest definition wins;
   - C02: rewriting the bytes of one field disturbs no other struct field. *)
From Coq Require Import NArith ZArith List Bool Lia Arith.
From Coq Require Import ZifyN ZifyNat ZifyBool.
From FitV Require Import Model.Values Model.Bytes Model.Base Model.Profile Spec.FitSyntax Gen.Consts
  Proofs.Util Proofs.ProfileProofs Proofs.StreamDenoteDefs Proofs.StreamDenoteData Proofs.StreamDenoteSkip.
Import ListNotations.
Local Open Scope N_scope.

Definition uses_local (l : N) (r : record) : bool :=
  match r with
  | RDef _ _ _ _ _ _ => false
  | RData l' _ _ => l' =? l
  | RComp l' _ _ _ => l' =? l
  end.

Definition defines_local (l : N) (r : record) : bool :=
  match r with
  | RDef l' _ _ _ _ _ => l' =? l
  | RData _ _ _ => false
  | RComp _ _ _ _ => false
  end.

Definition env_agree_off (l : N) (e1 e2 : list (N * sdef)) : Prop :=
  forall l', l' <> l -> lookup_def e1 l' = lookup_def e2 l'.

Definition same_off (l : N) (a b : sstate) : Prop :=
  env_agree_off l (ss_env a) (ss_env b) /\ ss_ref a = ss_ref b /\ ss_msgs a = ss_msgs b /\
  ss_unkm a = ss_unkm b /\ ss_unkf a = ss_unkf b.

(* the developer payload size denote_record stores in a definition *)
Definition devsize_of (devflag : bool) (devs : list (N * N * N)) : nat :=
  fold_right (fun d acc => let '(_, sz, _) := d in (N.to_nat sz + acc)%nat) 0%nat (if devflag then devs else []).

Lemma same_off_refl l a : same_off l a a.
Proof. unfold same_off, env_agree_off. repeat split. Qed.

Lemma same_off_redef l d1 d2 a :
  same_off l (mk_sstate ((l, d1) :: ss_env a) (ss_ref a) (ss_msgs a) (ss_unkm a) (ss_unkf a))
             (mk_sstate ((l, d2) :: ss_env a) (ss_ref a) (ss_msgs a) (ss_unkm a) (ss_unkf a)).
Proof.
  split; [|repeat split]. intros l' Hne. cbn [ss_env]. rewrite !lookup_def_cons.
  destruct (N.eqb_spec l l') as [E|_]; [now elim Hne|reflexivity].
Qed.

Lemma reads_other l r l' : uses_local l r = false -> reads_slot r = Some l' -> l' <> l.
Proof. destruct r; cbn [uses_local reads_slot]; intros H [= <-]; now apply N.eqb_neq. Qed.

Lemma env_agree_step l e1 e2 r : env_agree_off l e1 e2 -> env_agree_off l (env_step e1 r) (env_step e2 r).
Proof.
  intros He. destruct r as [l0 be gmn fds dvf dvs| |]; [|exact He..].
  intros l' Hne. cbn [env_step]. rewrite !lookup_def_cons. destruct (l0 =? l'); [reflexivity|exact (He l' Hne)].
Qed.

(* an instance of the frame of a record (StreamDenoteData.denote_record_frame): the slot the record reads is not l *)
Theorem slots_independent_record : forall l r a b a',
  same_off l a b -> uses_local l r = false -> denote_record a r = Some a' ->
  exists b', denote_record b r = Some b' /\ same_off l a' b'.
Proof.
  intros l r a b a' (He & Hr & Hm & Hu & Hf) Hl Ha.
  destruct (denote_record_frame a b r a' (fun l' E => He l' (reads_other l r l' Hl E)) Hr Ha)
    as (b' & Eb & Ea' & Eb' & R & (ms & Ma & Mb) & U & F).
  exists b'. split; [exact Eb|]. split; [|rewrite Ma, Mb, Hm; auto]. rewrite Ea', Eb'. now apply env_agree_step.
Qed.

Theorem slots_independent_stream : forall l rs a b a',
  same_off l a b -> forallb (fun r => negb (uses_local l r)) rs = true -> denote_from a rs = Some a' ->
  exists b', denote_from b rs = Some b' /\ same_off l a' b'.
Proof.
  intros l. apply denote_from_sim. intros r a b a' Hs Hr. apply slots_independent_record; [exact Hs|].
  now apply negb_true_iff.
Qed.

(* redefining local type l never changes how records of other local types decode *)
Theorem redefinition_invisible : forall l rs0 be1 g1 f1 v1 x1 be2 g2 f2 v2 x2 rs s s1,
  forallb (fun r => negb (uses_local l r)) rs = true ->
  denote_from s (rs0 ++ RDef l be1 g1 f1 v1 x1 :: rs) = Some s1 ->
  (forall sm, denote_from s rs0 = Some sm -> denote_record sm (RDef l be2 g2 f2 v2 x2) <> None) ->
  exists s2, denote_from s (rs0 ++ RDef l be2 g2 f2 v2 x2 :: rs) = Some s2 /\
    ss_msgs s1 = ss_msgs s2 /\ ss_ref s1 = ss_ref s2 /\ ss_unkm s1 = ss_unkm s2 /\ ss_unkf s1 = ss_unkf s2 /\
    env_agree_off l (ss_env s1) (ss_env s2).
Proof.
  intros l rs0 be1 g1 f1 v1 x1 be2 g2 f2 v2 x2 rs s s1 Hall H1 Hacc.
  rewrite denote_from_app in *. destruct (denote_from s rs0) as [sm|]; [|discriminate].
  specialize (Hacc sm eq_refl). cbn [denote_from] in *.
  destruct (denote_record sm (RDef l be1 g1 f1 v1 x1)) as [t1|] eqn:E1; [|discriminate].
  destruct (denote_record sm (RDef l be2 g2 f2 v2 x2)) as [t2|] eqn:E2; [|contradiction].
  apply denote_def_iff in E1 as (_ & _ & _ & E1). apply denote_def_iff in E2 as (_ & _ & _ & E2).
  assert (Hs : same_off l t1 t2) by (subst t1 t2; apply same_off_redef).
  destruct (slots_independent_stream l rs t1 t2 s1 Hs Hall H1) as (s2 & E & (He & Hr & Hm & Hu & Hf)).
  exists s2. repeat split; assumption.
Qed.

(* the same, with the acceptance condition of the second definition spelled out *)
Corollary redefinition_invisible_wf : forall l rs0 be1 g1 f1 v1 x1 be2 g2 f2 v2 x2 rs s s1,
  forallb (fun r => negb (uses_local l r)) rs = true ->
  denote_from s (rs0 ++ RDef l be1 g1 f1 v1 x1 :: rs) = Some s1 ->
  g2 <> c_MesgNumInvalid -> forallb (compat g2) f2 = true ->
  exists s2, denote_from s (rs0 ++ RDef l be2 g2 f2 v2 x2 :: rs) = Some s2 /\
    ss_msgs s1 = ss_msgs s2 /\ ss_ref s1 = ss_ref s2 /\ ss_unkm s1 = ss_unkm s2 /\ ss_unkf s1 = ss_unkf s2 /\
    env_agree_off l (ss_env s1) (ss_env s2).
Proof.
  intros l rs0 be1 g1 f1 v1 x1 be2 g2 f2 v2 x2 rs s s1 Hall H1 Hg Hc.
  apply (redefinition_invisible l rs0 be1 g1 f1 v1 x1 be2 g2 f2 v2 x2 rs s s1 Hall H1).
  intros sm Hsm. rewrite denote_from_app, Hsm in H1. cbn [denote_from] in H1.
  (* l < 16 because the first definition was accepted *)
  destruct (denote_record sm (RDef l be1 g1 f1 v1 x1)) eqn:E1; [|discriminate]. apply denote_def_iff in E1 as (El & _).
  now rewrite (proj2 (denote_def_iff sm l be2 g2 f2 v2 x2 _) (conj El (conj Hg (conj Hc eq_refl)))).
Qed.

(* right after the definition record; C13_latest_def_wins_stream of Props/C13.v, which lets further records follow,
   is latest_def_wins_after below *)
Theorem latest_def_wins_stream : forall s l be gmn fds devflag devs s',
  denote_record s (RDef l be gmn fds devflag devs) = Some s' ->
  lookup_def (ss_env s') l = Some (mk_sdef be gmn fds (devsize_of devflag devs)).
Proof.
  intros s l be gmn fds devflag devs s' H. rewrite (denote_record_env _ _ _ H). cbn [env_step].
  now rewrite lookup_def_cons, N.eqb_refl.
Qed.

Lemma slot_preserved_record l s r s' :
  defines_local l r = false -> denote_record s r = Some s' ->
  lookup_def (ss_env s') l = lookup_def (ss_env s) l.
Proof.
  intros Hd H. rewrite (denote_record_env _ _ _ H). destruct r; [|reflexivity..].
  cbn [env_step defines_local] in *. now rewrite lookup_def_cons, Hd.
Qed.

Theorem slot_preserved_stream : forall l rs sa sb,
  denote_from sa rs = Some sb -> forallb (fun r => negb (defines_local l r)) rs = true ->
  lookup_def (ss_env sb) l = lookup_def (ss_env sa) l.
Proof.
  intros l. apply (denote_from_keeps (fun s => lookup_def (ss_env s) l)).
  intros r s s' Hr. apply slot_preserved_record. now apply negb_true_iff.
Qed.

Theorem data_records_keep_env : forall rs sa sb,
  denote_from sa rs = Some sb ->
  forallb (fun r => match r with RDef _ _ _ _ _ _ => false | _ => true end) rs = true ->
  ss_env sb = ss_env sa.
Proof.
  apply (denote_from_keeps ss_env). intros r s s' Hr E. rewrite (denote_record_env _ _ _ E).
  destruct r; [discriminate|reflexivity..].
Qed.

(* together: after a definition for l and any records that do not redefine l, slot l still holds that definition *)
Theorem latest_def_wins_after : forall s l be gmn fds devflag devs s' rs sb,
  denote_record s (RDef l be gmn fds devflag devs) = Some s' ->
  forallb (fun r => negb (defines_local l r)) rs = true ->
  denote_from s' rs = Some sb ->
  lookup_def (ss_env sb) l = Some (mk_sdef be gmn fds (devsize_of devflag devs)).
Proof.
  intros s l be gmn fds devflag devs s' rs sb Hd Hall H.
  rewrite (slot_preserved_stream l rs s' sb H Hall). eapply latest_def_wins_stream; eassumption.
Qed.

(* ... so a data record of local type l is decoded exactly as if that definition were the only one *)
Theorem data_decoded_with_latest_def : forall s l be gmn fds devflag devs s' rs sb off pay dev,
  denote_record s (RDef l be gmn fds devflag devs) = Some s' ->
  forallb (fun r => negb (defines_local l r)) rs = true ->
  denote_from s' rs = Some sb ->
  match denote_data sb l off pay dev,
        denote_data (mk_sstate [(l, mk_sdef be gmn fds (devsize_of devflag devs))]
                       (ss_ref sb) (ss_msgs sb) (ss_unkm sb) (ss_unkf sb)) l off pay dev with
  | Some x, Some y =>
      ss_env x = ss_env sb /\ ss_ref x = ss_ref y /\ ss_msgs x = ss_msgs y /\ ss_unkm x = ss_unkm y /\ ss_unkf x = ss_unkf y
  | None, None => True
  | _, _ => False
  end.
Proof.
  intros s l be gmn fds devflag devs s' rs sb off pay dev Hd Hall H.
  pose proof (latest_def_wins_after s l be gmn fds devflag devs s' rs sb Hd Hall H) as Hl.
  pose proof (denote_data_frame sb
                (mk_sstate [(l, mk_sdef be gmn fds (devsize_of devflag devs))] (ss_ref sb) (ss_msgs sb) (ss_unkm sb) (ss_unkf sb))
                l off pay dev) as F.
  cbn [ss_env ss_ref ss_msgs ss_unkm ss_unkf] in F. rewrite lookup_def_cons, N.eqb_refl in F.
  specialize (F Hl eq_refl).
  destruct (denote_data sb l off pay dev) as [x|]; destruct (denote_data _ l off pay dev) as [y|]; try exact F.
  destruct F as (E & _ & R & (ms & -> & ->) & U & Fu). repeat split; auto.
Qed.

Theorem undefined_local_rejected_comp : forall s l off pay dev,
  lookup_def (ss_env s) l = None -> denote_record s (RComp l off pay dev) = None.
Proof.
  intros s l off pay dev H. cbn [denote_record]. unfold denote_data. rewrite H. destruct (4 <=? l); reflexivity.
Qed.

Definition agree_off (i : nat) (m m' : msg) : Prop :=
  m_num m = m_num m' /\ forall j, j <> i -> nth_error (m_fields m) j = nth_error (m_fields m') j.

Lemma agree_set_same i k x m m' :
  agree_off i m m' ->
  agree_off i (mk_msg (m_num m) (set_at k x (m_fields m))) (mk_msg (m_num m') (set_at k x (m_fields m'))).
Proof.
  intros [H1 H2]. split; [exact H1|]. intros j Hj. cbn [m_fields]. rewrite !Util.nth_error_set_nth, (H2 j Hj). reflexivity.
Qed.

Lemma agree_set_here i v v' m :
  agree_off i (match v with Some x => mk_msg (m_num m) (set_at i x (m_fields m)) | None => m end)
              (match v' with Some x => mk_msg (m_num m) (set_at i x (m_fields m)) | None => m end).
Proof.
  destruct v, v'; split; try reflexivity; intros j Hj; cbn [m_fields]; now rewrite ?Util.nth_error_set_nth_other.
Qed.

(* decoding the same fields from the same bytes preserves agreement off i, and the
   time reference and unlisted-field list do not depend on the message at all *)
Lemma denote_fields_agree_off be gmn i : forall fds pay m m' ref unl,
  agree_off i m m' ->
  snd (fst (denote_fields be gmn fds pay m ref unl)) = snd (fst (denote_fields be gmn fds pay m' ref unl)) /\
  snd (denote_fields be gmn fds pay m ref unl) = snd (denote_fields be gmn fds pay m' ref unl) /\
  agree_off i (fst (fst (denote_fields be gmn fds pay m ref unl))) (fst (fst (denote_fields be gmn fds pay m' ref unl))).
Proof.
  induction fds as [|f r IH]; intros pay m m' ref unl Hag.
  - cbn [denote_fields fst snd]. auto.
  - rewrite !denote_fields_cons. unfold dstep.
    destruct (get_field gmn (sf_num f)) as [p|].
    + cbv beta iota zeta. apply IH.
      destruct (denote_field be f p _ ref _) as [x|]; [|exact Hag]. apply agree_set_same. exact Hag.
    + cbv beta iota zeta. apply IH. exact Hag.
Qed.

Theorem neighbours_undisturbed : forall be gmn f1 f f2 p1 b b' p2 m ref unl,
  List.length p1 = psize f1 -> List.length b = N.to_nat (sf_size f) -> List.length b' = N.to_nat (sf_size f) ->
  negb (sf_num f =? c_fieldNumTimeStamp) = true ->
  let r := denote_fields be gmn (f1 ++ f :: f2) (p1 ++ b ++ p2) m ref unl in
  let r' := denote_fields be gmn (f1 ++ f :: f2) (p1 ++ b' ++ p2) m ref unl in
  snd (fst r) = snd (fst r') /\ snd r = snd r' /\ m_num (fst (fst r)) = m_num (fst (fst r')) /\
  forall j, (match get_field gmn (sf_num f) with Some p => j <> pf_sindex p | None => True end) ->
    nth_error (m_fields (fst (fst r))) j = nth_error (m_fields (fst (fst r'))) j.
Proof.
  intros be gmn f1 f f2 p1 b b' p2 m ref unl Hp1 Hb Hb' H253 r r'. subst r r'. apply negb_true_iff in H253.
  rewrite !denote_fields_app by exact Hp1.
  destruct (denote_fields be gmn f1 p1 m ref unl) as [[m1 ref1] unl1]. rewrite !denote_fields_cons.
  rewrite (firstn_app_len b p2 _ Hb), (firstn_app_len b' p2 _ Hb'), (skipn_app_len b p2 _ Hb), (skipn_app_len b' p2 _ Hb').
  unfold dstep. destruct (get_field gmn (sf_num f)) as [p|]; cbv beta iota zeta; [|repeat split].
  (* the two runs store at the struct index of f, or not at all, and go on from the same reference *)
  rewrite H253. cbn [andb]. apply denote_fields_agree_off, agree_set_here.
Qed.

(* both results also have as many struct fields as the starting message, so "agree at
   every index but one" is agreement of two equally long lists *)
Theorem neighbours_same_length : forall be gmn fds pay pay' m ref unl,
  List.length (m_fields (fst (fst (denote_fields be gmn fds pay m ref unl)))) =
  List.length (m_fields (fst (fst (denote_fields be gmn fds pay' m ref unl)))).
Proof.
  intros be gmn fds pay pay' m ref unl. etransitivity; [|symmetry]; apply denote_fields_length.
Qed.

(* the struct index that may change belongs to no other field number *)
Theorem changed_index_is_own : forall gmn num num' p p',
  get_field gmn num = Some p -> get_field gmn num' = Some p' -> num' <> num -> pf_sindex p' <> pf_sindex p.
Proof.
  intros gmn num num' p p' H H' Hne E. apply Hne. exact (distinct_struct_fields gmn num' num p' p H' H E).
Qed.

Print Assumptions slots_independent_stream.
Print Assumptions redefinition_invisible.
Print Assumptions neighbours_undisturbed.
