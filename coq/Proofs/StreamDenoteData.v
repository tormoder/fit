(* Stream-level decode = denote: the field loop of one data record.
   First what holds of every record list and is used from here on: the induction over denote_from
   (denote_from_inv), denote_from_app, and what a definition record does (denote_def_iff).
   Then parse_one_field / parse_fields on the payload bytes compute exactly denote_fields:
   the message, the time reference and the unlisted-field counts.
   At the end, [data_effect]: denote_data factored into the lookup of the definition and what a record of that
   definition does; both the decoder proof (StreamDenoteRecord.v) and the corollaries about the reference
   semantics (StreamDenoteSkip.v, StreamDenoteSlots.v, StreamDenoteStrip.v, C18Good.v) go through it; and from it
   [denote_record_frame]: what a record reads and writes of the reference state. *)
From Coq Require Import NArith ZArith List Bool Lia Arith.
From Coq Require Import ZifyN ZifyNat ZifyBool.
From FitV Require Import Proofs.Util Proofs.BytesUtil Model.Values Model.Bytes Model.Base Model.Profile Model.Reflect Model.IO
  Model.Route Model.Decode Spec.FitSyntax Spec.ProfileWf Proofs.ProfileProofs Proofs.DecodeLemmas Gen.Consts
  Proofs.StreamDenoteBase Proofs.StreamDenoteArith Proofs.StreamDenoteDefs Proofs.StreamDenoteDef
  Proofs.StreamDenoteField Proofs.DecodeFrame.
Import ListNotations.
Local Open Scope N_scope.
Ltac Zify.zify_post_hook ::= Z.div_mod_to_equations.

Lemma lookup_def_cons l d env l' :
  lookup_def ((l, d) :: env) l' = if l =? l' then Some d else lookup_def env l'.
Proof. unfold lookup_def. cbn [find fst]. destruct (l =? l'); reflexivity. Qed.

(* the induction over the record list for what one run keeps; denote_from_keeps (an equation) is an instance,
   denote_from_sim the same for two runs (both in StreamDenoteSkip.v) *)
Lemma denote_from_inv (J : sstate -> Prop) (P : record -> bool) :
  (forall r s s', P r = true -> denote_record s r = Some s' -> J s -> J s') ->
  forall rs sa sb, forallb P rs = true -> denote_from sa rs = Some sb -> J sa -> J sb.
Proof.
  intros Hstep. induction rs as [|r rs IH]; intros sa sb Hall H Ha; cbn [denote_from forallb] in *.
  - now injection H as <-.
  - apply andb_prop in Hall. destruct Hall as [Hp Hall]. destruct (denote_record sa r) as [s1|] eqn:E; [|discriminate].
    exact (IH s1 sb Hall H (Hstep r sa s1 Hp E Ha)).
Qed.

Lemma denote_from_app : forall a b s,
  denote_from s (a ++ b) = match denote_from s a with Some s' => denote_from s' b | None => None end.
Proof.
  induction a as [|x a IH]; intros b s; cbn [app denote_from]; [reflexivity|]. destruct (denote_record s x); [apply IH|reflexivity].
Qed.

(* a definition record is accepted iff its local type is below 16, its message number is not the invalid one and
   every field definition is compatible with the profile; it then takes its slot *)
Lemma denote_def_iff s l be gmn fds (devflag : bool) devs s' :
  denote_record s (RDef l be gmn fds devflag devs) = Some s' <->
  l < 16 /\ gmn <> c_MesgNumInvalid /\ forallb (compat gmn) fds = true /\
  s' = mk_sstate ((l, mk_sdef be gmn fds (dev_size (if devflag then devs else []))) :: ss_env s)
                 (ss_ref s) (ss_msgs s) (ss_unkm s) (ss_unkf s).
Proof.
  cbn [denote_record]. rewrite N.leb_antisym, <- N.ltb_lt, <- N.eqb_neq.
  destruct (l <? 16), (gmn =? c_MesgNumInvalid), (forallb (compat gmn) fds); cbn [negb orb];
    (split; [try discriminate|try (intros (? & ? & ? & _); congruence)]).
  - intros [= <-]. now repeat split.
  - now intros (_ & _ & _ & ->).
Qed.

(* A data record leaves the definition slots and the File alone ([frame]); what it reads and writes is the clock and
   the two counter lists, which [crel] ties to the time reference and the counts of the reference semantics.  The
   first comes from the frame facts of DecodeFrame.v at [frame], once, in StreamDenoteRecord.data_message_ok. *)
Definition frame (s s' : dstate) : Prop :=
  ds_defs s' = ds_defs s /\ ds_file s' = ds_file s /\ ds_g s' = ds_g s.

Lemma frame_refl s : frame s s.
Proof. repeat split. Qed.
Lemma frame_free s0 : clock_free (frame s0) /\ counts_free (frame s0).
Proof. split; [|split]; intros s; intros; assumption. Qed.

(* what a program without a loop test keeps on every run (DecodeFrame.v), it keeps on the run that [consumes]
   describes *)
Lemma consumes_keeps {A} (J : dstate -> Prop) (p : P A) l s a s' : consumes p l s a s' -> okp J p -> J s -> J s'.
Proof.
  intros Hc Hp Hs. pose proof (okp_sound J p Hp (mk_ast l TEOF 0 (0 + List.length l)) s Hs) as H.
  now rewrite (consumes_all p l s a s' TEOF 0 _ Hc (le_n _)) in H.
Qed.

Definition crel (o : dopts) (s : dstate) (ref : option N) (um : list (N * N)) (uf : list (N * N * N)) : Prop :=
  time_rel (ds_hasts s) (ds_ts s) (ds_lastoff s) ref /\
  (o_unkm o = true -> ds_unkm s = um) /\ (o_unkf o = true -> ds_unkf s = uf).

(* one step of the reference semantics *)
Definition dstep (be : bool) (gmn : N) (f : sfdef) (bytes : list N) (m : msg) (ref : option N) (unl : list N)
  : msg * option N * list N :=
  match get_field gmn (sf_num f) with
  | None => (m, ref, unl ++ [sf_num f])
  | Some p =>
      let ty := match field_type gmn (pf_sindex p) with Some t => t | None => TOther end in
      let v := denote_field be f p ty ref bytes in
      let m' := match v with Some x => mk_msg (m_num m) (set_at (pf_sindex p) x (m_fields m)) | None => m end in
      let ref' :=
        if (sf_num f =? c_fieldNumTimeStamp) && (fit_kind (pf_t p) =? kind_timeutc) then
          let u := wire_unsigned be bytes in if u =? 0xFFFFFFFF then ref else Some u
        else ref in
      (m', ref', unl)
  end.

Lemma denote_fields_cons be gmn f r pay m ref unl :
  denote_fields be gmn (f :: r) pay m ref unl =
  let '(m', ref', unl') := dstep be gmn f (firstn (N.to_nat (sf_size f)) pay) m ref unl in
  denote_fields be gmn r (skipn (N.to_nat (sf_size f)) pay) m' ref' unl'.
Proof. cbn [denote_fields]. unfold dstep. destruct (get_field gmn (sf_num f)); reflexivity. Qed.

(* the fields are set in place: the message keeps its number and its length *)
Lemma denote_fields_length be gmn : forall fds pay m ref unl,
  List.length (m_fields (fst (fst (denote_fields be gmn fds pay m ref unl)))) = List.length (m_fields m) /\
  m_num (fst (fst (denote_fields be gmn fds pay m ref unl))) = m_num m.
Proof.
  induction fds as [|f r IH]; intros pay m ref unl.
  - cbn [denote_fields fst snd]. auto.
  - rewrite denote_fields_cons. unfold dstep.
    destruct (get_field gmn (sf_num f)) as [p|].
    + cbv beta iota zeta. destruct (denote_field be f p _ ref _) as [x|]; [|apply IH].
      rewrite (proj1 (IH _ _ _ _)), (proj2 (IH _ _ _ _)). cbn [m_fields m_num]. now rewrite Util.set_nth_length.
    + cbv beta iota zeta. apply IH.
Qed.

Lemma dstep_ref_indep be gmn f bytes m m' ref unl unl' :
  snd (fst (dstep be gmn f bytes m ref unl)) = snd (fst (dstep be gmn f bytes m' ref unl')).
Proof. unfold dstep. destruct (get_field gmn (sf_num f)); reflexivity. Qed.

Lemma pof_unlisted o dm known fd msgv buf s :
  get_field (dm_gmn dm) (fd_num fd) = None -> List.length buf = N.to_nat (fd_size fd) ->
  consumes (parse_one_field o dm known fd msgv) buf s msgv
    (if known && o_unkf o then with_unkf s (bump2 (dm_gmn dm, fd_num fd) (ds_unkf s)) else s).
Proof.
  intros Hg Hlen. unfold parse_one_field. rewrite Hg, <- (app_nil_r buf).
  destruct (known && o_unkf o).
  - unfold get_st, put_st. cbn [bind]. apply consumes_get, consumes_put, consumes_rfull; [exact Hlen|apply consumes_ret].
  - rewrite bind_ret. apply consumes_rfull; [exact Hlen|apply consumes_ret].
Qed.

Lemma pts_utc s u num : u <> 0xFFFFFFFF ->
  parse_time_stamp s u kind_timeutc num =
  (Some (time_of u),
   if num =? c_fieldNumTimeStamp then
     mk_dstate (ds_defs s) u (N.land u c_compressedTimeMask) (ds_unkf s) (ds_unkm s) (ds_file s) (ds_g s)
               (ds_quirks s) true
   else s).
Proof.
  intros Hu. unfold parse_time_stamp. destruct (N.eqb_spec u 0xFFFFFFFF); [contradiction|].
  change (kind_timeutc =? kind_timeutc) with true. cbv iota. reflexivity.
Qed.

(* parseTimeStamp against the reference semantics: the value of a date_time or local_date_time field, and the
   reference after it (only field 253 of kind date_time moves it) *)
Lemma time_stamp_spec o s u k num ref um uf :
  crel o s ref um uf -> k = kind_timeutc \/ k = kind_timelocal ->
  exists s',
    parse_time_stamp s u k num =
      (if u =? 0xFFFFFFFF then None else Some (if k =? kind_timeutc then time_of u else local_time_of ref u), s') /\
    crel o s' (if (num =? c_fieldNumTimeStamp) && (k =? kind_timeutc) then if u =? 0xFFFFFFFF then ref else Some u else ref) um uf.
Proof.
  intros Hc Hk. pose proof Hc as [Htime Hcnt]. destruct (N.eqb_spec u 0xFFFFFFFF) as [->|Hu].
  - exists s. rewrite invalid_time_untouched. split; [reflexivity|]. destruct (_ && _); exact Hc.
  - destruct Hk as [->| ->].
    + rewrite (pts_utc s u num Hu). change (kind_timeutc =? kind_timeutc) with true. rewrite andb_true_r.
      destruct (num =? c_fieldNumTimeStamp); eexists; (split; [reflexivity|]); [|exact Hc].
      split; [|exact Hcnt]. split; [reflexivity|]. split; [reflexivity|apply explicit_timestamp_invariant].
    + exists s. change (kind_timelocal =? kind_timeutc) with false. rewrite andb_false_r.
      split; [|exact Hc].
      unfold local_time_of. destruct ref as [r|].
      * destruct Htime as (Hh & Hts & Hlo). destruct (N.ltb_spec r c_systemTimeMarker) as [Hlt|Hge].
        -- now rewrite (local_time_without_reference s u num Hu) by (right; rewrite Hts; exact Hlt).
        -- rewrite (local_time_with_reference s u num Hu Hh) by (rewrite Hts; exact Hge). now rewrite Hts.
      * now rewrite (local_time_without_reference s u num Hu) by (left; exact Htime).
Qed.

Lemma consumes_finish_res m sidx (ov : option goval) (s : dstate) :
  consumes (finish_field m sidx (res_of ov)) [] s
    (Some (match ov with Some v => mk_msg (m_num m) (set_at sidx v (m_fields m)) | None => m end)) s.
Proof. destruct ov; apply consumes_ret. Qed.

Lemma consumes_rfull_ex {A} (Q : dstate -> Prop) n (k : list N -> P A) l s a : List.length l = n ->
  (exists s', consumes (k l) [] s a s' /\ Q s') -> exists s', consumes (ReadFull n k) l s a s' /\ Q s'.
Proof. intros Hl (s' & H & HQ). exists s'. split; [|exact HQ]. rewrite <- (app_nil_r l). now apply consumes_rfull. Qed.

(* a listed field of a known message: its bytes are read, then stored as the value the reference semantics assigns *)
Lemma pof_listed o dm f p m buf ref unl s um uf :
  get_field (dm_gmn dm) (sf_num f) = Some p -> compat (dm_gmn dm) f = true -> canon_bt f = true ->
  List.length buf = N.to_nat (sf_size f) -> all_bytes buf = true ->
  crel o s ref um uf ->
  exists s',
    consumes (parse_one_field o dm true (to_fdef f) (Some m)) buf s
      (Some (fst (fst (dstep (dm_be dm) (dm_gmn dm) f buf m ref unl)))) s' /\
    crel o s' (snd (fst (dstep (dm_be dm) (dm_gmn dm) f buf m ref unl))) um uf.
Proof.
  intros Hg Hc Hcan Hlen Hbytes Hrel.
  destruct (entry_sound _ _ _ Hg) as (md & Em & F).
  rewrite (pof_listed_eq o dm (to_fdef f) p m Hg). unfold dstep. rewrite Hg. cbn [fst snd]. rewrite (ef_type _ _ _ _ F).
  apply consumes_rfull_ex; [exact Hlen|]. unfold field_body.
  destruct (compat_listed (dm_gmn dm) f p Hc (ef_known _ _ _ _ F) Hg) as [Hkn Hcase].
  destruct (kind_cases _ (ef_kind _ _ _ _ F)) as [Hk|Hk].
  - exists s. rewrite Hk. change (kind_native =? kind_native) with true. cbv iota.
    change (kind_native =? kind_timeutc) with false. rewrite andb_false_r.
    split; [|exact Hrel].
    rewrite (native_field_agree (dm_be dm) (dm_gmn dm) f p ref buf Hg Hc Hcan Hk Hlen Hbytes). apply consumes_finish_res.
  - (* the other kinds are scalars read through the 32-bit window *)
    assert (Ha : fit_array (pf_t p) = false)
      by (apply (ef_scalar_kinds _ _ _ _ F); destruct Hk as [[E|E]|[E|E]]; rewrite E; discriminate).
    rewrite Ha in Hcase. unfold denote_field. cbn [to_fdef fd_btype].
    destruct Hk as [Hk|Hk].
    + rewrite (ef_time_base _ _ _ _ F Hk) in Hcase. change (base_uint32 =? base_string) with false in Hcase. cbv iota in Hcase.
      destruct (time_u32 (dm_be dm) _ _ buf Hkn Hcase Hlen) as [Hsg Hu32]. rewrite Hsg, Hu32.
      destruct (time_stamp_spec o s (wire_unsigned (dm_be dm) buf) _ (pf_num p) ref um uf Hrel Hk) as (s' & Hpts & Hrel').
      rewrite (ef_num _ _ _ _ F) in Hrel'. exists s'. split; [|exact Hrel'].
      unfold get_st, put_st.
      destruct Hk as [E|E]; rewrite E in *; cbn [N.eqb Pos.eqb orb kind_native kind_timeutc kind_timelocal bind];
        apply consumes_get; rewrite Hpts; apply consumes_put; destruct (wire_unsigned (dm_be dm) buf =? 0xFFFFFFFF);
        apply consumes_ret.
    + rewrite (ef_coord_base _ _ _ _ F Hk) in Hcase. change (base_sint32 =? base_string) with false in Hcase. cbv iota in Hcase.
      destruct (coord_s32 (dm_be dm) _ _ buf Hkn Hcase Hlen Hbytes) as [Hsg Hs32]. rewrite Hsg, Hs32.
      exists s.
      destruct Hk as [E|E]; rewrite E;
        cbn [N.eqb Pos.eqb orb kind_native kind_timeutc kind_timelocal kind_lat kind_lng]; rewrite andb_false_r;
        (split; [apply consumes_ret|exact Hrel]).
Qed.

Definition psize (fds : list sfdef) : nat := fold_right (fun f acc => (N.to_nat (sf_size f) + acc)%nat) 0%nat fds.

Definition counts (gmn : N) (unl : list N) (base : list (N * N * N)) : list (N * N * N) :=
  fold_left (fun acc k => count2 gmn k acc) unl base.

Lemma counts_snoc gmn unl k base : counts gmn (unl ++ [k]) base = count2 gmn k (counts gmn unl base).
Proof. unfold counts. rewrite fold_left_app. reflexivity. Qed.

(* one field, then all of them: the bytes are consumed, the message, the reference and the unlisted-field counts are
   those of the reference semantics *)
Lemma field_known o dm base f buf m ref unl s um :
  compat (dm_gmn dm) f = true -> canon_bt f = true ->
  List.length buf = N.to_nat (sf_size f) -> all_bytes buf = true ->
  crel o s ref um (counts (dm_gmn dm) unl base) ->
  exists s',
    consumes (parse_one_field o dm true (to_fdef f) (Some m)) buf s
      (Some (fst (fst (dstep (dm_be dm) (dm_gmn dm) f buf m ref unl)))) s' /\
    crel o s' (snd (fst (dstep (dm_be dm) (dm_gmn dm) f buf m ref unl))) um
         (counts (dm_gmn dm) (snd (dstep (dm_be dm) (dm_gmn dm) f buf m ref unl)) base).
Proof.
  intros Hc Hcan Hlen Hbytes Hrel.
  destruct (get_field (dm_gmn dm) (sf_num f)) as [p|] eqn:Eg.
  - destruct (pof_listed o dm f p m buf ref unl s um _ Eg Hc Hcan Hlen Hbytes Hrel) as (s' & Hrun & Hrel').
    exists s'. split; [exact Hrun|]. unfold dstep in *. rewrite Eg in *. exact Hrel'.
  - pose proof (pof_unlisted o dm true (to_fdef f) (Some m) _ s Eg Hlen) as Hrun.
    cbn [andb to_fdef fd_num] in Hrun. rewrite bump2_count2 in Hrun.
    unfold dstep. rewrite Eg. cbn [fst snd]. eexists. split; [exact Hrun|].
    destruct Hrel as (Ht & Hm & Hf). unfold crel. destruct (o_unkf o); (split; [exact Ht|split; [exact Hm|]]).
    + intros _. cbn [with_unkf ds_unkf]. now rewrite counts_snoc, (Hf eq_refl).
    + intros [=].
Qed.

Lemma fields_known o dm be gmn base um : dm_gmn dm = gmn -> dm_be dm = be ->
  forall fds pay m ref unl s,
  forallb (compat gmn) fds = true -> forallb canon_bt fds = true ->
  List.length pay = psize fds -> all_bytes pay = true ->
  crel o s ref um (counts gmn unl base) ->
  exists s',
    consumes (parse_fields o dm true (map to_fdef fds) (Some m)) pay s
      (Some (fst (fst (denote_fields be gmn fds pay m ref unl)))) s' /\
    crel o s' (snd (fst (denote_fields be gmn fds pay m ref unl))) um (counts gmn (snd (denote_fields be gmn fds pay m ref unl)) base).
Proof.
  intros <- <-.
  induction fds as [|f r IH]; intros pay m ref unl s Hc Hcan Hlen Hbytes Hrel.
  - cbn [psize fold_right] in Hlen. destruct pay; [|discriminate]. cbn [map parse_fields denote_fields fst snd].
    exists s. split; [apply consumes_ret|exact Hrel].
  - cbn [forallb] in Hc, Hcan. apply andb_prop in Hc. destruct Hc as [Hc1 Hc]. apply andb_prop in Hcan. destruct Hcan as [Hcan1 Hcan].
    cbn [psize fold_right] in Hlen. fold (psize r) in Hlen.
    set (sz := N.to_nat (sf_size f)) in *.
    assert (Hb1 : List.length (firstn sz pay) = sz) by (rewrite firstn_length; lia).
    assert (Hb2 : List.length (skipn sz pay) = psize r) by (rewrite skipn_length; lia).
    destruct (all_bytes_split sz pay Hbytes) as [Hby1 Hby2].
    rewrite denote_fields_cons. fold sz. cbn [map parse_fields].
    destruct (field_known o dm base f (firstn sz pay) m ref unl s um Hc1 Hcan1 Hb1 Hby1 Hrel) as (s1 & Hrun & Hrel1).
    destruct (dstep _ _ f (firstn sz pay) m ref unl) as [[m1 ref1] unl1]. cbn [fst snd] in Hrun, Hrel1.
    destruct (IH (skipn sz pay) m1 ref1 unl1 s1 Hc Hcan Hb2 Hby2 Hrel1) as (s' & Hrun' & Hrel').
    exists s'. split; [exact (consumes_bind_at sz _ _ _ _ _ _ _ _ Hrun Hrun')|exact Hrel'].
Qed.

Lemma fields_unknown o dm : known_msg (dm_gmn dm) = false ->
  forall fds pay s, List.length pay = psize fds ->
  consumes (parse_fields o dm false (map to_fdef fds) None) pay s None s.
Proof.
  intros Hk. induction fds as [|f r IH]; intros pay s Hlen; cbn [psize fold_right] in Hlen; cbn [map parse_fields].
  - destruct pay; [apply consumes_ret|discriminate].
  - fold (psize r) in Hlen. apply (consumes_bind_at (N.to_nat (sf_size f))) with (a := None) (s1 := s).
    + apply (pof_unlisted o dm false (to_fdef f) None); [apply unknown_no_field, Hk|].
      rewrite firstn_length. cbn [to_fdef fd_size]. lia.
    + apply IH. rewrite skipn_length. lia.
Qed.

Lemma skip_dev_ok : forall devs dev s, List.length dev = dev_size devs -> consumes (skip_dev_fields devs) dev s tt s.
Proof.
  induction devs as [|[[a sz] c] r IH]; intros dev s Hlen; cbn [dev_size fold_right] in Hlen; cbn [skip_dev_fields].
  - destruct dev; [apply consumes_ret|discriminate].
  - fold (dev_size r) in Hlen. apply (consumes_bind_at (N.to_nat sz)) with (a := firstn (N.to_nat sz) dev) (s1 := s).
    + apply consumes_read_full. rewrite firstn_length. lia.
    + apply IH. rewrite skipn_length. lia.
Qed.

Definition ref_after (off ref : option N) : option N :=
  match off, ref with Some o, Some r => Some (roll r o) | _, _ => ref end.

(* the message a compressed-timestamp header ([Some offset]) stamps when there is a reference *)
Definition stamp_msg (gmn : N) (off ref : option N) (m : msg) : msg :=
  match off, ref, get_field gmn c_fieldNumTimeStamp with
  | Some o, Some r, Some p => mk_msg (m_num m) (set_at (pf_sindex p) (time_of (roll r o)) (m_fields m))
  | _, _, _ => m
  end.

(* the effect of a data record of definition [d] (compressed: [Some offset]) on a run whose time reference is [ref]:
   the new reference, the message appended (none when the profile does not know the message) and the unlisted
   field numbers met; the environment plays no part beyond supplying [d] *)
Definition data_effect (d : sdef) (off ref : option N) (pay : list N) : option (option N * list msg * list N) :=
  let gmn := sd_gmn d in
  if known_msg gmn then
    match mesg_all_invalid gmn with
    | None => None
    | Some m0 =>
        let '(m2, ref2, unl) :=
          denote_fields (sd_be d) gmn (sd_fds d) pay (stamp_msg gmn off ref m0) (ref_after off ref) [] in
        Some (ref2, [m2], unl)
    end
  else Some (ref_after off ref, [], []).

Lemma denote_data_effect s l off pay dev :
  denote_data s l off pay dev =
  match lookup_def (ss_env s) l with
  | None => None
  | Some d =>
      if negb (Nat.eqb (List.length pay) (payload_size d)) || negb (Nat.eqb (List.length dev) (sd_devsize d)) then None else
      match data_effect d off (ss_ref s) pay with
      | None => None
      | Some (ref', ms, unl) =>
          Some (mk_sstate (ss_env s) ref' (ss_msgs s ++ ms)
                  (if known_msg (sd_gmn d) then ss_unkm s else count1 (sd_gmn d) (ss_unkm s))
                  (fold_left (fun acc k => count2 (sd_gmn d) k acc) unl (ss_unkf s)))
      end
  end.
Proof.
  unfold denote_data, data_effect, stamp_msg, ref_after, roll.
  destruct (lookup_def (ss_env s) l) as [d|]; [|reflexivity].
  destruct (negb _ || negb _); [reflexivity|].
  destruct (known_msg (sd_gmn d)).
  - destruct (mesg_all_invalid (sd_gmn d)) as [m0|]; [|reflexivity].
    destruct off as [o|], (ss_ref s) as [r|]; cbv beta iota zeta;
      destruct (denote_fields _ _ _ _ _ _ _) as [[m2 ref2] unl]; reflexivity.
  - rewrite app_nil_r. destruct off as [o|], (ss_ref s) as [r|]; reflexivity.
Qed.

(* What a record reads of the state and what it does to it.  A data record reads the definition in its own slot and
   the time reference, and nothing else; a record of either kind extends the environment as [env_step] says, appends
   messages that do not depend on those before, and moves each of the two counter lists on its own.  So two states
   that agree on that slot and on the reference stay in step.  The relations [same_core] (StreamDenoteSkip.v) and
   [same_off] (StreamDenoteSlots.v) are kept by it. *)
Lemma denote_data_frame a b l off pay dev :
  lookup_def (ss_env a) l = lookup_def (ss_env b) l -> ss_ref a = ss_ref b ->
  match denote_data a l off pay dev, denote_data b l off pay dev with
  | Some a', Some b' =>
      ss_env a' = ss_env a /\ ss_env b' = ss_env b /\ ss_ref a' = ss_ref b' /\
      (exists ms, ss_msgs a' = ss_msgs a ++ ms /\ ss_msgs b' = ss_msgs b ++ ms) /\
      (ss_unkm a = ss_unkm b -> ss_unkm a' = ss_unkm b') /\ (ss_unkf a = ss_unkf b -> ss_unkf a' = ss_unkf b')
  | None, None => True
  | _, _ => False
  end.
Proof.
  intros He Hr. rewrite !denote_data_effect, He, Hr.
  destruct (lookup_def (ss_env b) l) as [d|]; [|exact I].
  destruct (negb _ || negb _); [exact I|].
  destruct (data_effect d off (ss_ref b) pay) as [[[ref' ms] unl]|]; [|exact I].
  cbn [ss_env ss_ref ss_msgs ss_unkm ss_unkf]. repeat split; try intros ->; try reflexivity. now exists ms.
Qed.

(* the environment after a record, as denote_record builds it *)
Definition env_step (env : list (N * sdef)) (r : record) : list (N * sdef) :=
  match r with
  | RDef l be gmn fds devflag devs => (l, mk_sdef be gmn fds (dev_size (if devflag then devs else []))) :: env
  | _ => env
  end.

Definition reads_slot (r : record) : option N :=
  match r with RDef _ _ _ _ _ _ => None | RData l _ _ | RComp l _ _ _ => Some l end.

Lemma denote_record_frame a b r a' :
  (forall l, reads_slot r = Some l -> lookup_def (ss_env a) l = lookup_def (ss_env b) l) -> ss_ref a = ss_ref b ->
  denote_record a r = Some a' ->
  exists b', denote_record b r = Some b' /\
    ss_env a' = env_step (ss_env a) r /\ ss_env b' = env_step (ss_env b) r /\ ss_ref a' = ss_ref b' /\
    (exists ms, ss_msgs a' = ss_msgs a ++ ms /\ ss_msgs b' = ss_msgs b ++ ms) /\
    (ss_unkm a = ss_unkm b -> ss_unkm a' = ss_unkm b') /\ (ss_unkf a = ss_unkf b -> ss_unkf a' = ss_unkf b').
Proof.
  intros He Hr. destruct r as [l be gmn fds devflag devs | l pay dev | l off pay dev]; cbn [denote_record env_step].
  1: { destruct (_ || _); [discriminate|]. intros [= <-]. eexists. split; [reflexivity|].
       cbn [ss_env ss_ref ss_msgs ss_unkm ss_unkf]. repeat split; auto. exists []. now rewrite !app_nil_r. }
  2: destruct (4 <=? l); [discriminate|].
  (* the two kinds of data record alike *)
  all: intros Ha; epose proof (denote_data_frame a b l _ pay dev (He l eq_refl) Hr) as F; rewrite Ha in F;
    destruct (denote_data b l _ pay dev) as [b'|]; [now exists b'|contradiction].
Qed.

Lemma denote_record_env a r a1 : denote_record a r = Some a1 -> ss_env a1 = env_step (ss_env a) r.
Proof. intros E. now destruct (denote_record_frame a a r a1 (fun _ _ => eq_refl) eq_refl E) as (_ & _ & H & _). Qed.
