(* C13 -- Local message types: the latest definition wins and slots are independent. *)
From Coq Require Import NArith ZArith List Bool.
From FitV Require Import Model.Values Model.Reflect Model.IO Model.Decode Model.Profile Gen.Consts Proofs.DecodeLemmas
  Spec.FitSyntax Proofs.StreamDenoteDefs Proofs.StreamDenoteMain Proofs.StreamDenoteCor Proofs.StreamDenoteSlots.
Import ListNotations.
Local Open Scope N_scope.

(* record headers address local types 0-15; compressed-timestamp headers 0-3 with bits 5-6 *)
Theorem C13_normal_local_lt : forall b, N.land b c_localMesgNumMask < 16.
Proof. exact normal_local_lt. Qed.
Theorem C13_compressed_local_2bits : forall b, b < 256 ->
  N.shiftr (N.land b c_compressedLocalMesgNumMask) 5 = (b / 32) mod 4 /\ N.shiftr (N.land b c_compressedLocalMesgNumMask) 5 < 4.
Proof. exact compressed_local_2bits. Qed.

(* the most recent definition written for a local type is the one its slot holds *)
Theorem C13_latest_def_wins : forall (defs : list (option defmsg)) dm, (N.to_nat (dm_local dm) < List.length defs)%nat ->
  nth (N.to_nat (dm_local dm)) (set_nth (N.to_nat (dm_local dm)) (Some dm) defs) None = Some dm.
Proof. exact latest_def_wins. Qed.
Print Assumptions C13_latest_def_wins.

(* redefining one local type (with any message, field list or byte order) leaves every other slot as it was *)
Theorem C13_slots_independent : forall (defs : list (option defmsg)) dm l', l' <> dm_local dm ->
  nth (N.to_nat l') (set_nth (N.to_nat (dm_local dm)) (Some dm) defs) None = nth (N.to_nat l') defs None.
Proof. exact slots_independent. Qed.

(* a data record is interpreted with the definition in its own slot and with nothing else of the slot table:
   its program is [data_message_with], which takes the definition as a parameter and never reads ds_defs *)
Theorem C13_data_message_uses_own_slot : forall o b (compressed : bool) x s dm,
  nth (N.to_nat (if compressed then N.shiftr (N.land b c_compressedLocalMesgNumMask) 5 else N.land b c_localMesgNumMask))
      (ds_defs s) None = Some dm ->
  run_a (parse_data_message o b compressed) x s = run_a (data_message_with o b compressed dm s) x s.
Proof. exact data_message_uses_own_slot. Qed.

(* a data record whose local type has no definition is an error, in every state, on every input *)
Theorem C13_undefined_local_is_error : forall o b (compressed : bool) x s,
  nth (N.to_nat (if compressed then N.shiftr (N.land b c_compressedLocalMesgNumMask) 5 else N.land b c_localMesgNumMask))
      (ds_defs s) None = None ->
  run_a (parse_data_message o b compressed) x s = RFail EMissingDef x s.
Proof. exact undefined_local_is_error. Qed.
Print Assumptions C13_undefined_local_is_error.

(* On whole streams.  By C02_decode_denote the File Decode returns is the routed message list of the reference
   semantics [denote]; the statements below are about [denote] (Spec/FitSyntax.v) and, for the headline, about
   the decoder model directly. *)

(* slots_independent: two runs whose environments differ only in slot l stay in step on every record that is not a
   data record of l -- definitions of any local type (l included) and data records of all the others *)
Theorem C13_slots_independent_stream : forall l rs a b a',
  same_off l a b -> forallb (fun r => negb (uses_local l r)) rs = true -> denote_from a rs = Some a' ->
  exists b', denote_from b rs = Some b' /\ same_off l a' b'.
Proof. exact slots_independent_stream. Qed.
Print Assumptions C13_slots_independent_stream.

(* redefining local type l (any message, field list, sizes, byte order) never changes how later records of the
   other local types decode: same messages, time reference and counts *)
Theorem C13_redefinition_invisible : forall l rs0 be1 g1 f1 v1 x1 be2 g2 f2 v2 x2 rs s s1,
  forallb (fun r => negb (uses_local l r)) rs = true ->
  denote_from s (rs0 ++ RDef l be1 g1 f1 v1 x1 :: rs) = Some s1 ->
  (forall sm, denote_from s rs0 = Some sm -> denote_record sm (RDef l be2 g2 f2 v2 x2) <> None) ->
  exists s2, denote_from s (rs0 ++ RDef l be2 g2 f2 v2 x2 :: rs) = Some s2 /\
    ss_msgs s1 = ss_msgs s2 /\ ss_ref s1 = ss_ref s2 /\ ss_unkm s1 = ss_unkm s2 /\ ss_unkf s1 = ss_unkf s2 /\
    env_agree_off l (ss_env s1) (ss_env s2).
Proof. exact redefinition_invisible. Qed.
(* ... the same for the decoder model: the decoded Files are equal *)
Theorem C13_redefinition_invisible_decoder : forall o h g l rs0 be1 g1' f1 v1 x1 be2 g2 f2' v2 x2 rs,
  forallb (fun r => negb (uses_local l r)) rs = true ->
  in_domain h g (rs0 ++ RDef l be1 g1' f1 v1 x1 :: rs) -> in_domain h g (rs0 ++ RDef l be2 g2 f2' v2 x2 :: rs) ->
  decoded_file o h g (rs0 ++ RDef l be1 g1' f1 v1 x1 :: rs) = decoded_file o h g (rs0 ++ RDef l be2 g2 f2' v2 x2 :: rs).
Proof. exact redefinition_invisible_decoder. Qed.
Print Assumptions C13_redefinition_invisible_decoder.

(* latest_def_wins: after a definition for l, and any records that do not redefine l, slot l holds that definition,
   and a data record of l is decoded exactly as if it were the only definition there is *)
Theorem C13_latest_def_wins_stream : forall s l be gmn fds devflag devs s' rs sb,
  denote_record s (RDef l be gmn fds devflag devs) = Some s' ->
  forallb (fun r => negb (defines_local l r)) rs = true ->
  denote_from s' rs = Some sb ->
  lookup_def (ss_env sb) l = Some (mk_sdef be gmn fds (devsize_of devflag devs)).
Proof. exact latest_def_wins_after. Qed.
Theorem C13_data_decoded_with_latest_def : forall s l be gmn fds devflag devs s' rs sb off pay dev,
  denote_record s (RDef l be gmn fds devflag devs) = Some s' ->
  forallb (fun r => negb (defines_local l r)) rs = true ->
  denote_from s' rs = Some sb ->
  match denote_data sb l off pay dev,
        denote_data (mk_sstate [(l, mk_sdef be gmn fds (devsize_of devflag devs))]
                       (ss_ref sb) (ss_msgs sb) (ss_unkm sb) (ss_unkf sb)) l off pay dev with
  | Some x, Some y =>
      ss_env x = ss_env sb /\ ss_ref x = ss_ref y /\ ss_msgs x = ss_msgs y /\ ss_unkm x = ss_unkm y /\ ss_unkf x = ss_unkf y
  | None, None => True
  | _, _ => False
  end.
Proof. exact data_decoded_with_latest_def. Qed.

(* a data record of a local type without definition is outside the reference semantics (and an error of the decoder
   in every state: C13_undefined_local_is_error above) *)
Theorem C13_undefined_local_rejected : forall s l pay dev,
  lookup_def (ss_env s) l = None -> denote_record s (RData l pay dev) = None.
Proof. intros s l pay dev H. cbn [denote_record]. unfold denote_data. rewrite H. reflexivity. Qed.

(* PARTIAL: nothing; the decoder-level statements hold inside the domain of C02_decode_denote (in_domain: the stream
   starts with file_id, is serialisable (stream_wf incl. canon_bt), is accepted by the reference semantics and has a
   hosted file type; there is no time side condition). *)
Example C13_example : nth 3 (set_nth 5 (Some (mk_defmsg 5 true 20 [] [])) (repeat None 16)) None = None
                      /\ nth 5 (set_nth 5 (Some (mk_defmsg 5 true 20 [] [])) (repeat None 16)) None = Some (mk_defmsg 5 true 20 [] []).
Proof. split; reflexivity. Qed.
