(* C04 -- Corruption is detected: CRC verdicts are sound and agree across entry points.

   "A file that Encode produced or that Decode accepts passes CheckIntegrity; after corrupting any run of at
   most 16 contiguous bits outside the header's size and data-size fields, Decode and CheckIntegrity both
   return an error.  A header whose stored non-zero CRC does not match its contents is rejected by every API
   that checks headers (CheckIntegrity, DecodeHeader, Decode and Header.CheckIntegrity alike) and a matching
   one is accepted by all of them."

   Objects.  [decode o md g rd fuel] (Model/Decode.v) is reader.go:decode over a reader oracle [rd] (data,
   chunk schedule with empty reads, EOF or fault, data-with-EOF; Model/IO.v): md = MFull is Decode, MCrcOnly is
   CheckIntegrity(r, false), MHeaderOnly is DecodeHeader and CheckIntegrity(r, true), MFileIdOnly is
   DecodeHeaderAndFileID.  [header_check_integrity] (Model/Header.v) is Header.CheckIntegrity.  [arc] is the
   bitwise CRC-16/ARC (Spec/CrcSpec.v); [checksum] the table-driven code of dyncrc16 (equal on bytes: C14).
   [header_stage_with arc], [crc_verdict_with arc], [frame_len], [parse_header] (Spec/Integrity.v) are functions of
   the byte string alone.  [measure rd < fuel] only says the loops have enough fuel (C01/C10).

   Bit numbering of bursts (Spec/Burst.v).  Stream bit k is bit (k mod 8), counted from the least significant
   bit, of byte (k div 8): the order in which the reflected CRC consumes bits.  [burst n off p] is the n-byte
   error string whose stream bits off .. off+15 are the bits of p (theorem C04_burst_numbering);
   [burst16 n off p] says 0 < p < 2^16 and the pattern lies inside the n bytes; [xorl bs e] applies it;
   [outside_size_fields e] says bytes 0 and 4..7 are untouched.  In the most-significant-bit-first numbering
   the statement is false for CRC-16/ARC itself (C04_burst16_msbfirst_refuted), not because of this library. *)
From Coq Require Import NArith List Bool Arith.
From FitV Require Import Model.Values Model.Bytes Model.Crc Model.IO Model.Header Model.Route Model.Decode Model.Encode Model.Components
  Gen.Consts Spec.CrcSpec Spec.Burst Spec.Integrity Spec.Grammar
  Proofs.C04Crc Proofs.C04IO Proofs.C04Verdict Proofs.C04Corrupt Proofs.C04Header Proofs.C04Main Proofs.C04Agree Proofs.C04Examples Proofs.EncodeProofs Proofs.C04Encode Proofs.EncExamples.
Import ListNotations.
Local Open Scope N_scope.

(* (a) CRC algebra, strings of any length *)

(* the checksum is XOR-linear in the message (equal lengths) *)
Theorem C04_crc_linear : forall a b, length a = length b ->
  checksum (xorl a b) = N.lxor (checksum a) (checksum b).
Proof. exact crc_linear. Qed.
Print Assumptions C04_crc_linear.

Theorem C04_arc_linear : forall a b, is_bytes a -> is_bytes b -> length a = length b ->
  arc (xorl a b) = N.lxor (arc a) (arc b).
Proof.
  intros a b Ha Hb Hl. rewrite <- !CrcProofs.checksum_is_arc by (assumption || now apply xorl_is_bytes). now apply crc_linear.
Qed.

(* feeding a zero byte is injective on the 2^16 register states *)
Theorem C04_zero_step_injective : forall c1 c2, c1 < 65536 -> c2 < 65536 ->
  update_byte c1 0 = update_byte c2 0 -> c1 = c2.
Proof. exact zero_step_injective. Qed.
Print Assumptions C04_zero_step_injective.

(* the numbering: stream bit j of [err_bytes n v] is bit j of v *)
Theorem C04_burst_numbering : forall n v j, (j < 8 * n)%nat ->
  N.testbit (nth (Nat.div j 8) (err_bytes n v) 0) (N.of_nat (Nat.modulo j 8)) = N.testbit v (N.of_nat j).
Proof. exact err_bytes_bit. Qed.

(* every non-zero error confined to 16 contiguous stream bits, at any offset in a string of any length,
   has a non-zero checksum (feeding the string is so many single-bit steps of the register xor the pattern; the
   first ones bring the pattern down unchanged, and no step of a non-zero 16-bit register gives zero) *)
Theorem C04_burst16_nonzero : forall n off p, burst16 n off p -> checksum (burst n off p) <> 0.
Proof. exact burst16_nonzero. Qed.
Print Assumptions C04_burst16_nonzero.

Theorem C04_burst_detected : forall frame off p, is_bytes frame ->
  arc frame = 0 -> burst16 (length frame) off p ->
  arc (xorl frame (burst (length frame) off p)) <> 0.
Proof.
  intros frame off p Hf H0 Hb.
  rewrite <- CrcProofs.checksum_is_arc by (apply xorl_is_bytes; [assumption|apply err_bytes_lt]).
  apply burst_detected; [now rewrite CrcProofs.checksum_is_arc|assumption].
Qed.
Print Assumptions C04_burst_detected.

(* byte-aligned corollary (identical in both bit numberings): an error confined to two adjacent whole bytes *)
Theorem C04_two_byte_error_detected : forall frame k x y,
  checksum frame = 0 -> (k + 2 <= length frame)%nat -> x < 256 -> y < 256 -> (x <> 0 \/ y <> 0) ->
  checksum (xorl frame (repeat 0 k ++ [x; y])) <> 0.
Proof. exact two_byte_error_detected. Qed.

(* most significant bit first: the 11-bit run 01 C1 C0 is a multiple of the generator *)
Theorem C04_burst16_msbfirst_refuted : exists n sh p,
  0 < p < 65536 /\ N.shiftl p sh < 2 ^ (8 * N.of_nat n) /\
  burst_msb n sh p = [0x01; 0xC1; 0xC0] /\ checksum (burst_msb n sh p) = 0 /\ arc (burst_msb n sh p) = 0.
Proof. exact burst16_msbfirst_refuted. Qed.

(* (b) verdict soundness *)

(* CheckIntegrity(r, false) on ANY input, terminal condition and chunk schedule returns exactly the verdict the
   bytes determine; on success it consumed exactly one frame *)
Theorem C04_check_integrity_spec : forall o g fuel rd, is_bytes (rd_data rd) -> (measure rd < fuel)%nat ->
  exists r, decode o MCrcOnly g rd fuel = TDone r /\
    dr_err r = crc_verdict_with arc (rd_data rd) (rd_term rd) /\
    (dr_err r = None -> rd_pos (dr_rd r) = (rd_pos rd + frame_len (rd_data rd))%nat).
Proof. exact check_integrity_arc. Qed.
Print Assumptions C04_check_integrity_spec.

(* if Decode or CheckIntegrity returns no error, the bytes consumed are header ++ data ++ crc16 as the header
   states them, their CRC-16/ARC residue is 0, and so is that of a 14-byte header storing a non-zero checksum *)
Theorem C04_accept_residue : forall o g fuel rd r md, (md = MFull \/ md = MCrcOnly) ->
  is_bytes (rd_data rd) -> (measure rd < fuel)%nat ->
  decode o md g rd fuel = TDone r -> dr_err r = None ->
  frame_sound (rd_data rd) /\ rd_pos (dr_rd r) = (rd_pos rd + frame_len (rd_data rd))%nat.
Proof. exact accept_residue. Qed.
Print Assumptions C04_accept_residue.

(* ... and conversely for CheckIntegrity *)
Theorem C04_sound_frame_accepted : forall bs tm, bs <> [] ->
  (hdr_size bs = 12 \/ hdr_size bs = 14)%nat -> proto_ok (b_at bs 1) = true -> firstn 4 (skipn 8 bs) = fit_dtype ->
  (frame_len bs <= length bs)%nat -> arc (firstn (frame_len bs) bs) = 0 ->
  (hdr_size bs = 14%nat -> stored_hdr_crc bs <> 0 -> arc (firstn 14 bs) = 0) ->
  crc_verdict_with arc bs tm = None.
Proof. intros. apply verdict_none_iff_sound. unfold frame_sound. auto. Qed.

(* what Decode accepts, CheckIntegrity accepts: same bytes, any two schedules, same number of bytes consumed *)
Theorem C04_decode_ok_integrity_ok : forall o g fuel rd r, (measure rd < fuel)%nat ->
  decode o MFull g rd fuel = TDone r -> dr_err r = None ->
  forall o2 g2 fuel2 rd2, rd_data rd2 = rd_data rd -> (measure rd2 < fuel2)%nat ->
  exists r2, decode o2 MCrcOnly g2 rd2 fuel2 = TDone r2 /\ dr_err r2 = None /\
             (rd_pos (dr_rd r2) - rd_pos rd2 = rd_pos (dr_rd r) - rd_pos rd)%nat.
Proof. exact decode_ok_integrity_ok. Qed.
Print Assumptions C04_decode_ok_integrity_ok.

(* what Encode emits passes: any byte string framed as Spec/Grammar.v demands (header_ok, trailer_ok: proved
   of the encoder model's output by encode_framing, Proofs/EncodeProofs.v) with a supported protocol version *)
Theorem C04_encode_integrity_ok : forall bs, is_bytes bs ->
  header_ok bs = true -> trailer_ok bs = true -> proto_ok (nth 1 bs 0) = true ->
  forall o g fuel rd, rd_data rd = bs -> (measure rd < fuel)%nat ->
  exists r, decode o MCrcOnly g rd fuel = TDone r /\ dr_err r = None /\
            rd_pos (dr_rd r) = (rd_pos rd + length bs)%nat.
Proof. exact encode_integrity_ok. Qed.
Print Assumptions C04_encode_integrity_ok.

(* ... and for Encode itself (the encoder model of Model/Encode.v): what it writes for a File whose header is as
   NewHeader makes it (wf_header: size 12 or 14, one-byte protocol version, ".FIT") with a protocol major version the
   decoder supports is accepted by CheckIntegrity, for every reader; through encode_framing (C05, Proofs/EncodeProofs.v).
   Encode does not validate a hand-made header: outside these hypotheses its output is rejected (docs/notes-C04.md) *)
Theorem C04_encode_output_accepted : forall f be bs f',
  wf_header (f_header f) = true -> proto_ok (h_proto (f_header f)) = true ->
  encode f be = EOk (bs, f') -> N.of_nat (List.length bs) < 4294967296 ->
  forall o g fuel rd, rd_data rd = bs -> (measure rd < fuel)%nat ->
  exists r, decode o MCrcOnly g rd fuel = TDone r /\ dr_err r = None /\
            rd_pos (dr_rd r) = (rd_pos rd + List.length bs)%nat.
Proof. exact encode_output_accepted. Qed.
Print Assumptions C04_encode_output_accepted.

(* CRC verdicts agree: an IntegrityError returned by Decode (header checksum or file checksum) is the error
   CheckIntegrity returns on the same bytes, under any two chunk schedules; record parsing never produces one *)
Theorem C04_integrity_verdicts_agree : forall o g fuel rd r e, (measure rd < fuel)%nat ->
  decode o MFull g rd fuel = TDone r -> dr_err r = Some e -> is_integrity e = true ->
  forall o2 g2 fuel2 rd2, rd_data rd2 = rd_data rd -> (measure rd2 < fuel2)%nat ->
  exists r2, decode o2 MCrcOnly g2 rd2 fuel2 = TDone r2 /\ dr_err r2 = Some e.
Proof. exact integrity_verdicts_agree. Qed.
Print Assumptions C04_integrity_verdicts_agree.

(* (c) corruption => both reject *)

Theorem C04_corruption_detected : forall bs tm off p, is_bytes bs ->
  crc_verdict_with arc bs tm = None ->
  burst16 (frame_len bs) off p ->
  outside_size_fields (burst (frame_len bs) off p) = true ->
  forall rd, rd_data rd = xorl bs (burst (frame_len bs) off p) ->
  forall o g fuel, (measure rd < fuel)%nat ->
    (exists r, decode o MCrcOnly g rd fuel = TDone r /\ dr_err r <> None) /\
    (forall r, decode o MFull g rd fuel = TDone r -> dr_err r <> None).
Proof.
  intros bs tm off p Hb Hv. rewrite <- C04Bytes.verdict_arc in Hv by assumption. now apply (corruption_detected bs tm).
Qed.
Print Assumptions C04_corruption_detected.

(* the same with the hypothesis "Decode (or CheckIntegrity) accepted the file" *)
Theorem C04_accepted_then_corrupted : forall o0 g0 fuel0 rd0 r0 md, (md = MFull \/ md = MCrcOnly) ->
  (measure rd0 < fuel0)%nat -> decode o0 md g0 rd0 fuel0 = TDone r0 -> dr_err r0 = None ->
  forall off p, burst16 (frame_len (rd_data rd0)) off p ->
  outside_size_fields (burst (frame_len (rd_data rd0)) off p) = true ->
  forall rd, rd_data rd = xorl (rd_data rd0) (burst (frame_len (rd_data rd0)) off p) ->
  forall o g fuel, (measure rd < fuel)%nat ->
    (exists r, decode o MCrcOnly g rd fuel = TDone r /\ dr_err r <> None) /\
    (forall r, decode o MFull g rd fuel = TDone r -> dr_err r <> None).
Proof. exact accepted_then_corrupted. Qed.
Print Assumptions C04_accepted_then_corrupted.

(* (d) header checksum: all APIs agree *)

(* the header stage of every entry point computes header_stage; its error is returned by all four modes *)
Theorem C04_header_verdict_all_apis : forall o g fuel rd, (measure rd < fuel)%nat ->
  (forall e, header_stage_with checksum (rd_data rd) (rd_term rd) = Some e ->
     forall md, exists r, decode o md g rd fuel = TDone r /\ dr_err r = Some e) /\
  (header_stage_with checksum (rd_data rd) (rd_term rd) = None ->
     (exists r, decode o MHeaderOnly g rd fuel = TDone r /\ dr_err r = None /\ dr_hdr r = parse_header (rd_data rd)) /\
     (exists r, decode o MCrcOnly g rd fuel = TDone r /\ dr_err r <> Some EHdrCRC /\ dr_err r <> Some EProto /\ dr_err r <> Some ENotFit) /\
     (exists h crc rd', decode_header fuel rd = Done (None, h, crc, rd'))).
Proof. exact header_verdict_all_apis. Qed.
Print Assumptions C04_header_verdict_all_apis.

(* for all header field values and all corruptions of them: Header.CheckIntegrity on the Header the decoder
   reports returns the verdict of the header stage, error class (IntegrityError or not) included *)
Theorem C04_header_apis_agree : forall bs tm, is_bytes (firstn 14 bs) ->
  (b_at bs 0 = 12 \/ b_at bs 0 = 14) -> (N.to_nat (b_at bs 0) <= length bs)%nat ->
  header_check_integrity (parse_header bs) = hci_of_stage (header_stage_with checksum bs tm).
Proof. exact header_apis_agree. Qed.
Print Assumptions C04_header_apis_agree.

(* a stored non-zero checksum that does not match is rejected by all; a matching one with legal fields is
   accepted by all *)
Theorem C04_header_crc_agree : forall bs, is_bytes (firstn 14 bs) -> b_at bs 0 = 14 -> (14 <= length bs)%nat ->
  stored_hdr_crc bs <> 0 ->
  (arc (firstn 12 bs) <> stored_hdr_crc bs ->
     (forall tm, exists e, header_stage_with arc bs tm = Some e /\ (e = EProto \/ e = ENotFit \/ e = EHdrCRC)) /\
     header_check_integrity (parse_header bs) <> None) /\
  (arc (firstn 12 bs) = stored_hdr_crc bs -> proto_ok (b_at bs 1) = true -> firstn 4 (skipn 8 bs) = fit_dtype ->
     (forall tm, header_stage_with arc bs tm = None) /\ header_check_integrity (parse_header bs) = None).
Proof. exact header_crc_agree. Qed.
Print Assumptions C04_header_crc_agree.

Theorem C04_header_nocrc_accept : forall bs tm, is_bytes (firstn 14 bs) ->
  (b_at bs 0 = 12 \/ (b_at bs 0 = 14 /\ stored_hdr_crc bs = 0)) -> (N.to_nat (b_at bs 0) <= length bs)%nat ->
  proto_ok (b_at bs 1) = true -> firstn 4 (skipn 8 bs) = fit_dtype ->
  header_stage_with arc bs tm = None /\ header_check_integrity (parse_header bs) = None.
Proof. exact header_nocrc_accept. Qed.

(* every size byte: Header.CheckIntegrity rejects (non-integrity error, checked first) every Header value whose Size is
   neither 12 nor 14, and every decoding entry point returns the illegal-header-size error on any input starting with
   such a byte; there is no decoded Header for those inputs, the Header value is whatever a caller builds *)
Theorem C04_bad_size_rejected_all_apis : forall sz t o g fuel rd, rd_data rd = sz :: t -> (measure rd < fuel)%nat ->
  sz <> 12 -> sz <> 14 ->
  (forall md, exists r, decode o md g rd fuel = TDone r /\ dr_err r = Some EHeaderSize /\ is_integrity EHeaderSize = false) /\
  (forall h, h_size h = sz -> header_check_integrity h = Some false).
Proof. exact bad_size_rejected_all_apis. Qed.
Print Assumptions C04_bad_size_rejected_all_apis.

(* the agreement equation for every size byte 0..255: the header bytes are demanded only when the size is 12 or 14 *)
Theorem C04_header_apis_agree_all_sizes : forall bs tm, bs <> [] -> is_bytes (firstn 14 bs) ->
  (b_at bs 0 = 12 \/ b_at bs 0 = 14 -> (N.to_nat (b_at bs 0) <= length bs)%nat) ->
  header_check_integrity (parse_header bs) = hci_of_stage (header_stage_with checksum bs tm).
Proof. exact header_apis_agree_all_sizes. Qed.
Print Assumptions C04_header_apis_agree_all_sizes.

(* witnesses (Proofs/C04Examples.v): ex12 is a 25-byte activity file (12-byte header, file_id definition and
   record, checksum A1 EC), ex14 the same records behind a 14-byte header with stored checksum; both are accepted by
   Decode and CheckIntegrity under the schedule 3,0,1,100, satisfy the grammar's framing and have verdict None *)
Example C04_ex_accepted :
  (forall bs, In bs [ex12; ex14] ->
     is_bytes bs /\ crc_verdict_with arc bs TEOF = None /\ header_ok bs = true /\ trailer_ok bs = true /\
     proto_ok (nth 1 bs 0) = true /\ (measure (ex_rd bs) < 40)%nat /\
     (exists r, decode no_opts MFull g_init (ex_rd bs) 40 = TDone r /\ dr_err r = None) /\
     (exists r, decode no_opts MCrcOnly g_init (ex_rd bs) 40 = TDone r /\ dr_err r = None)).
Proof.
  intros bs [<-|[<-|[]]];
    (split; [apply BytesUtil.all_bytes_is_bytes; reflexivity|]);
    do 4 (split; [vm_compute; reflexivity|]);
    (split; [apply Nat.ltb_lt; reflexivity|]);
    split; eexists; (split; [vm_compute; reflexivity|reflexivity]).
Qed.

(* a burst satisfying the hypotheses of (c): 13 bits from stream bit 100; one inside the magic is caught by the header stage *)
Example C04_ex_burst :
  burst16 (frame_len ex12) 100 0x1A2B /\ outside_size_fields (burst (frame_len ex12) 100 0x1A2B) = true /\
  crc_verdict_with arc (xorl ex12 (burst (frame_len ex12) 100 0x1A2B)) TEOF = Some EFileCRC /\
  (* a burst inside the header's magic is caught by the header stage instead *)
  burst16 (frame_len ex12) 64 1 /\ outside_size_fields (burst (frame_len ex12) 64 1) = true /\
  crc_verdict_with arc (xorl ex12 (burst (frame_len ex12) 64 1)) TEOF = Some ENotFit.
Proof.
  split; [split; [split; vm_compute; reflexivity|vm_compute; reflexivity]|].
  split; [vm_compute; reflexivity|]. split; [vm_compute; reflexivity|].
  split; [split; [split; vm_compute; reflexivity|vm_compute; reflexivity]|].
  split; vm_compute; reflexivity.
Qed.

(* hypotheses of (d): ex14 stores a matching non-zero checksum; flipping one bit of it makes it mismatch *)
Example C04_ex_header :
  is_bytes (firstn 14 ex14) /\ b_at ex14 0 = 14 /\ (14 <= length ex14)%nat /\ stored_hdr_crc ex14 <> 0 /\
  arc (firstn 12 ex14) = stored_hdr_crc ex14 /\ proto_ok (b_at ex14 1) = true /\ firstn 4 (skipn 8 ex14) = fit_dtype /\
  (let bad := xorl ex14 (burst 14 96 1) in
   is_bytes (firstn 14 bad) /\ b_at bad 0 = 14 /\ stored_hdr_crc bad <> 0 /\ arc (firstn 12 bad) <> stored_hdr_crc bad /\
   header_stage_with arc bad TEOF = Some EHdrCRC /\ header_check_integrity (parse_header bad) = Some true).
Proof.
  split; [vm_compute; repeat constructor|]. split; [reflexivity|]. split; [vm_compute; repeat constructor|].
  split; [vm_compute; discriminate|]. split; [vm_compute; reflexivity|]. split; [reflexivity|]. split; [reflexivity|].
  cbv zeta. split; [vm_compute; repeat constructor|]. split; [reflexivity|]. split; [vm_compute; discriminate|].
  split; [vm_compute; discriminate|]. split; vm_compute; reflexivity.
Qed.

(* hypotheses of C04_integrity_verdicts_agree: ex12 with its last checksum byte changed parses to the end and Decode
   returns the file-checksum IntegrityError *)
Example C04_ex_integrity_error :
  exists r, decode no_opts MFull g_init (ex_rd (xorl ex12 (burst 25 192 1))) 40 = TDone r /\ dr_err r = Some EFileCRC /\
            is_integrity EFileCRC = true /\ (measure (ex_rd (xorl ex12 (burst 25 192 1))) < 40)%nat.
Proof.
  eexists. split; [vm_compute; reflexivity|]. split; [reflexivity|]. split; [reflexivity|].
  apply Nat.ltb_lt. vm_compute. reflexivity.
Qed.

(* hypotheses of C04_encode_output_accepted: the example File of the encoder proofs *)
Example C04_ex_encode :
  wf_header (f_header ex_file) = true /\ proto_ok (h_proto (f_header ex_file)) = true /\
  exists bs f', encode ex_file true = EOk (bs, f') /\ N.of_nat (List.length bs) < 4294967296.
Proof.
  split; [reflexivity|]. split; [reflexivity|]. destruct ex_file_encodes as [f' H]. eauto.
Qed.

(* hypotheses of C04_bad_size_rejected_all_apis: a Header with Size 13 and a non-zero CRC (the value that made the
   method panic before fix 3d4f0a9), and an input starting with byte 13 *)
Example C04_ex_bad_size :
  header_check_integrity (mk_header 13 32 2134 0 fit_dtype 1) = Some false /\
  header_stage_with arc [13; 32; 0; 0; 0; 0; 0; 0; 46; 70; 73; 84; 0; 0] TEOF = Some EHeaderSize.
Proof. exact (conj eq_refl eq_refl). Qed.
