(* C01: a small weakest-precondition calculus over the abstract interpreter
   run_a, for proving that decoder programs never reach Panic.
   [np p x s Q]: running p from (x, s) does not panic (and does not run out of
   fuel); if it returns a value, Q holds of the value and the final states.
   Errors (RFail, RIOErr) are normal returns. *)
From Coq Require Import NArith List Bool Arith Lia.
From FitV Require Import Model.IO Proofs.Util Proofs.C10IO.
Import ListNotations.

Definition np {S E A} (p : prog S E A) (x : ast) (s : S) (Q : A -> ast -> S -> Prop) : Prop :=
  match run_a p x s with
  | ROk a x' s' => Q a x' s'
  | RFail _ _ _ | RIOErr _ _ _ => True
  | RPanic _ | ROutOfFuel => False
  end.

Lemma np_bind {S E A B} (p : prog S E A) (f : A -> prog S E B) x s Q :
  np p x s (fun a x' s' => np (f a) x' s' Q) -> np (bind p f) x s Q.
Proof. unfold np. rewrite run_a_bind. destruct (run_a p x s); auto. Qed.

Lemma np_conseq {S E A} (p : prog S E A) x s (Q Q' : A -> ast -> S -> Prop) :
  np p x s Q -> (forall a x' s', Q a x' s' -> Q' a x' s') -> np p x s Q'.
Proof. unfold np. destruct (run_a p x s); auto. Qed.

Lemma np_seq {S E A B} (p : prog S E A) (f : A -> prog S E B) x s (R : A -> ast -> S -> Prop) Q :
  np p x s R -> (forall a x' s', R a x' s' -> np (f a) x' s' Q) -> np (bind p f) x s Q.
Proof. intros H K. apply np_bind. exact (np_conseq _ _ _ _ _ H K). Qed.

(* one rule per constructor but Panic; those for ReadByte and ReadFull need the input invariant and come after it.
   [bind] computes on a program whose head is known, so the rules for ReadByte, ReadFull, Get and Put apply
   as they stand to the decoder's [b <- read_byte ;; k b], [l <- read_full n ;; k l], [s <- get_st ;; k s]
   and [put_st s ;;; k]. *)
Lemma np_ret {S E A} (a : A) x (s : S) (Q : A -> ast -> S -> Prop) : Q a x s -> np (@Ret S E A a) x s Q.
Proof. exact (fun H => H). Qed.
Lemma np_fail {S E A} (e : E) x (s : S) (Q : A -> ast -> S -> Prop) : np (@Fail S E A e) x s Q.
Proof. exact I. Qed.
Lemma np_get {S E A} (k : S -> prog S E A) x s Q : np (k s) x s Q -> np (Get k) x s Q.
Proof. exact (fun H => H). Qed.
Lemma np_put {S E A} (s' : S) (k : prog S E A) x s Q : np k x s' Q -> np (Put s' k) x s Q.
Proof. exact (fun H => H). Qed.
Lemma np_more {S E A} (k : bool -> prog S E A) x s Q : np (k (Nat.ltb (a_n x) (a_limit x))) x s Q -> np (More k) x s Q.
Proof. exact (fun H => H). Qed.

(* the input invariant: what remains to be read are bytes, and the count
   of consumed bytes never exceeds the limit *)
Definition isbyte (b : N) : Prop := (b < 256)%N.
Definition AInv (x : ast) : Prop := Forall isbyte (a_rest x) /\ a_n x <= a_limit x.

Lemma a_take_ok k x l x' : a_take k x = inl (l, x') -> AInv x ->
  Forall isbyte l /\ length l = k /\ AInv x'.
Proof.
  unfold a_take. destruct (Nat.leb_spec k (Nat.min (a_limit x - a_n x) (length (a_rest x)))) as [L|L];
    [|destruct (Nat.leb _ _); discriminate].
  intros H [Hb Hn]. inversion H; subst; clear H. cbn.
  repeat split.
  - now apply Forall_firstn.
  - rewrite firstn_length. lia.
  - now apply Forall_skipn.
  - cbn. lia.
Qed.

Lemma hd_byte l : Forall isbyte l -> isbyte (hd 0%N l).
Proof. intros H. destruct l; cbn; [unfold isbyte; lia|now inversion H]. Qed.

Lemma np_read_full {S E A} n (k : list N -> prog S E A) x (s : S) Q : AInv x ->
  (forall l x', Forall isbyte l -> length l = n -> AInv x' -> np (k l) x' s Q) ->
  np (ReadFull n k) x s Q.
Proof.
  intros HA H. unfold np. cbn [run_a]. destruct (a_take n x) as [[l x']|e] eqn:Et; [|exact I].
  destruct (a_take_ok _ _ _ _ Et HA) as (Hb & Hlen & HA').
  now apply (H l x').
Qed.

Lemma np_read_byte {S E A} (k : N -> prog S E A) x (s : S) Q : AInv x ->
  (forall b x', isbyte b -> AInv x' -> np (k b) x' s Q) ->
  np (ReadByte k) x s Q.
Proof.
  intros HA H. apply (np_read_full 1 (fun l => k (hd 0%N l))); [exact HA|].
  intros l x' Hb _. apply H, hd_byte, Hb.
Qed.

Lemma run_a_mono {S E A} : forall (p : prog S E A) x s,
  match run_a p x s with
  | ROk _ x' _ | RFail _ x' _ | RIOErr _ x' _ => a_n x <= a_n x'
  | _ => True
  end.
Proof.
  intros p x s.
  pose proof (run_a_invariant (fun x' => a_n x <= a_n x') (fun k y H _ _ => Nat.le_trans _ _ _ H (Nat.le_add_r _ k))
                p x s (Nat.le_refl _)) as H.
  destruct (run_a p x s); try exact I; [exact H|exact H|exact (proj1 H)].
Qed.

Lemma np_mono {S E A} (p : prog S E A) x s Q : np p x s Q -> np p x s (fun a x' s' => Q a x' s' /\ a_n x <= a_n x').
Proof. unfold np. pose proof (run_a_mono p x s) as H. destruct (run_a p x s); auto. Qed.

Lemma np_frame {S E A} (p : prog S E A) x s Q :
  np p x s Q -> np p x s (fun a x' s' => Q a x' s' /\ a_limit x' = a_limit x).
Proof.
  intro H. unfold np in *. pose proof (run_a_inv p x s) as I.
  destruct (run_a p x s); intuition.
Qed.

Lemma np_and {S E A} (p : prog S E A) x s Q (Q' : ast -> Prop) :
  np p x s Q -> match run_a p x s with ROk _ x' _ => Q' x' | _ => True end ->
  np p x s (fun a x' s' => Q a x' s' /\ Q' x').
Proof. unfold np. destruct (run_a p x s); auto. Qed.
