(* Concrete instances showing that the hypotheses of the C10 / C11 theorems are satisfiable: a 25-byte valid
   file (12-byte header, file_id definition, file_id message, checksum) evaluated through the model. *)
From Coq Require Import NArith List Bool Arith Lia.
From FitV Require Import Model.Bytes Model.Crc Model.IO Model.Header Model.Route Model.Components Model.Decode
  Proofs.IOSim Proofs.C10IO Proofs.C10Frame Proofs.C11Cut.
Import ListNotations.
Local Open Scope N_scope.

Definition ex_body : list N := [12; 16; 100; 0; 11; 0; 0; 0; 46; 70; 73; 84; 0x40; 0; 0; 0; 0; 1; 0; 1; 0; 0; 4].
Definition ex_file : list N := ex_body ++ put_le16 (checksum ex_body).

Lemma ex_file_length : length ex_file = 25%nat.
Proof. vm_compute. reflexivity. Qed.

Lemma ex_file_decodes : exists r, decode no_opts MFull g_init (solo ex_file) (solo_fuel ex_file) = TDone r /\
  dr_err r = None /\ rd_data (dr_rd r) = [] /\ rd_pos (dr_rd r) = 25%nat /\ dr_g r = g_init.
Proof. eexists. split; [vm_compute; reflexivity|]. repeat split. Qed.

Lemma ex_file_integrity : exists r, decode no_opts MCrcOnly g_init (solo ex_file) (solo_fuel ex_file) = TDone r /\
  dr_err r = None /\ rd_data (dr_rd r) = [].
Proof. eexists. split; [vm_compute; reflexivity|]. repeat split. Qed.
