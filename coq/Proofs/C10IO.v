(* C10, raw reads and the abstract interpreter.

   - io.ReadFull and io.CopyN over the chunked reader oracle: they give up for
     want of fuel (never when [wf rd fuel]) or return the first n bytes of the
     data (or all of it, with the error class of the terminal condition),
     whatever the chunk schedule and the fuel.
   - the abstract interpreter: what every successful take keeps, a run keeps;
     a run that ends in a value or in a decoder failure depends only on the
     bytes it consumed. *)
From Coq Require Import NArith List Bool Arith Lia.
From FitV Require Import Model.Crc Model.IO Proofs.Util.
Import ListNotations.

(* enough fuel for any read loop over rd: a Read that asks for at least one byte and does not report the end takes a
   byte of the data or, when it returns empty, an entry of the schedule (the fourth clause of rd_read_spec), so this
   sum falls at every turn *)
Definition wf (rd : reader) (fuel : nat) : Prop := length (rd_data rd) + length (rd_sched rd) < fuel.

(* rd' is rd after delivering k more bytes (or everything that was left) *)
Record adv (rd rd' : reader) (k : nat) : Prop := {
  adv_data : rd_data rd' = skipn k (rd_data rd);
  adv_term : rd_term rd' = rd_term rd;
  adv_ewd : rd_ewd rd' = rd_ewd rd;
  adv_pos : rd_pos rd' = rd_pos rd + Nat.min k (length (rd_data rd));
  adv_sched : length (rd_sched rd') <= length (rd_sched rd)
}.

Definition rf_err (n : nat) (data : list N) (t : term) : option rerr :=
  if Nat.leb n (length data) then None
  else Some (match t with TFault => RFault | TEOF => match data with [] => REOF | _ => RUnexpectedEOF end end).

Definition cp_err (n : nat) (data : list N) (t : term) : option rerr :=
  if Nat.leb n (length data) then None
  else Some (match t with TFault => RFault | TEOF => REOF end).

Lemma adv_wf rd rd' k fuel : adv rd rd' k -> wf rd fuel -> wf rd' fuel.
Proof.
  intros [Hd _ _ _ Hs] H. unfold wf in *. rewrite Hd, skipn_length. lia.
Qed.

Lemma adv_refl rd : adv rd rd 0.
Proof. constructor; cbn [skipn]; try reflexivity; lia. Qed.

Lemma adv_trans r1 r2 r3 a b : adv r1 r2 a -> adv r2 r3 b -> adv r1 r3 (a + b).
Proof.
  intros [Hd1 Ht1 He1 Hp1 Hs1] [Hd2 Ht2 He2 Hp2 Hs2]. constructor.
  - rewrite Hd2, Hd1. apply skipn_skipn_add.
  - congruence.
  - congruence.
  - rewrite Hp2, Hp1, Hd1, skipn_length. lia.
  - lia.
Qed.

Lemma adv_min rd rd' a b : adv rd rd' a ->
  Nat.min a (length (rd_data rd)) = Nat.min b (length (rd_data rd)) -> adv rd rd' b.
Proof.
  intros [Hd Ht He Hp Hs] Hm. constructor; try assumption.
  - rewrite Hd. assert (a = b \/ length (rd_data rd) <= a /\ length (rd_data rd) <= b) as [->|[La Lb]] by lia; [reflexivity|].
    now rewrite !skipn_all2.
  - now rewrite <- Hm.
Qed.

Lemma adv_pos_le rd rd' k : adv rd rd' k -> rd_pos rd <= rd_pos rd' <= rd_pos rd + k.
Proof. intros [_ _ _ Hp _]. lia. Qed.

Lemma adv_full rd rd' k : adv rd rd' k -> k <= length (rd_data rd) -> rd_pos rd' = rd_pos rd + k.
Proof. intros [_ _ _ Hp _] H. lia. Qed.

Lemma rd_read_spec rd k bs e r' : rd_read rd k = (bs, e, r') ->
  rd_data rd = bs ++ rd_data r' /\ length bs <= k /\ adv rd r' (length bs) /\
  (1 <= k -> e = None \/ bs <> [] -> length (rd_data r') + length (rd_sched r') < length (rd_data rd) + length (rd_sched rd)) /\
  (forall t, e = Some t -> t = rd_term rd /\ rd_data r' = []).
Proof.
  unfold rd_read. destruct (rd_data rd) as [|b0 rest0] eqn:Ed; intros [= <- <- <-].
  - rewrite Ed. split; [reflexivity|]. split; [apply Nat.le_0_l|]. split; [apply adv_refl|].
    split; [intros _ [H|H]; [discriminate H|now elim H]|]. now intros t [= <-].
  - set (l := b0 :: rest0). set (cap := match rd_sched rd with [] => k | c0 :: _ => Nat.min c0 k end).
    assert (Hcap : cap <= k) by (unfold cap; destruct (rd_sched rd); lia).
    assert (Hlen : length (firstn cap l) = Nat.min cap (length l)) by apply firstn_length.
    cbn [rd_data rd_sched]. split; [symmetry; apply firstn_skipn|]. split; [lia|]. split; [|split].
    + constructor; cbn [rd_data rd_sched rd_term rd_ewd rd_pos]; rewrite ?Ed, ?Hlen; fold l; try reflexivity.
      * destruct (Nat.min_spec cap (length l)) as [[_ ->]|[L ->]]; [reflexivity|]. now rewrite !skipn_all2 by lia.
      * lia.
      * destruct (rd_sched rd); cbn [tl length]; lia.
    + intros Hk _. rewrite skipn_length. unfold cap, l. destruct (rd_sched rd); cbn [tl length]; lia.
    + intros t Ht. destruct (skipn cap l) as [|y ys]; [|discriminate].
      split; [|reflexivity]. destruct (rd_ewd rd); [|discriminate]. now injection Ht.
Qed.

(* io.ReadFull and io.CopyN are the same loop: read [want] of the missing bytes until n are there or the reader
   reports its end; they differ in how much one Read asks for and in the error class of a short result.  Fuel only
   decides whether the loop gives up: it does not when the fuel exceeds the reader's measure, and when it does not
   give up the result is the same for every fuel. *)
Lemma read_loop_spec (F : nat -> reader -> nat -> list N -> outcome (list N * option rerr * reader))
    (want : nat -> nat) (cls : term -> list N -> rerr) :
  (forall k, 1 <= k -> 1 <= want k <= k) ->
  (forall fuel rd n acc, F fuel rd n acc =
     if Nat.leb n (length acc) then Done (acc, None, rd) else
     match fuel with
     | O => OutOfFuel
     | S f =>
       let '(bs, e, r') := rd_read rd (want (n - length acc)) in
       match e with
       | None => F f r' n (acc ++ bs)
       | Some t => if Nat.leb n (length (acc ++ bs)) then Done (acc ++ bs, None, r')
                   else Done (acc ++ bs, Some (cls t (acc ++ bs)), r')
       end
     end) ->
  forall fuel rd n acc, length acc <= n ->
  match F fuel rd n acc with
  | OutOfFuel => ~ wf rd fuel
  | Done (bs, e, rd') =>
      bs = firstn n (acc ++ rd_data rd) /\
      e = (if Nat.leb n (length (acc ++ rd_data rd)) then None else Some (cls (rd_term rd) (acc ++ rd_data rd))) /\
      adv rd rd' (n - length acc)
  end.
Proof.
  intros Hwant HF. induction fuel as [|f IH]; intros rd n acc Hacc; rewrite HF; destruct (Nat.leb_spec n (length acc)) as [L|L].
  1,3: assert (Hn : n = length acc) by lia; subst n; rewrite firstn_app, Nat.sub_diag, firstn_all, app_nil_r, app_length,
         (proj2 (Nat.leb_le _ _)) by lia; do 2 (split; [reflexivity|]); apply adv_refl.
  - unfold wf. lia.
  - destruct (Hwant (n - length acc) ltac:(lia)) as [Hk Hw].
    destruct (rd_read rd (want (n - length acc))) as [[bs e] r'] eqn:Er.
    destruct (rd_read_spec rd _ _ _ _ Er) as (Hd & Hl & Ha & Hn & Hs).
    destruct e as [t|].
    + destruct (Hs t eq_refl) as [-> Hnil]. rewrite Hnil, app_nil_r in Hd. rewrite Hd.
      assert (Ha' : adv rd r' (n - length acc)) by (apply (adv_min _ _ _ _ Ha); rewrite Hd; lia).
      rewrite (firstn_all2 (n := n) (acc ++ bs)) by (rewrite app_length; lia).
      destruct (Nat.leb n (length (acc ++ bs))); (do 2 (split; [reflexivity|])); exact Ha'.
    + specialize (IH r' n (acc ++ bs) ltac:(rewrite app_length; lia)).
      destruct (F f r' n (acc ++ bs)) as [[[bs' e'] rd'']|].
      * destruct IH as (-> & -> & Hadv). rewrite <- app_assoc, <- Hd, (adv_term _ _ _ Ha). do 2 (split; [reflexivity|]).
        replace (n - length acc) with (length bs + (n - length (acc ++ bs))) by (rewrite app_length; lia).
        eapply adv_trans; eassumption.
      * specialize (Hn Hk (or_introl eq_refl)). unfold wf in *. lia.
Qed.

Lemma io_read_full_spec fuel rd n :
  match io_read_full fuel rd n [] with
  | OutOfFuel => ~ wf rd fuel
  | Done (bs, e, rd') => bs = firstn n (rd_data rd) /\ e = rf_err n (rd_data rd) (rd_term rd) /\ adv rd rd' n
  end.
Proof.
  pose proof (read_loop_spec io_read_full (fun k => k)
                (fun t data => match t with TFault => RFault | TEOF => match data with [] => REOF | _ => RUnexpectedEOF end end)
                ltac:(lia) ltac:(intros [|f]; reflexivity) fuel rd n [] (Nat.le_0_l n)) as H.
  rewrite Nat.sub_0_r in H. exact H.
Qed.

Lemma COPYBUF_pos : 1 <= COPYBUF.
Proof. unfold COPYBUF. apply Nat.lt_0_succ. Qed.

Lemma io_copy_n_spec fuel rd n :
  match io_copy_n fuel rd n [] with
  | OutOfFuel => ~ wf rd fuel
  | Done (bs, e, rd') => bs = firstn n (rd_data rd) /\ e = cp_err n (rd_data rd) (rd_term rd) /\ adv rd rd' n
  end.
Proof.
  pose proof COPYBUF_pos.
  pose proof (read_loop_spec io_copy_n (Nat.min COPYBUF) (fun t _ => match t with TFault => RFault | TEOF => REOF end)
                ltac:(lia) ltac:(intros [|f]; reflexivity) fuel rd n [] (Nat.le_0_l n)) as H0.
  rewrite Nat.sub_0_r in H0. exact H0.
Qed.

Inductive a_take_view (k : nat) (x : ast) : list N * ast + ioerr -> Prop :=
| a_take_some : k <= a_limit x - a_n x -> k <= length (a_rest x) ->
    a_take_view k x (inl (firstn k (a_rest x), mk_ast (skipn k (a_rest x)) (a_term x) (a_n x + k) (a_limit x)))
| a_take_none : a_limit x - a_n x < k \/ length (a_rest x) < k ->
    a_take_view k x (inr (if Nat.leb (a_limit x - a_n x) (length (a_rest x)) then IOBeyond else noEOF (a_term x))).

Lemma a_take_spec k x : a_take_view k x (a_take k x).
Proof.
  unfold a_take. destruct (Nat.leb_spec k (Nat.min (a_limit x - a_n x) (length (a_rest x)))) as [L|L]; [left; lia|].
  generalize (a_take_none k x ltac:(lia)). now destruct (Nat.leb (a_limit x - a_n x) (length (a_rest x))).
Qed.

Ltac take_cases H1 H2 :=
  match goal with |- context [a_take ?k ?x] => destruct (a_take_spec k x) as [H1 H2|_] end.

Lemma run_a_invariant {S E A} (P : ast -> Prop) :
  (forall k x, P x -> k <= a_limit x - a_n x -> k <= length (a_rest x) ->
               P (mk_ast (skipn k (a_rest x)) (a_term x) (a_n x + k) (a_limit x))) ->
  forall (p : prog S E A) x s, P x ->
  match run_a p x s with
  | ROk _ x' _ | RFail _ x' _ => P x'
  | RIOErr e x' _ => P x' /\ e = (if Nat.leb (a_limit x' - a_n x') (length (a_rest x')) then IOBeyond else noEOF (a_term x'))
  | RPanic _ => True
  | ROutOfFuel => False
  end.
Proof.
  intros Hstep. induction p as [a|e|w|k IH|n k IH|k IH|k IH|s' k IH]; intros x s HP; cbn [run_a];
    try exact HP; try exact I; try (apply IH; exact HP).
  all: take_cases H1 H2; [apply IH; apply Hstep; assumption|split; [exact HP|reflexivity]].
Qed.

Lemma run_a_inv {S E A} : forall (p : prog S E A) a s,
  match run_a p a s with
  | ROk _ a' _ | RFail _ a' _ | RIOErr _ a' _ => a_limit a' = a_limit a /\ a_term a' = a_term a
  | _ => True
  end.
Proof.
  intros p a s.
  pose proof (run_a_invariant (fun x => a_limit x = a_limit a /\ a_term x = a_term a) (fun k x H _ _ => H) p a s (conj eq_refl eq_refl)) as H.
  destruct (run_a p a s); try exact I; [exact H|exact H|exact (proj1 H)].
Qed.

Lemma run_a_bind {S E A B} : forall (p : prog S E A) (f : A -> prog S E B) x s,
  run_a (bind p f) x s =
  match run_a p x s with
  | ROk a x' s' => run_a (f a) x' s'
  | RFail e x' s' => RFail e x' s'
  | RIOErr e x' s' => RIOErr e x' s'
  | RPanic w => RPanic w
  | ROutOfFuel => ROutOfFuel
  end.
Proof.
  induction p as [a|e|w|k IH|n k IH|k IH|k IH|s' k IH]; intros f x s; cbn [bind run_a]; try reflexivity; try apply IH.
  - destruct (a_take 1 x) as [[l x']|e]; [apply IH|reflexivity].
  - destruct (a_take n x) as [[l x']|e]; [apply IH|reflexivity].
Qed.

Lemma a_take_ok_intro k rest t n lim : k <= lim - n -> k <= length rest ->
  a_take k (mk_ast rest t n lim) = inl (firstn k rest, mk_ast (skipn k rest) t (n + k) lim).
Proof. intros H1 H2. destruct (a_take_spec k (mk_ast rest t n lim)) as [_ _|H]; [reflexivity|cbn in H; lia]. Qed.

(* x' is a state that a run from mk_ast rest t n lim can reach *)
Record prefix_ok (rest : list N) (t : term) (n lim : nat) (x' : ast) : Prop := {
  po_from : n <= a_n x';
  po_len : a_n x' - n <= length rest;
  po_to : a_n x' <= Nat.max n lim;
  po_rest : a_rest x' = skipn (a_n x' - n) rest;
  po_limit : a_limit x' = lim;
  po_term : a_term x' = t
}.

Lemma prefix_ok_take rest t n lim k x : prefix_ok rest t n lim x -> k <= a_limit x - a_n x -> k <= length (a_rest x) ->
  prefix_ok rest t n lim (mk_ast (skipn k (a_rest x)) (a_term x) (a_n x + k) (a_limit x)).
Proof.
  intros [I1 I2 I3 I4 I5 I6] H1 H2. rewrite I4, skipn_length in H2.
  constructor; cbn [a_rest a_term a_n a_limit]; try lia; try assumption.
  rewrite I4, skipn_skipn_add. f_equal. lia.
Qed.

Lemma run_a_prefix {S E A} : forall (p : prog S E A) rest t n lim s,
  match run_a p (mk_ast rest t n lim) s with
  | ROk _ x' _ | RFail _ x' _ => prefix_ok rest t n lim x'
  | _ => True
  end.
Proof.
  intros p rest t n lim s.
  assert (H0 : prefix_ok rest t n lim (mk_ast rest t n lim))
    by (constructor; cbn [a_rest a_term a_n a_limit]; rewrite ?Nat.sub_diag; try reflexivity; lia).
  pose proof (run_a_invariant _ (prefix_ok_take rest t n lim) p _ s H0) as H.
  destruct (run_a p (mk_ast rest t n lim) s); try exact I; exact H.
Qed.

(* the prefix condition on the replacement input, after k bytes were taken *)
Lemma ext_step (rest rest' : list N) n k m :
  n + k <= m -> firstn (m - n) rest' = firstn (m - n) rest -> m - n <= length rest' ->
  k <= length rest' /\ firstn k rest' = firstn k rest /\
  firstn (m - (n + k)) (skipn k rest') = firstn (m - (n + k)) (skipn k rest) /\
  m - (n + k) <= length (skipn k rest') /\
  skipn (m - (n + k)) (skipn k rest') = skipn (m - n) rest'.
Proof.
  intros Hm Hf Hl. split; [lia|]. split; [|split; [|split]].
  - assert (H : firstn k (firstn (m - n) rest') = firstn k (firstn (m - n) rest)) by (rewrite Hf; reflexivity).
    rewrite !firstn_firstn in H. rewrite Nat.min_l in H by lia. exact H.
  - rewrite !firstn_skipn_comm. replace (k + (m - (n + k))) with (m - n) by lia. rewrite Hf. reflexivity.
  - rewrite skipn_length. lia.
  - rewrite skipn_skipn_add. f_equal. lia.
Qed.

Lemma run_a_ext {S E A} : forall (p : prog S E A) rest t n lim s r, run_a p (mk_ast rest t n lim) s = r ->
  match r with
  | ROk a x' s' =>
      forall rest' t', firstn (a_n x' - n) rest' = firstn (a_n x' - n) rest -> a_n x' - n <= length rest' ->
      run_a p (mk_ast rest' t' n lim) s = ROk a (mk_ast (skipn (a_n x' - n) rest') t' (a_n x') lim) s'
  | RFail e x' s' =>
      forall rest' t', firstn (a_n x' - n) rest' = firstn (a_n x' - n) rest -> a_n x' - n <= length rest' ->
      run_a p (mk_ast rest' t' n lim) s = RFail e (mk_ast (skipn (a_n x' - n) rest') t' (a_n x') lim) s'
  | _ => True
  end.
Proof.
  induction p as [x|e|w|k IH|n0 k IH|k IH|k IH|s' k IH]; intros rest t n lim s r; cbn [run_a]; try apply IH.
  1-3: intros <-; try exact I; cbn [a_n]; intros rest' t' _ _; rewrite Nat.sub_diag; reflexivity.
  all: take_cases H1 H2; [|intros <-; exact I]; cbn [a_rest a_term a_n a_limit] in *; intros Er.
  all: epose proof (run_a_prefix _ _ _ _ _ _) as HP; rewrite Er in HP; specialize (IH _ _ _ _ _ _ _ Er).
  all: destruct r as [a x' s1|e x' s1|e x' s1|w|]; try exact I; intros rest' t' Hf Hl.
  all: destruct (ext_step rest rest' n _ (a_n x') (po_from _ _ _ _ _ HP) Hf Hl) as (E1 & E2 & E3 & E4 & E5).
  all: rewrite (a_take_ok_intro _ rest' t' n lim H1 E1), E2, (IH (skipn _ rest') t' E3 E4), E5; reflexivity.
Qed.

Lemma run_a_ext_ok {S E A} : forall (p : prog S E A) rest t n lim s a x' s',
  run_a p (mk_ast rest t n lim) s = ROk a x' s' ->
  forall rest' t', firstn (a_n x' - n) rest' = firstn (a_n x' - n) rest -> a_n x' - n <= length rest' ->
  run_a p (mk_ast rest' t' n lim) s = ROk a (mk_ast (skipn (a_n x' - n) rest') t' (a_n x') lim) s'.
Proof. intros p rest t n lim s a x' s' H. exact (run_a_ext p rest t n lim s _ H). Qed.

Lemma run_a_ext_fail {S E A} : forall (p : prog S E A) rest t n lim s e x' s',
  run_a p (mk_ast rest t n lim) s = RFail e x' s' ->
  forall rest' t', firstn (a_n x' - n) rest' = firstn (a_n x' - n) rest -> a_n x' - n <= length rest' ->
  run_a p (mk_ast rest' t' n lim) s = RFail e (mk_ast (skipn (a_n x' - n) rest') t' (a_n x') lim) s'.
Proof. intros p rest t n lim s e x' s' H. exact (run_a_ext p rest t n lim s _ H). Qed.

Lemma run_a_cut {S E A} : forall (p : prog S E A) rest t n lim s k t',
  match run_a p (mk_ast (firstn k rest) t' n lim) s with
  | RIOErr _ _ _ => True
  | ROk a x' s' => exists x, run_a p (mk_ast rest t n lim) s = ROk a x s' /\ a_n x = a_n x'
  | RFail e x' s' => exists x, run_a p (mk_ast rest t n lim) s = RFail e x s' /\ a_n x = a_n x'
  | RPanic w => run_a p (mk_ast rest t n lim) s = RPanic w
  | ROutOfFuel => False
  end.
Proof.
  induction p as [x|e|w|kk IH|n0 kk IH|kk IH|kk IH|s0 kk IH]; intros rest t n lim s k t'; cbn [run_a]; try apply IH.
  1,2: eexists; split; reflexivity.
  1: reflexivity.
  all: take_cases H1 H2; [|exact I].
  all: cbn [a_rest a_term a_n a_limit] in *; rewrite firstn_length in H2.
  all: rewrite (a_take_ok_intro _ rest t n lim H1 ltac:(lia)), firstn_firstn, Nat.min_l, skipn_firstn_comm by lia; apply IH.
Qed.

Lemma run_a_firstn {S E A} (p : prog S E A) rest t n lim s y x s' : run_a p (mk_ast rest t n lim) s = ROk y x s' ->
  forall k t', k < a_n x - n -> exists e x' s'', run_a p (mk_ast (firstn k rest) t' n lim) s = RIOErr e x' s''.
Proof.
  intros Hr k t' Hk. pose proof (run_a_cut p rest t n lim s k t') as HC. pose proof (run_a_prefix p (firstn k rest) t' n lim s) as HP'.
  destruct (run_a p (mk_ast (firstn k rest) t' n lim) s) as [y' x' s1|e x' s1|e x' s1|w|]; [| | |congruence|contradiction].
  - exfalso. destruct HC as (x0 & HC & Hn). rewrite Hr in HC. inversion HC; subst.
    pose proof (po_len _ _ _ _ _ HP') as Q2. rewrite firstn_length in Q2. lia.
  - destruct HC as (x0 & HC & _). congruence.
  - eauto.
Qed.

Lemma run_a_ioerr {S E A} : forall (p : prog S E A) rest t n lim s e x' s',
  run_a p (mk_ast rest t n lim) s = RIOErr e x' s' ->
  e = (if Nat.leb (lim - a_n x') (length (a_rest x')) then IOBeyond else noEOF t).
Proof.
  intros p rest t n lim s e x' s' H.
  pose proof (run_a_invariant (fun x => a_limit x = lim /\ a_term x = t) (fun k x Hx _ _ => Hx) p (mk_ast rest t n lim) s
                (conj eq_refl eq_refl)) as Hi.
  rewrite H in Hi. destruct Hi as [[<- <-] ->]. reflexivity.
Qed.

Print Assumptions io_read_full_spec.
Print Assumptions io_copy_n_spec.
Print Assumptions run_a_ext_ok.
