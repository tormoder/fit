(* C04: which errors the buffered part of the decoder can fail with.  [leaves Q p]: every Fail leaf of
   the program tree p carries an error satisfying Q.  Used to show that an IntegrityError returned by
   Decode can only come from the header stage or from checkCRC, never from record parsing. *)
From Coq Require Import NArith ZArith List Bool.
From FitV Require Import Model.Values Model.Bytes Model.Base Model.Profile Model.Reflect Model.Crc Model.IO Model.Header
  Model.Components Model.Route Model.Decode Gen.Consts.
Import ListNotations.
Local Open Scope N_scope.

Inductive leaves {S E A : Type} (Q : E -> Prop) : prog S E A -> Prop :=
| lv_ret : forall a, leaves Q (Ret a)
| lv_fail : forall e, Q e -> leaves Q (Fail e)
| lv_panic : forall w, leaves Q (Panic w)
| lv_rb : forall k, (forall b, leaves Q (k b)) -> leaves Q (ReadByte k)
| lv_rf : forall n k, (forall l, leaves Q (k l)) -> leaves Q (ReadFull n k)
| lv_more : forall k, (forall m, leaves Q (k m)) -> leaves Q (More k)
| lv_get : forall k, (forall s, leaves Q (k s)) -> leaves Q (Get k)
| lv_put : forall s k, leaves Q k -> leaves Q (Put s k).

Lemma leaves_bind {S E A B} (Q : E -> Prop) (p : prog S E A) (f : A -> prog S E B) :
  leaves Q p -> (forall a, leaves Q (f a)) -> leaves Q (bind p f).
Proof.
  intros Hp Hf. induction Hp; cbn [bind]; try (constructor; auto; fail).
  - apply Hf.
Qed.

Lemma run_a_leaves {S E A} (Q : E -> Prop) (p : prog S E A) : leaves Q p ->
  forall x s e x' s', run_a p x s = RFail e x' s' -> Q e.
Proof.
  induction 1 as [a|e He|w|k Hk IH|n k Hk IH|k Hk IH|k Hk IH|s0 k Hk IH]; intros x s e' x' s' Hr; cbn [run_a] in Hr.
  - discriminate.
  - now inversion Hr; subst.
  - discriminate.
  - destruct (a_take 1 x) as [[l x1]|e1]; try discriminate. eapply IH; eassumption.
  - destruct (a_take n x) as [[l x1]|e1]; try discriminate. eapply IH; eassumption.
  - eapply IH; eassumption.
  - eapply IH; eassumption.
  - eapply IH; eassumption.
Qed.

Definition not_integrity (e : err) : Prop := is_integrity e = false.

(* syntactic decomposition: never unfolds a named sub-program, whose lemma is looked up in the hint database lv *)
Create HintDb lv discriminated.
Ltac lv_step :=
  lazymatch goal with
  | |- leaves _ (Ret _) => apply lv_ret
  | |- leaves _ (Panic _) => apply lv_panic
  | |- leaves _ (@Decode.panic _ _) => apply lv_panic
  | |- leaves _ (Fail _) => apply lv_fail; reflexivity
  | |- leaves _ (@Decode.fail _ _) => apply lv_fail; reflexivity
  | |- leaves _ (ReadByte _) => apply lv_rb; intros
  | |- leaves _ (ReadFull _ _) => apply lv_rf; intros
  | |- leaves _ (More _) => apply lv_more; intros
  | |- leaves _ (Get _) => apply lv_get; intros
  | |- leaves _ (Put _ _) => apply lv_put
  | |- leaves _ (bind _ _) => apply leaves_bind; [|intros]
  | |- leaves _ (if ?b then _ else _) => destruct b
  | |- leaves _ (match ?x with _ => _ end) => destruct x
  | |- leaves _ (let _ := _ in _) => cbv zeta
  | |- _ => solve [auto 1 with lv nocore]
  end.
Ltac lv := repeat lv_step.

Lemma lv_read_byte : leaves not_integrity read_byte. Proof. unfold read_byte. lv. Qed.
Lemma lv_read_full n : leaves not_integrity (read_full n). Proof. unfold read_full. lv. Qed.
Lemma lv_get_st : leaves not_integrity get_st. Proof. unfold get_st. lv. Qed.
Lemma lv_put_st s : leaves not_integrity (put_st s). Proof. unfold put_st. lv. Qed.
#[local] Hint Resolve lv_read_byte lv_read_full lv_get_st lv_put_st : lv.

Lemma lv_parse_definition_message b : leaves not_integrity (parse_definition_message b).
Proof. unfold parse_definition_message. cbv zeta. lv. Qed.

Lemma lv_parse_one_field o dm known fd msgv : leaves not_integrity (parse_one_field o dm known fd msgv).
Proof. unfold parse_one_field. cbv zeta. lv. Qed.
#[local] Hint Resolve lv_parse_one_field : lv.

Lemma lv_parse_fields o dm known : forall fds msgv, leaves not_integrity (parse_fields o dm known fds msgv).
Proof. induction fds as [|fd r IH]; intros msgv; cbn [parse_fields]; lv. Qed.

Lemma lv_skip_dev_fields : forall devs, leaves not_integrity (skip_dev_fields devs).
Proof. induction devs as [|[[a sz] idx] r IH]; cbn [skip_dev_fields]; lv. Qed.
#[local] Hint Resolve lv_parse_fields lv_skip_dev_fields : lv.

Lemma lv_parse_data_fields o dm known msgv : leaves not_integrity (parse_data_fields o dm known msgv).
Proof. unfold parse_data_fields. lv. Qed.
#[local] Hint Resolve lv_parse_data_fields : lv.

Lemma lv_parse_data_message o b compressed : leaves not_integrity (parse_data_message o b compressed).
Proof. unfold parse_data_message. cbv zeta. lv. Qed.

Lemma lv_add_msg m : leaves not_integrity (add_msg m).
Proof. unfold add_msg. lv. Qed.

Lemma lv_set_def dm : leaves not_integrity (set_def dm).
Proof. unfold set_def. lv. Qed.
#[local] Hint Resolve lv_parse_definition_message lv_parse_data_message lv_add_msg lv_set_def : lv.

Lemma lv_parse_file_id_msg o : leaves not_integrity (parse_file_id_msg o).
Proof. unfold parse_file_id_msg. lv. Qed.

Lemma lv_parse_record o : leaves not_integrity (parse_record o).
Proof. unfold parse_record. lv. Qed.
#[local] Hint Resolve lv_parse_record : lv.

Lemma lv_decode_file_data o : forall fuel, leaves not_integrity (decode_file_data o fuel).
Proof. induction fuel as [|f IH]; cbn [decode_file_data]; lv. Qed.

Lemma lv_do_init : leaves not_integrity do_init.
Proof. unfold do_init. lv. Qed.
#[local] Hint Resolve lv_parse_file_id_msg lv_decode_file_data lv_do_init : lv.

Theorem lv_data_prog o fid fuel : leaves not_integrity (data_prog o fid fuel).
Proof. unfold data_prog. lv. Qed.
