(* C08/C09: the decoder (Model/Decode.v) run from two states of the package-level
   accumulators, as an instance of Proofs/DecodeSim.v: equal options, counters compared;
   [frel] says what the two Files and accumulator states share at every point of the run.
   [decode_rel] and [decode_chained_rel] are the statements for whole calls. *)
From Coq Require Import NArith ZArith List Bool String Lia.
From FitV Require Import Model.Values Model.Bytes Model.Base Model.Profile Model.Reflect Model.Crc Model.IO
  Model.Header Model.Components Model.Route Model.Decode Model.Shared Gen.Consts
  Proofs.RouteProofs Proofs.DecodeBuffered Proofs.C08Sim Proofs.DecodeSim Proofs.C08Route.
Import ListNotations.
Local Open Scope N_scope.

(* The two Files may differ in record messages; the accumulators are related as in
   Proofs/C08Route.v.  gi1, gi2: the accumulators at the start of the two runs. *)
Definition frel (gi1 gi2 : gstate) (f1 : file) (g1 : gstate) (f2 : file) (g2 : gstate) : Prop :=
  file_sim f1 f2 /\ acc_rel gi1 gi2 g1 g2 (f1 = f2).

Lemma frel_ok gi1 gi2 : sink_ok (frel gi1 gi2).
Proof.
  split; [|split].
  - intros f1 g1 f2 g2 m [HF HA]. pose proof HA as (W1 & W2 & _). pose proof (file_add_rel _ _ _ _ m HF W1 W2) as K.
    destruct (file_add f1 g1 m), (file_add f2 g2 m); try contradiction; [|exact K].
    destruct K as (A & B). split; [exact A|]. apply (acc_rel_step _ _ _ _ _ _ _ _ _ HA B). auto.
  - intros f1 g1 f2 g2 [HF HA]. pose proof (file_init_rel _ _ HF) as K.
    destruct (file_init f1), (file_init f2); try contradiction; [|exact I].
    destruct K as [K1 K2]. split; [exact K1|]. apply (acc_rel_impl _ _ _ _ _ _ HA). exact K2.
  - intros f1 g1 f2 g2 c [HF HA]. split.
    + destruct HF as (A & B & C & D & E & F). unfold file_sim; simpl. auto 10.
    + apply (acc_rel_impl _ _ _ _ _ _ HA). intros ->. reflexivity.
Qed.

Definition tout_rel {A} (P : A -> A -> Prop) (t1 t2 : tout A) : Prop :=
  match t1, t2 with
  | TDone a, TDone b => P a b
  | TPanic w1, TPanic w2 => w1 = w2
  | TOutOfFuel, TOutOfFuel => True
  | _, _ => False
  end.

Definition dres_rel (gi1 gi2 : gstate) (r1 r2 : dres) : Prop :=
  dr_err r1 = dr_err r2 /\ dr_hdr r1 = dr_hdr r2 /\ dr_rd r1 = dr_rd r2 /\ dr_quirks r1 = dr_quirks r2 /\
  ofile_sim (dr_file r1) (dr_file r2) /\ gwf (dr_g r1) /\ gwf (dr_g r2) /\
  (g_dist (dr_g r1) = None -> g_dist gi1 = None /\ dr_file r1 = dr_file r2 /\ g_dist (dr_g r2) = g_dist gi2) /\
  (dr_g r1 = g_init -> gi1 = g_init /\ dr_file r1 = dr_file r2 /\ dr_g r2 = gi2).

Lemma file_sim_refl f : file_sim f f.
Proof. unfold file_sim. repeat split; try reflexivity. apply slots_sim_refl. Qed.

Lemma dres_rel_nostate g1 g2 e h f rd : gwf g1 -> gwf g2 ->
  dres_rel g1 g2 (mk_dres e h f rd g1 []) (mk_dres e h f rd g2 []).
Proof.
  intros W1 W2. do 4 (split; [reflexivity|]). split; [|apply acc_rel_start; auto].
  destruct f; [apply file_sim_refl|exact I].
Qed.

Lemma dres_of_state o gi1 gi2 s1 s2 e h rd : prel True (frel gi1 gi2) s1 s2 ->
  dres_rel gi1 gi2 (mk_dres e h (Some (finalize_unknown o s1)) rd (ds_g s1) (ds_quirks s1))
                   (mk_dres e h (Some (finalize_unknown o s2)) rd (ds_g s2) (ds_quirks s2)).
Proof.
  intros He. destruct (pr_counts He I) as [Uf Um], (pr_sink He) as [HF HA].
  do 3 (split; [reflexivity|]). split; [exact (pr_quirks He)|]. split.
  - destruct HF as (A & B & C & D & E & F). unfold finalize_unknown; simpl. unfold file_sim; simpl. rewrite E, F, Uf, Um. auto 10.
  - apply (acc_rel_impl _ _ _ _ _ _ HA). unfold finalize_unknown; simpl. intros <-. rewrite Uf, Um. reflexivity.
Qed.

Theorem decode_rel o md g1 g2 rd fuel : gwf g1 -> gwf g2 ->
  tout_rel (dres_rel g1 g2) (decode o md g1 rd fuel) (decode o md g2 rd fuel).
Proof.
  intros W1 W2. apply (decode_sim True (frel g1 g2) (dres_rel g1 g2)).
  - reflexivity.
  - apply frel_ok.
  - intro f. split; [apply file_sim_refl|apply acc_rel_start; auto].
  - intros. apply dres_rel_nostate; assumption.
  - intros s s' e h r. apply dres_of_state.
Qed.

Definition cres_rel (gi1 gi2 : gstate) (acc1 acc2 : list file) (r1 r2 : Decode.cres) : Prop :=
  cr_err r1 = cr_err r2 /\ cr_rd r1 = cr_rd r2 /\ cr_quirks r1 = cr_quirks r2 /\
  Forall2 file_sim (cr_files r1) (cr_files r2) /\
  acc_rel gi1 gi2 (cr_g r1) (cr_g r2) (acc1 = acc2 -> cr_files r1 = cr_files r2).

Theorem decode_chained_rel o fuel : forall files g1 g2 rd i acc1 acc2 q, gwf g1 -> gwf g2 -> Forall2 file_sim acc1 acc2 ->
  tout_rel (cres_rel g1 g2 acc1 acc2) (decode_chained o g1 rd fuel i files acc1 q) (decode_chained o g2 rd fuel i files acc2 q).
Proof.
  induction files as [|k IH]; intros g1 g2 rd i acc1 acc2 q W1 W2 HA; cbn [decode_chained]; [exact I|].
  pose proof (decode_rel o MFull g1 g2 rd fuel W1 W2) as K.
  destruct (decode o MFull g1 rd fuel) as [r1|w1|], (decode o MFull g2 rd fuel) as [r2|w2|]; try contradiction; try exact K.
  destruct K as (Ke & Kh & Kr & Kq & Kf & T). rewrite <- Ke, <- Kr, <- Kq.
  set (acc1' := match dr_file r1 with Some f => acc1 ++ [f] | None => acc1 end).
  set (acc2' := match dr_file r2 with Some f => acc2 ++ [f] | None => acc2 end).
  assert (HA' : Forall2 file_sim acc1' acc2').
  { unfold acc1', acc2'. destruct (dr_file r1), (dr_file r2); try contradiction; [|exact HA].
    apply Forall2_app; [exact HA|constructor; [exact Kf|constructor]]. }
  assert (Hdone : forall e a1 a2, Forall2 file_sim a1 a2 -> (acc1 = acc2 -> dr_file r1 = dr_file r2 -> a1 = a2) ->
            cres_rel g1 g2 acc1 acc2 (mk_cres e a1 (dr_rd r1) (dr_g r1) (q ++ dr_quirks r1))
                                     (mk_cres e a2 (dr_rd r1) (dr_g r2) (q ++ dr_quirks r1))).
  { intros e a1 a2 Ha He. do 3 (split; [reflexivity|]). split; [exact Ha|]. apply (acc_rel_impl _ _ _ _ _ _ T). auto. }
  assert (HE : acc1 = acc2 -> dr_file r1 = dr_file r2 -> acc1' = acc2').
  { unfold acc1', acc2'. intros -> ->. reflexivity. }
  destruct (dr_err r1) as [e|].
  - destruct e; try (apply Hdone; assumption). destruct i; apply Hdone; auto.
  - specialize (IH (dr_g r1) (dr_g r2) (dr_rd r1) (S i) _ _ (q ++ dr_quirks r1) (proj1 T) (proj1 (proj2 T)) HA').
    destruct (decode_chained o (dr_g r1) _ _ _ _ _ _) as [c1|w1|], (decode_chained o (dr_g r2) _ _ _ _ _ _) as [c2|w2|];
      try contradiction; try exact IH.
    destruct IH as (A & B & C & D & E). do 4 (split; [assumption|]).
    apply (acc_rel_step _ _ _ _ _ _ _ _ _ T E). auto.
Qed.
