(* C07: the comparator's normal form is idempotent (the fixpoint clause compares
   normal forms), and the re-encoding defect on strings as a witness. *)
From Coq Require Import NArith ZArith List Bool Lia String.
From FitV Require Import Model.Values Model.Bytes Model.Base Model.Profile Model.Components Model.Route Model.Encode
  Model.Decode Spec.Grammar Spec.RoundTrip Proofs.Util.
Import ListNotations.
Local Open Scope N_scope.

Lemma strip_trailing_idem bt l : strip_trailing bt (strip_trailing bt l) = strip_trailing bt l.
Proof.
  induction l as [|x r IH]; [reflexivity|]. cbn [strip_trailing].
  destruct (strip_trailing bt r) as [|y r'] eqn:E.
  - destruct (is_inv bt x) eqn:Ei; [reflexivity|]. cbn [strip_trailing]. now rewrite Ei.
  - cbn [strip_trailing]. cbn [strip_trailing] in IH. rewrite IH. reflexivity.
Qed.

Lemma norm_field_idem pf v : norm_field pf (norm_field pf v) = norm_field pf v.
Proof.
  unfold norm_field. destruct (fit_array (pf_t pf)).
  - destruct (fit_base (pf_t pf) =? base_string).
    + destruct v; reflexivity.
    + cbn [elems]. now rewrite strip_trailing_idem.
  - destruct (fit_kind (pf_t pf) =? kind_timelocal).
    + destruct v; try reflexivity. now rewrite Z.add_0_r.
    + destruct (fit_kind (pf_t pf) =? kind_timeutc); [destruct v; reflexivity|reflexivity].
Qed.

Lemma trunc_field_idem pf v : trunc_field pf (trunc_field pf v) = trunc_field pf v.
Proof.
  unfold trunc_field. destruct (fit_array (pf_t pf)).
  - destruct v; try reflexivity. now rewrite firstn_firstn, Nat.min_id.
  - destruct (fit_base (pf_t pf) =? base_string); [|reflexivity].
    destruct v; try reflexivity. now rewrite firstn_firstn, Nat.min_id.
Qed.

Lemma map_fields_idem (g : pfield -> goval -> goval) gmn :
  (forall pf v, g pf (g pf v) = g pf v) ->
  forall vals i, map_fields g gmn i (map_fields g gmn i vals) = map_fields g gmn i vals.
Proof.
  intros Hg. induction vals as [|v r IH]; intros i; [reflexivity|]. cbn [map_fields].
  rewrite IH. destruct (pfield_of_sindex gmn i); [now rewrite Hg|reflexivity].
Qed.

Theorem norm_msg_idem m : norm_msg (norm_msg m) = norm_msg m.
Proof. unfold norm_msg. cbn [m_num m_fields]. now rewrite (map_fields_idem norm_field _ norm_field_idem). Qed.

(* comparing normal forms is an equivalence on messages: reflexive here, symmetric and transitive below *)
Lemma goval_eqb_refl : forall v, goval_eqb v v = true.
Proof.
  fix IH 1. destruct v; cbn [goval_eqb]; try apply N.eqb_refl; try apply Z.eqb_refl; try reflexivity.
  - destruct (list_eq_dec N.eq_dec s s); [reflexivity|congruence].
  - rewrite Z.eqb_refl, N.eqb_refl. destruct zone; [apply Z.eqb_refl|reflexivity].
  - induction l as [|a l IHl]; [reflexivity|]. rewrite IH. exact IHl.
Qed.

Lemma forall2b_refl {A} (p : A -> A -> bool) : (forall x, p x x = true) -> forall l, forall2b p l l = true.
Proof. intros H. induction l; cbn; [reflexivity|]. now rewrite H, IHl. Qed.

Lemma msg_eqb_refl m : msg_eqb m m = true.
Proof. unfold msg_eqb. rewrite N.eqb_refl. cbn. apply forall2b_refl, goval_eqb_refl. Qed.

(* The string defect: the decoder hands out any byte string that precedes the
   first NUL; the encoder refuses what is not valid UTF-8 (and what the cut at
   the profile length leaves invalid). *)
Theorem reencode_refuted :
  exists fd buf s size, Decode.parse_fit_field false fd buf TStr = Decode.FSet (VStr s) /\ 0 < size /\
                        encode_string s size = EErr EEString.
Proof.
  exists (Decode.mk_fdef 3 2 base_string), [255; 0], [255], 20.
  split; [vm_compute; reflexivity|]. split; [reflexivity|vm_compute; reflexivity].
Qed.
