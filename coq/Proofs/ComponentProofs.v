(* C18: component expansion against the property's spec. *)
From Coq Require Import NArith ZArith List Bool String Lia Arith.
From Coq Require Import ZifyN ZifyNat ZifyBool.
From FitV Require Import Proofs.Util Model.Values Model.Bytes Model.Reflect Model.Profile Model.Components
  Spec.ComponentSpec Proofs.C18Defs Gen.Consts.
Import ListNotations.
Local Open Scope N_scope.

Fixpoint run_accum (a : accum) (vals : list N) : list N :=
  match vals with
  | [] => []
  | v :: r => let '(x, a') := accumulate a v in x :: run_accum a' r
  end.

(* a - l modulo b without leaving N: any multiple of b above l serves as the offset, and so does b once l is reduced *)
Lemma sub_mod_offset a l b c : b <> 0 -> l < b * c -> (a + b * c - l) mod b = (a + b - l mod b) mod b.
Proof.
  intros Hb Hl.
  assert (Hq : l / b < c) by now apply N.div_lt_upper_bound.
  pose proof (N.mod_lt l b Hb) as Hr. pose proof (N.div_mod l b Hb) as E.
  set (q := l / b) in *. set (r := l mod b) in *.
  destruct (N.le_exists_sub (q + 1) c) as (k & -> & _); [lia|].
  replace (a + b * (k + (q + 1)) - l) with (a + b - r + k * b) by lia.
  now apply N.mod_add.
Qed.

(* the masked 32-bit difference of the Go code is the difference modulo 2^bits *)
Lemma accumulate_delta bits last v : bits <= 32 -> last < 2 ^ 32 ->
  N.land ((v + 2 ^ 32 - last) mod 2 ^ 32) (2 ^ bits - 1) = (v + 2 ^ bits - last mod 2 ^ bits) mod 2 ^ bits.
Proof.
  intros Hb Hl. rewrite N.sub_1_r, <- N.ones_equiv, N.land_ones.
  assert (Hp : 2 ^ 32 = 2 ^ bits * 2 ^ (32 - bits)) by (rewrite <- N.pow_add_r; f_equal; lia).
  assert (Hnz : forall k, 2 ^ k <> 0) by (intros k; now apply N.pow_nonzero).
  rewrite Hp in *. rewrite mod_mul_mod by apply Hnz. now apply sub_mod_offset.
Qed.

(* the accumulator realises the rollover-corrected running sum *)
Theorem accumulate_spec : forall bits vals a, bits <= 32 -> ac_mask a = 2 ^ bits - 1 -> ac_last a < 2 ^ 32 ->
  Forall (fun v => v < 2 ^ 32) vals ->
  run_accum a vals = spec_accumulate_from bits (ac_value a) (ac_last a) vals.
Proof.
  intros bits vals. induction vals as [|v r IH]; intros a Hb Hm Hl Hv; [reflexivity|].
  inversion Hv as [|? ? Hv1 Hv2]; subst. cbn [run_accum spec_accumulate_from].
  unfold accumulate. rewrite Hm, accumulate_delta by assumption. f_equal.
  now apply IH.
Qed.

Corollary fresh_accumulator_spec : forall bits vals, bits <= 32 -> Forall (fun v => v < 2 ^ 32) vals ->
  run_accum (new_accum bits) vals = spec_accumulate bits vals.
Proof.
  intros bits vals Hb Hv. apply (accumulate_spec bits vals (new_accum bits)); [exact Hb| |reflexivity|exact Hv].
  apply N.mod_small. assert (2 ^ bits <= 2 ^ 32) by (apply N.pow_le_mono_r; lia). lia.
Qed.

(* the distance half of compressed_speed_distance loses its high nibble (finding csd_high_nibble) *)
Definition model_csd_distance_raw (b1 b2 : N) : N := N.lor (N.shiftr b1 4) ((N.shiftl b2 4) mod 256).

Theorem csd_distance_partial : forall b1 b2, b1 < 256 -> b2 < 16 -> model_csd_distance_raw b1 b2 = spec_csd_distance_raw b1 b2.
Proof.
  intros b1 b2 H1 H2. unfold model_csd_distance_raw, spec_csd_distance_raw.
  rewrite N.mod_small by (rewrite N.shiftl_mul_pow2; change (2 ^ 4) with 16; lia).
  rewrite N.shiftr_div_pow2, lor_shiftl_add by (apply N.div_lt_upper_bound; [discriminate|exact H1]).
  change (2 ^ 4) with 16. lia.
Qed.
Theorem csd_speed_spec : forall b0 b1, b0 < 256 ->
  N.lor b0 (N.shiftl (N.land b1 0x0F) 8) = spec_csd_speed b0 b1.
Proof.
  intros b0 b1 H0. unfold spec_csd_speed. rewrite lor_shiftl_add by exact H0.
  change 0x0F with (N.ones 4). rewrite N.land_ones. apply f_equal, N.mul_comm.
Qed.

Lemma set_fld_num m n v : m_num (set_fld m n v) = m_num m.
Proof. unfold set_fld. destruct (sindex_of _ _); reflexivity. Qed.
Lemma widen16_num m a b : m_num (widen16 m a b) = m_num m.
Proof. unfold widen16. destruct (_ =? _); [reflexivity|apply set_fld_num]. Qed.

Lemma expand_csd_num g m : m_num (fst (expand_csd g m)) = m_num m.
Proof. unfold expand_csd. cbv zeta. destruct (_ && _); cbn [fst]; now rewrite ?set_fld_num. Qed.
Lemma expand_cycles_num g m : m_num (fst (expand_cycles g m)) = m_num m.
Proof. unfold expand_cycles. cbv zeta. destruct (_ =? _); cbn [fst]; now rewrite ?set_fld_num. Qed.
Lemma expand_power_num g m : m_num (fst (expand_power g m)) = m_num m.
Proof. unfold expand_power. cbv zeta. destruct (_ =? _); cbn [fst]; now rewrite ?set_fld_num. Qed.
Lemma expand_record_num g m : m_num (fst (expand_record g m)) = m_num m.
Proof. unfold expand_record. cbv zeta. now rewrite expand_power_num, expand_cycles_num, expand_csd_num, !widen16_num. Qed.

Lemma expand_components_cases g m m' g' : expand_components g m = Some (m', g') ->
  (m_num m = c_MesgNumRecord /\ expand_record g m = (m', g')) \/
  (m_num m <> c_MesgNumRecord /\ g' = g /\
   In m' [expand_session_lap m; expand_event m; expand_segment_lap m; expand_segment_point m]).
Proof.
  (* equations between expanded messages are taken apart by congruence: injection and inversion
     normalise [expand_record g m] on the way *)
  unfold expand_components. cbv zeta.
  destruct (_ || _) eqn:E1; [|destruct (N.eqb_spec (m_num m) c_MesgNumRecord) as [E2|E2]]; intros H; [right|left|right].
  - split; [intros E; rewrite E in E1; discriminate E1|]. split; [congruence|left; congruence].
  - split; [assumption|congruence].
  - split; [assumption|]. revert H.
    destruct (_ =? c_MesgNumEvent); [split; [congruence|right; left; congruence]|].
    destruct (_ =? c_MesgNumSegmentLap); [split; [congruence|right; right; left; congruence]|].
    destruct (_ =? c_MesgNumSegmentPoint); [split; [congruence|right; right; right; left; congruence]|discriminate].
Qed.

Lemma expand_components_num g m m' g' : expand_components g m = Some (m', g') -> m_num m' = m_num m.
Proof.
  intros H. destruct (expand_components_cases g m m' g' H) as [[_ E]|(_ & _ & [<-|[<-|[<-|[<-|[]]]]])].
  - change m' with (fst (m', g')). rewrite <- E. apply expand_record_num.
  - unfold expand_session_lap. now rewrite !widen16_num.
  - unfold expand_event. cbv zeta.
    repeat match goal with |- context [if ?c then _ else _] => destruct c end; now rewrite ?set_fld_num.
  - unfold expand_segment_lap. now rewrite !widen16_num.
  - exact (widen16_num m _ _).
Qed.

Lemma fld_set_same m n v i : sindex_of (m_num m) n = Some i -> (i < List.length (m_fields m))%nat ->
  fld (set_fld m n v) n = v.
Proof.
  intros Hs Hl. unfold fld, set_fld. rewrite Hs. simpl. rewrite Hs. now apply nth_set_nth_eq.
Qed.
Lemma fld_set_ne m a b v : sindex_of (m_num m) a <> sindex_of (m_num m) b -> fld (set_fld m a v) b = fld m b.
Proof.
  intros Hne. unfold fld, set_fld. destruct (sindex_of (m_num m) a) as [i|]; [|reflexivity]. cbn [m_num m_fields].
  destruct (sindex_of (m_num m) b) as [j|]; [|reflexivity]. apply nth_set_nth_neq. congruence.
Qed.
Lemma set_fld_length m n v : List.length (m_fields (set_fld m n v)) = List.length (m_fields m).
Proof. unfold set_fld. destruct (sindex_of _ _); [simpl; apply set_nth_length|reflexivity]. Qed.

Theorem widen16_dst m src dst j : sindex_of (m_num m) dst = Some j -> (j < List.length (m_fields m))%nat ->
  uval (fld m src) < 65536 ->
  uval (fld (widen16 m src dst) dst) = spec_enhanced (uval (fld m src)) (uval (fld m dst)).
Proof.
  intros Hs Hl Hv. unfold widen16, spec_enhanced.
  destruct (uval (fld m src) =? 65535); [reflexivity|].
  rewrite (fld_set_same m dst _ j Hs Hl). simpl.
  change 65535 with (N.ones 16). rewrite N.land_ones. now apply N.mod_small.
Qed.

Lemma widen16_ne m s d b : sindex_of (m_num m) d <> sindex_of (m_num m) b -> fld (widen16 m s d) b = fld m b.
Proof. intros Hne. unfold widen16. destruct (_ =? _); [reflexivity|]. now apply fld_set_ne. Qed.

Lemma widen16_length m src dst : List.length (m_fields (widen16 m src dst)) = List.length (m_fields m).
Proof. unfold widen16. destruct (_ =? _); [reflexivity|apply set_fld_length]. Qed.

Lemma set_fld_shape m a v : msg_shape m -> msg_shape (set_fld m a v).
Proof. unfold msg_shape. intros H. now rewrite set_fld_length, set_fld_num. Qed.
Lemma widen16_shape m s d : msg_shape m -> msg_shape (widen16 m s d).
Proof. unfold msg_shape. intros H. now rewrite widen16_length, widen16_num. Qed.

(* event: data16 -> data, sport_point -> score / opponent_score, gear change -> four bytes *)
Theorem event_bit_slices : forall d,
  N.land d 0xFFFF = spec_score d /\ N.land (N.shiftr d 16) 0xFFFF = spec_opponent_score d /\
  N.land d 0xFF = spec_gear_byte d 0 /\ N.land (N.shiftr d 8) 0xFF = spec_gear_byte d 1 /\
  N.land (N.shiftr d 16) 0xFF = spec_gear_byte d 2 /\ N.land (N.shiftr d 24) 0xFF = spec_gear_byte d 3.
Proof.
  intros d. unfold spec_score, spec_opponent_score, spec_gear_byte.
  change 0xFFFF with (N.ones 16). change 0xFF with (N.ones 8).
  rewrite !N.land_ones, !N.shiftr_div_pow2. repeat split; try reflexivity.
  now rewrite N.pow_0_r, N.div_1_r.
Qed.
