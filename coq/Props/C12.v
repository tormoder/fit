(* C12 -- Timestamps follow the FIT time rules, including compressed headers. *)
From Coq Require Import NArith ZArith List Bool.
From FitV Require Import Model.Values Model.Bytes Model.Base Model.Profile Model.IO Model.Route Model.Decode Gen.Consts
  Spec.FitSyntax Spec.RouteSpec Proofs.DecodeLemmas
  Proofs.StreamDenoteBase Proofs.StreamDenoteDefs Proofs.StreamDenoteLoop Proofs.StreamDenoteSkip Proofs.StreamDenoteMain
  Proofs.StreamDenoteWitness.
Import ListNotations.
Local Open Scope N_scope.

(* date_time: 1989-12-31T00:00:00Z plus the stored seconds (VTime is relative to that epoch);
   0xFFFFFFFF leaves the field at the invalid base time *)
Theorem C12_date_time_value : forall u, decode_date_time u = VTime (Z.of_N u) 0 None.
Proof. reflexivity. Qed.
Theorem C12_invalid_time_untouched : forall s kind num, parse_time_stamp s 0xFFFFFFFF kind num = (None, s).
Proof. exact invalid_time_untouched. Qed.

(* the compressed-timestamp rule, for all 2^32 references and all 32 offsets: the latest timestamp advanced by
   the 5-bit offset with 32-second rollover *)
Theorem C12_rollover_rule : forall r off, off < 32 ->
  let r' := r + (off + 32 - r mod 32) mod 32 in r' mod 32 = off /\ r <= r' < r + 32.
Proof. exact rollover_rule. Qed.
Print Assumptions C12_rollover_rule.

(* the decoder steps by (off + 32 - lastTimeOffset) mod 32 in uint32 (Model/Decode.v, parse_data_message): under its
   invariant lastTimeOffset = timestamp mod 32, which every explicit timestamp establishes (re-basing) and every
   compressed step preserves (accumulation over runs), that is r' of the rule reduced mod 2^32 *)
Theorem C12_model_step_is_rule : forall ts last off, last = ts mod 32 ->
  (ts + (off + 32 - last) mod 32) mod 2 ^ 32 = (ts + (off + 32 - ts mod 32) mod 32) mod 2 ^ 32.
Proof. intros; subst; reflexivity. Qed.
Theorem C12_explicit_timestamp_invariant : forall u, N.land u c_compressedTimeMask = u mod 32.
Proof. exact explicit_timestamp_invariant. Qed.
Theorem C12_compressed_step_invariant : forall ts off, off < 32 -> ts + 32 < 2 ^ 32 ->
  ((ts + (off + 32 - ts mod 32) mod 32) mod 2 ^ 32) mod 32 = off.
Proof. intros ts off Ho Hts. rewrite (N.mod_small (ts + _)) by Lia.lia. Lia.lia. Qed.

(* local_date_time with a usable reference (a timestamp field has been seen, d.hasTimestamp, and it is an absolute
   instant, >= systemTimeMarker): the reference UTC instant in a fixed zone of offset local - UTC *)
Theorem C12_local_time_with_reference : forall s u num, u <> 0xFFFFFFFF -> ds_hasts s = true -> c_systemTimeMarker <= ds_ts s ->
  parse_time_stamp s u kind_timelocal num = (Some (VTime (Z.of_N (ds_ts s)) 0 (Some (Z.of_N u - Z.of_N (ds_ts s))%Z)), s).
Proof. exact local_time_with_reference. Qed.

(* FULL STATEMENT (proved): without a usable reference (none yet, or a power-on-relative one below
   systemTimeMarker) the local value is kept with offset 0 AND the decoder state is untouched: the reference stays
   what it was.  Before the library's repair ac9b0b0 the code made the local value the reference (defect
   local_sets_reference). *)
Theorem C12_local_time_without_reference : forall s u num, u <> 0xFFFFFFFF ->
  (ds_hasts s = false \/ ds_ts s < c_systemTimeMarker) ->
  parse_time_stamp s u kind_timelocal num = (Some (VTime (Z.of_N u) 0 (Some 0%Z)), s).
Proof. exact local_time_without_reference. Qed.

(* compressed_time_spec on whole streams.  The time rules are the reference semantics' (Spec/FitSyntax.v:
   denote_data, denote_fields); the decoder follows them record by record: *)

(* one record of any kind -- in particular a compressed-timestamp record in any decoder state related to the
   reference state -- is decoded to exactly what [denote_record] says, including the new time reference
   (Inv contains: d.hasTimestamp <-> a reference exists, and then d.timestamp = reference,
   d.lastTimeOffset = reference mod 32; a reference 0 is a reference like any other) *)
Theorem C12_record_step : forall o pre fb gb ft s ss r ss' tl t n lim,
  Inv o pre fb gb ft s ss -> rec_wf r = true -> denote_record ss r = Some ss' ->
  (n + List.length (ser_record r) <= lim)%nat ->
  exists s',
    run_a (parse_record o) (ast_at (ser_record r) tl t n lim) s =
      ROk tt (ast_at [] tl t (n + List.length (ser_record r)) lim) s' /\
    Inv o pre fb gb ft s' ss'.
Proof. exact record_step. Qed.
Print Assumptions C12_record_step.
(* (whole streams and the entry point Decode: Props/C02.v, C02_decode_denote_records / C02_decode_denote) *)

(* what the reference semantics says about compressed-timestamp records, hence -- by the theorem above -- what the
   decoder does: the reference advances by the rollover rule ... *)
Theorem C12_compressed_ref_rule : forall s l off pay dev s' d r,
  lookup_def (ss_env s) l = Some d -> ss_ref s = Some r ->
  (forall f, In f (sd_fds d) -> sf_num f <> c_fieldNumTimeStamp) ->
  denote_data s l (Some off) pay dev = Some s' ->
  ss_ref s' = Some (roll r off).
Proof. exact compressed_ref_rule. Qed.
(* ... the message is stamped with that instant ... *)
Theorem C12_compressed_stamp : forall s l off pay dev s' d r p m0,
  lookup_def (ss_env s) l = Some d -> ss_ref s = Some r ->
  known_msg (sd_gmn d) = true -> get_field (sd_gmn d) c_fieldNumTimeStamp = Some p ->
  (forall f q, In f (sd_fds d) -> get_field (sd_gmn d) (sf_num f) = Some q -> pf_sindex q <> pf_sindex p) ->
  mesg_all_invalid (sd_gmn d) = Some m0 -> (pf_sindex p < List.length (m_fields m0))%nat ->
  denote_data s l (Some off) pay dev = Some s' ->
  exists m, ss_msgs s' = ss_msgs s ++ [m] /\
            nth_error (m_fields m) (pf_sindex p) = Some (time_of (roll r off)).
Proof. exact compressed_stamp. Qed.
Print Assumptions C12_compressed_stamp.
(* ... which is the next instant at or after the reference whose low five bits are the header's offset ... *)
Theorem C12_roll_rule : forall r off, off < 32 -> r + 32 < 2 ^ 32 ->
  roll r off mod 32 = off /\ r <= roll r off < r + 32.
Proof. exact roll_rule. Qed.
(* ... and before any timestamp was seen a compressed record is decoded like a plain one (unstamped) *)
Theorem C12_no_reference_unstamped : forall s l off pay dev,
  ss_ref s = None -> denote_data s l (Some off) pay dev = denote_data s l None pay dev.
Proof. exact no_reference_unstamped. Qed.

(* FULL STATEMENT (proved): the stream theorem has no time side condition.  The three streams below exhibit
   the two C12 time defects of the library fixed by ac9b0b0 and 2f21531: a local timestamp before any reference
   followed by a compressed record (local_sets_reference), an explicit timestamp 0 followed by a compressed record
   (ts_zero_no_reference), and a compressed step wrapping the 32-bit reference to exactly 0 (the same defect without
   a literal 0 on the wire).  The repaired decoder agrees with the reference semantics on them: they are ordinary
   members of the domain of decode_denote (by evaluation) *)
Example C12_local_first_agrees :
  stream_wf w_local_first = true /\ starts_with_file_id w_local_first = true /\ agree w_local_first = true.
Proof. exact local_first_agrees. Qed.
Example C12_ts_zero_agrees :
  stream_wf w_ts_zero = true /\ starts_with_file_id w_ts_zero = true /\ agree w_ts_zero = true.
Proof. exact ts_zero_agrees. Qed.
Example C12_wrap_zero_agrees :
  stream_wf w_wrap_zero = true /\ starts_with_file_id w_wrap_zero = true /\ agree w_wrap_zero = true.
Proof. exact wrap_zero_agrees. Qed.

(* the hypotheses of the stream theorem are satisfiable by a stream with an explicit timestamp, a compressed record
   and a local timestamp read against the reference; on it model and reference semantics agree (recomputed) *)
Example C12_stream_example :
  starts_with_file_id ok_stream = true /\ stream_wf ok_stream = true /\
  (exists ss f2 g1, denote ok_stream = Some ss /\ StreamDenoteLift.start_file w_hdr Model.Components.g_init (hd dummy_msg (ss_msgs ss)) = Some (f2, g1)) /\
  agree ok_stream = true.
Proof. exact ok_stream_in_domain. Qed.

(* PARTIAL: nothing of the time rules is left to the harness alone: the stream theorems (C12_record_step,
   C02_decode_denote_records, C02_decode_denote) hold for all serialisable streams the reference semantics accepts;
   the remaining side conditions (stream_wf incl. canon_bt, starts_with_file_id, hosted file type, header_wf) do not
   concern time. *)
Example C12_example : let r' := 0x30000000 + (5 + 32 - 0x30000000 mod 32) mod 32 in r' = 0x30000005.
Proof. reflexivity. Qed.
