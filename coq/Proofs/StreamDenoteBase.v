(* Stream-level decode = denote: [consumes p l s a s'], "p reads exactly l", as a derivation over the
   syntax of p, with the run on any tail, on l alone and on a strict prefix of l read off it; the sequencing
   lemma run_bind; and the small equalities between functions the model and the reference semantics define twice. *)
From Coq Require Import NArith ZArith List Bool Lia Arith.
From Coq Require Import ZifyN ZifyNat ZifyBool.
From FitV Require Import Proofs.Util Proofs.ProfileProofs Proofs.C10IO Model.Values Model.Bytes Model.Base Model.Profile Model.Reflect Model.IO
  Model.Route Model.Decode Spec.FitSyntax Spec.RouteSpec Gen.Consts Gen.BaseTables.
Import ListNotations.
Local Open Scope N_scope.
Ltac Zify.zify_post_hook ::= Z.div_mod_to_equations.

Definition rbind {X S E A B} (r : result X S E A) (f : A -> X -> S -> result X S E B) : result X S E B :=
  match r with
  | ROk a x s => f a x s
  | RFail e x s => RFail e x s
  | RIOErr e x s => RIOErr e x s
  | RPanic w => RPanic w
  | ROutOfFuel => ROutOfFuel
  end.

Lemma run_bind {S E A B} : forall (p : prog S E A) (f : A -> prog S E B) x s,
  run_a (bind p f) x s = rbind (run_a p x s) (fun a x' s' => run_a (f a) x' s').
Proof. exact run_a_bind. Qed.

Lemma run_bind_ok {S E A B} (p : prog S E A) (f : A -> prog S E B) x s a x' s' :
  run_a p x s = ROk a x' s' -> run_a (bind p f) x s = run_a (f a) x' s'.
Proof. intros H. rewrite run_bind, H. reflexivity. Qed.

(* the input as a prefix still to be read and a tail *)
Definition ast_at (l tl : list N) (t : term) (n lim : nat) : ast := mk_ast (l ++ tl) t n lim.
Arguments ast_at : simpl never.

Lemma ast_at_app l1 l2 tl t n lim : ast_at (l1 ++ l2) tl t n lim = ast_at l1 (l2 ++ tl) t n lim.
Proof. unfold ast_at. now rewrite app_assoc. Qed.

Lemma take_prefix l tl t n lim : (n + List.length l <= lim)%nat ->
  a_take (List.length l) (ast_at l tl t n lim) = inl (l, mk_ast tl t (n + List.length l) lim).
Proof.
  intros H. unfold ast_at. rewrite a_take_ok_intro by (rewrite ?app_length; lia).
  now rewrite (firstn_app_len l tl _ eq_refl), (skipn_app_len l tl _ eq_refl).
Qed.

Lemma ast_at_nil_app l tl t n lim : ast_at [] (l ++ tl) t n lim = ast_at l tl t n lim.
Proof. reflexivity. Qed.

(* p, started in state s on an input that begins with l, returns a in state s' having read exactly l: the big-step
   run of a program without loop test, failure or panic on its path, with the bytes read spelt out, so that no step
   can depend on the limit or on what follows l.  Three facts about runs follow by induction on the derivation: the
   run on l and any tail (consumes_run), on l alone (consumes_all), on a strict prefix of l (consumes_cut: an I/O
   error, wherever the limit lies). *)
Inductive consumes {S E A} : prog S E A -> list N -> S -> A -> S -> Prop :=
| consumes_ret a s : consumes (Ret a) [] s a s
| consumes_get k l s a s' : consumes (k s) l s a s' -> consumes (Get k) l s a s'
| consumes_put k l s s0 a s' : consumes k l s0 a s' -> consumes (Put s0 k) l s a s'
| consumes_rbyte k b l s a s' : consumes (k b) l s a s' -> consumes (ReadByte k) (b :: l) s a s'
| consumes_rfull n k l1 l2 s a s' :
    List.length l1 = n -> consumes (k l1) l2 s a s' -> consumes (ReadFull n k) (l1 ++ l2) s a s'.

Lemma consumes_run {S E A} (p : prog S E A) l s a s' : consumes p l s a s' ->
  forall tl t n lim, (n + List.length l <= lim)%nat ->
  run_a p (ast_at l tl t n lim) s = ROk a (ast_at [] tl t (n + List.length l) lim) s'.
Proof.
  induction 1 as [a s|k l s a s' _ IH|k l s s0 a s' _ IH|k b l s a s' _ IH|m k l1 l2 s a s' Hm _ IH]; intros tl t n lim Hl;
    cbn [run_a]; [cbn [List.length]; now rewrite Nat.add_0_r|now apply IH..| |].
  - cbn [List.length] in Hl. change (b :: l) with ([b] ++ l). rewrite ast_at_app.
    change 1%nat with (List.length [b]) at 1. rewrite take_prefix by (cbn [List.length]; lia). cbn [hd].
    rewrite ast_at_nil_app, IH by (cbn [List.length]; lia). cbn [List.length app]. now rewrite <- Nat.add_assoc.
  - rewrite app_length in Hl. rewrite ast_at_app. subst m. rewrite take_prefix by lia.
    rewrite ast_at_nil_app, IH by lia. now rewrite app_length, Nat.add_assoc.
Qed.

Lemma consumes_all {S E A} (p : prog S E A) l s a s' t n lim : consumes p l s a s' -> (n + List.length l <= lim)%nat ->
  run_a p (mk_ast l t n lim) s = ROk a (mk_ast [] t (n + List.length l) lim) s'.
Proof. intros H Hl. pose proof (consumes_run p l s a s' H [] t n lim Hl) as R. unfold ast_at in R. now rewrite app_nil_r in R. Qed.

(* on a strict prefix of l some read finds too few bytes, or the limit in its way *)
Lemma consumes_cut {S E A} (p : prog S E A) l s a s' : consumes p l s a s' ->
  forall cut rem t n lim, l = cut ++ rem -> rem <> [] -> exists e x sf, run_a p (mk_ast cut t n lim) s = RIOErr e x sf.
Proof.
  induction 1 as [a s|k l s a s' _ IH|k l s s0 a s' _ IH|k b l s a s' _ IH|m k l1 l2 s a s' Hm _ IH];
    intros cut rem t n lim Hl Hrem; cbn [run_a]; [|now apply (IH cut rem)..| |].
  - symmetry in Hl. apply app_eq_nil in Hl. now destruct Hl.
  - destruct (a_take_spec 1 (mk_ast cut t n lim)) as [_ H2|_]; [|eauto].
    destruct cut as [|c cut']; [cbn in H2; lia|]. injection Hl as <- Hl. cbn [a_rest firstn skipn hd]. now apply (IH cut' rem).
  - destruct (a_take_spec m (mk_ast cut t n lim)) as [_ H2|_]; [|eauto]. cbn [a_rest a_term a_n a_limit] in *.
    assert (E1 : firstn m cut = l1).
    { rewrite <- (firstn_app_len l1 l2 m Hm), Hl, firstn_app. replace (m - List.length cut)%nat with 0%nat by lia.
      cbn [firstn]. now rewrite app_nil_r. }
    rewrite E1. apply (IH (skipn m cut) rem); [|exact Hrem].
    rewrite <- (skipn_app_len l1 l2 m Hm), Hl, skipn_app. now replace (m - List.length cut)%nat with 0%nat by lia.
Qed.

Lemma consumes_bind {S E A B} (p : prog S E A) (f : A -> prog S E B) l1 l2 s a s1 b s2 :
  consumes p l1 s a s1 -> consumes (f a) l2 s1 b s2 -> consumes (bind p f) (l1 ++ l2) s b s2.
Proof.
  induction 1 as [a s|k l s a s' _ IH|k l s s0 a s' _ IH|k c l s a s' _ IH|m k l l' s a s' Hm _ IH]; intros H2; cbn [bind].
  - exact H2.
  - exact (consumes_get _ _ _ _ _ (IH H2)).
  - exact (consumes_put _ _ _ _ _ _ (IH H2)).
  - exact (consumes_rbyte _ c _ _ _ _ (IH H2)).
  - rewrite <- app_assoc. exact (consumes_rfull m _ l _ _ _ _ Hm (IH H2)).
Qed.

Lemma consumes_bind_at {S E A B} k (p : prog S E A) (f : A -> prog S E B) l s a s1 b s2 :
  consumes p (firstn k l) s a s1 -> consumes (f a) (skipn k l) s1 b s2 -> consumes (bind p f) l s b s2.
Proof. intros H1 H2. rewrite <- (firstn_skipn k l). exact (consumes_bind p f _ _ s a s1 b s2 H1 H2). Qed.

Lemma consumes_read_full m l (s : dstate) : List.length l = m -> consumes (read_full m) l s l s.
Proof. intros Hm. rewrite <- (app_nil_r l) at 1. exact (consumes_rfull m _ l [] s l s Hm (consumes_ret l s)). Qed.

Lemma run_more {A} (k : bool -> P A) l tl t n lim s :
  run_a (More k) (ast_at l tl t n lim) s = run_a (k (Nat.ltb n lim)) (ast_at l tl t n lim) s.
Proof. reflexivity. Qed.

Lemma run_get {A} (k : dstate -> P A) x s : run_a (Get k) x s = run_a (k s) x s.
Proof. reflexivity. Qed.
Lemma run_put {A} (k : P A) x s s' : run_a (Put s' k) x s = run_a k x s'.
Proof. reflexivity. Qed.

Lemma size_cases bt ds : b_known bt = Some true -> b_size bt = Some ds -> ds = 1 \/ ds = 2 \/ ds = 4 \/ ds = 8.
Proof.
  intros Hk Hs.
  pose proof (forall_below 256
    (fun b => match b_known b, b_size b with
              | Some true, Some s => (s =? 1) || (s =? 2) || (s =? 4) || (s =? 8)
              | _, _ => true end) ltac:(vm_compute; reflexivity) bt (known_lt_256 bt Hk)) as H.
  cbv beta in H. rewrite Hk, Hs in H.
  repeat (apply orb_prop in H; destruct H as [H|H]); apply N.eqb_eq in H; tauto.
Qed.

Lemma set_at_set_nth {A} : forall n (x : A) l, set_at n x l = set_nth n x l.
Proof. reflexivity. Qed.

Lemma split_every_chunks : forall fuel k l, split_every k fuel l = chunks k fuel l.
Proof. reflexivity. Qed.

Lemma bump1_count1 k l : bump1 k l = count1 k l.
Proof. unfold bump1. induction l as [|[a c] r IH]; cbn; [reflexivity|]. destruct (a =? k); [reflexivity|]. now rewrite IH. Qed.

Lemma bump2_count2 m k l : bump2 (m, k) l = count2 m k l.
Proof.
  unfold bump2. cbn [fst snd]. induction l as [|[[a b] c] r IH]; cbn; [reflexivity|].
  destruct ((a =? m) && (b =? k)); [reflexivity|]. now rewrite IH.
Qed.

Lemma first_zero_go : forall l i,
  (fix go (l : list N) (i : nat) := match l with [] => i | b :: r => if b =? 0 then i else go r (S i) end) l i =
  (i + first_zero l)%nat.
Proof.
  unfold first_zero. induction l as [|b r IH]; intros i; [cbn; lia|].
  cbn. destruct (b =? 0); [lia|]. rewrite IH, (IH 1%nat). lia.
Qed.

Lemma first_zero_cons b r : first_zero (b :: r) = if b =? 0 then O else S (first_zero r).
Proof.
  unfold first_zero at 1. cbn. destruct (b =? 0); [reflexivity|].
  rewrite first_zero_go. reflexivity.
Qed.

Lemma upto_nul_first_zero : forall l, upto_nul l = firstn (first_zero l) l.
Proof.
  induction l as [|b r IH]; [reflexivity|]. rewrite first_zero_cons. cbn [upto_nul].
  destruct (b =? 0); [reflexivity|]. cbn [firstn]. now rewrite IH.
Qed.

Lemma upto_nul_nil_iff l : upto_nul l = [] <-> first_zero l = O.
Proof.
  destruct l as [|b r]; [split; reflexivity|]. rewrite first_zero_cons. cbn [upto_nul].
  destruct (b =? 0); split; intros H; try reflexivity; discriminate.
Qed.

Lemma adds_app : forall ms f g m,
  adds f g (ms ++ [m]) =
  match adds f g ms with AddOk f' g' => file_add f' g' m | AddPanic w => AddPanic w end.
Proof.
  induction ms as [|a r IH]; intros f g m; cbn.
  - destruct (file_add f g m); reflexivity.
  - destruct (file_add f g a) as [f' g'|w]; [apply IH|reflexivity].
Qed.
