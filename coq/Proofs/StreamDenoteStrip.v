(* C02 unknown_skipped as ONE stream-rewriting theorem.

   [strip] deletes from a record list all content the profile does not know:
   - unlisted fields, from every definition and from every payload;
   - developer fields (definitions) and developer bytes (data records);
   - the plain data records of unknown messages.
   The stripped stream denotes the same messages and the same time reference.

   Two kinds of unknown content are kept as empty shells, because deleting them would change
   what later records mean: the definition of an unknown message (emptied: a later data record
   of that local type must still find a definition) and the compressed-timestamp record of an
   unknown message (header only: it still advances the time reference, and two successive
   rollover steps are not one).  [strip_all] drops the definitions of unknown messages as well, and
   is sound for streams without such compressed records; both are instances of [strip_gen], about
   which everything is proved once. *)
From Coq Require Import NArith ZArith List Bool Lia Arith.
From Coq Require Import ZifyN ZifyNat ZifyBool.
From FitV Require Import Proofs.Util Proofs.BytesUtil Model.Values Model.Bytes Model.Base Model.Profile Model.Reflect Model.IO
  Model.Header Model.Route Model.Components Model.Decode Spec.FitSyntax Spec.RouteSpec Proofs.ProfileProofs
  Proofs.DecodeLemmas Gen.Consts
  Proofs.StreamDenoteBase Proofs.StreamDenoteDefs Proofs.StreamDenoteData Proofs.StreamDenoteLoop
  Proofs.StreamDenoteLift Proofs.StreamDenoteMain Proofs.StreamDenoteSkip Proofs.StreamDenoteSlots Proofs.StreamDenoteCor.
Import ListNotations.
Local Open Scope N_scope.

Definition listed (gmn : N) (f : sfdef) : bool :=
  match get_field gmn (sf_num f) with Some _ => true | None => false end.

Definition keep_fds (gmn : N) (fds : list sfdef) : list sfdef :=
  if known_msg gmn then filter (listed gmn) fds else [].

(* walks fds and pay as denote_fields does *)
Fixpoint strip_pay (gmn : N) (fds : list sfdef) (pay : list N) : list N :=
  match fds with
  | [] => []
  | f :: r =>
      let sz := N.to_nat (sf_size f) in
      (if listed gmn f then firstn sz pay else []) ++ strip_pay gmn r (skipn sz pay)
  end.

(* [env] is the environment of the ORIGINAL stream, built exactly as denote_record builds it *)
Fixpoint strip (env : list (N * sdef)) (rs : list record) : list record :=
  match rs with
  | [] => []
  | r :: rest =>
      match r with
      | RDef l be gmn fds devflag devs =>
          RDef l be gmn (keep_fds gmn fds) false [] ::
          strip ((l, mk_sdef be gmn fds (dev_size (if devflag then devs else []))) :: env) rest
      | RData l pay dev =>
          match lookup_def env l with
          | Some d =>
              if known_msg (sd_gmn d) then RData l (strip_pay (sd_gmn d) (sd_fds d) pay) [] :: strip env rest
              else strip env rest
          | None => RData l pay [] :: strip env rest
          end
      | RComp l off pay dev =>
          match lookup_def env l with
          | Some d =>
              if known_msg (sd_gmn d) then RComp l off (strip_pay (sd_gmn d) (sd_fds d) pay) [] :: strip env rest
              else RComp l off [] [] :: strip env rest
          | None => RComp l off pay [] :: strip env rest
          end
      end
  end.

(* Sound when no compressed-timestamp record addresses an unknown message (such a record advances the time
   reference and cannot go; with it gone its definition could go as well, but then a later record of that local
   type would meet an older definition). *)
Fixpoint strip_all (env : list (N * sdef)) (rs : list record) : list record :=
  match rs with
  | [] => []
  | r :: rest =>
      match r with
      | RDef l be gmn fds devflag devs =>
          if known_msg gmn then
            RDef l be gmn (keep_fds gmn fds) false [] ::
            strip_all ((l, mk_sdef be gmn fds (dev_size (if devflag then devs else []))) :: env) rest
          else strip_all ((l, mk_sdef be gmn fds (dev_size (if devflag then devs else []))) :: env) rest
      | RData l pay dev =>
          match lookup_def env l with
          | Some d =>
              if known_msg (sd_gmn d) then RData l (strip_pay (sd_gmn d) (sd_fds d) pay) [] :: strip_all env rest
              else strip_all env rest
          | None => RData l pay [] :: strip_all env rest
          end
      | RComp l off pay dev =>
          match lookup_def env l with
          | Some d => RComp l off (strip_pay (sd_gmn d) (sd_fds d) pay) [] :: strip_all env rest
          | None => RComp l off pay [] :: strip_all env rest
          end
      end
  end.

Fixpoint no_unknown_comp (env : list (N * sdef)) (rs : list record) : bool :=
  match rs with
  | [] => true
  | r :: rest =>
      match r with
      | RDef l be gmn fds devflag devs =>
          no_unknown_comp ((l, mk_sdef be gmn fds (dev_size (if devflag then devs else []))) :: env) rest
      | RData l pay dev => no_unknown_comp env rest
      | RComp l off pay dev =>
          (match lookup_def env l with Some d => known_msg (sd_gmn d) | None => true end) && no_unknown_comp env rest
      end
  end.

(* Both rewritings in one, record by record: a record becomes one record or none, depending on the environment
   the original stream has built before it ([StreamDenoteData.env_step] is how denote_record extends it).  The two differ only in what
   becomes of the definition of an unknown message.  (The payload of a compressed record of an unknown message
   strips to nothing, see strip_pay_unknown below, so they agree on compressed records as well.) *)
Definition known_at (env : list (N * sdef)) (l : N) : bool :=
  match lookup_def env l with Some d => known_msg (sd_gmn d) | None => true end.

Definition pay_at (env : list (N * sdef)) (l : N) (pay : list N) : list N :=
  match lookup_def env l with Some d => strip_pay (sd_gmn d) (sd_fds d) pay | None => pay end.

Definition strip_rec (all : bool) (env : list (N * sdef)) (r : record) : list record :=
  match r with
  | RDef l be gmn fds devflag devs =>
      if all && negb (known_msg gmn) then [] else [RDef l be gmn (keep_fds gmn fds) false []]
  | RData l pay dev => if known_at env l then [RData l (pay_at env l pay) []] else []
  | RComp l off pay dev => [RComp l off (pay_at env l pay) []]
  end.

Fixpoint strip_gen (all : bool) (env : list (N * sdef)) (rs : list record) : list record :=
  match rs with
  | [] => []
  | r :: rest => strip_rec all env r ++ strip_gen all (env_step env r) rest
  end.

Definition comp_known (env : list (N * sdef)) (r : record) : bool :=
  match r with RComp l _ _ _ => known_at env l | _ => true end.

Lemma psize_cons f r : psize (f :: r) = (N.to_nat (sf_size f) + psize r)%nat.
Proof. reflexivity. Qed.

Lemma listed_unknown gmn f : known_msg gmn = false -> listed gmn f = false.
Proof. intros Hk. unfold listed. now rewrite (unknown_no_field gmn (sf_num f) Hk). Qed.

Lemma keep_fds_filter gmn fds : keep_fds gmn fds = filter (listed gmn) fds.
Proof.
  unfold keep_fds. destruct (known_msg gmn) eqn:Ek; [reflexivity|].
  induction fds as [|f r IH]; cbn [filter]; [reflexivity|]. now rewrite (listed_unknown gmn f Ek).
Qed.

Lemma strip_pay_cons gmn f r pay :
  strip_pay gmn (f :: r) pay =
  (if listed gmn f then firstn (N.to_nat (sf_size f)) pay else []) ++ strip_pay gmn r (skipn (N.to_nat (sf_size f)) pay).
Proof. reflexivity. Qed.

Lemma strip_pay_length gmn : forall fds pay, List.length pay = psize fds ->
  List.length (strip_pay gmn fds pay) = psize (filter (listed gmn) fds).
Proof.
  induction fds as [|f r IH]; intros pay Hlen; [reflexivity|].
  rewrite psize_cons in Hlen. rewrite strip_pay_cons. cbn [filter].
  set (sz := N.to_nat (sf_size f)) in *.
  assert (Hb2 : List.length (skipn sz pay) = psize r) by (rewrite skipn_length; lia).
  rewrite app_length, (IH _ Hb2).
  destruct (listed gmn f).
  - rewrite psize_cons. fold sz. rewrite firstn_length. lia.
  - reflexivity.
Qed.

Lemma strip_pay_unknown gmn : known_msg gmn = false -> forall fds pay, strip_pay gmn fds pay = [].
Proof.
  intros Hk. induction fds as [|f r IH]; intros pay; [reflexivity|].
  now rewrite strip_pay_cons, IH, (listed_unknown gmn f Hk).
Qed.

Lemma strip_is_gen : forall rs env, strip env rs = strip_gen false env rs.
Proof.
  induction rs as [|[l be gmn fds devflag devs | l pay dev | l off pay dev] rs IH]; intros env;
    cbn [strip strip_gen strip_rec env_step andb app]; rewrite ?IH; try reflexivity; unfold known_at, pay_at.
  - destruct (lookup_def env l) as [d|]; [destruct (known_msg (sd_gmn d))|]; reflexivity.
  - destruct (lookup_def env l) as [d|]; [|reflexivity].
    destruct (known_msg (sd_gmn d)) eqn:Ek; [reflexivity|]. now rewrite strip_pay_unknown.
Qed.

Lemma strip_all_is_gen : forall rs env, strip_all env rs = strip_gen true env rs.
Proof.
  induction rs as [|[l be gmn fds devflag devs | l pay dev | l off pay dev] rs IH]; intros env;
    cbn [strip_all strip_gen strip_rec env_step andb app]; rewrite ?IH; try reflexivity; unfold known_at, pay_at.
  - destruct (known_msg gmn); reflexivity.
  - destruct (lookup_def env l) as [d|]; [destruct (known_msg (sd_gmn d))|]; reflexivity.
  - destruct (lookup_def env l); reflexivity.
Qed.

Lemma no_unknown_comp_cons env r rs :
  no_unknown_comp env (r :: rs) = comp_known env r && no_unknown_comp (env_step env r) rs.
Proof. destruct r; reflexivity. Qed.

Lemma strip_gen_forallb all (P Q : record -> bool) :
  (forall env r, P r = true -> forallb Q (strip_rec all env r) = true) ->
  forall rs env, forallb P rs = true -> forallb Q (strip_gen all env rs) = true.
Proof.
  intros H. induction rs as [|r rs IH]; intros env Hall; [reflexivity|].
  cbn [forallb strip_gen] in *. apply andb_prop in Hall. destruct Hall as [Hr Hall].
  now rewrite forallb_app, (H env r Hr), IH.
Qed.

Lemma all_bytes_strip_pay gmn : forall fds pay, all_bytes pay = true -> all_bytes (strip_pay gmn fds pay) = true.
Proof.
  induction fds as [|f r IH]; intros pay Hb; [reflexivity|].
  rewrite strip_pay_cons, all_bytes_app_eq.
  destruct (all_bytes_split (N.to_nat (sf_size f)) pay Hb) as [H1 H2].
  rewrite (IH _ H2), andb_true_r. destruct (listed gmn f); [exact H1|reflexivity].
Qed.

Lemma all_bytes_pay_at env l pay : all_bytes pay = true -> all_bytes (pay_at env l pay) = true.
Proof. unfold pay_at. destruct (lookup_def env l); [apply all_bytes_strip_pay|exact (fun E => E)]. Qed.

Lemma strip_fields be gmn : forall fds pay m ref unl unl', List.length pay = psize fds ->
  fst (denote_fields be gmn (filter (listed gmn) fds) (strip_pay gmn fds pay) m ref unl) =
  fst (denote_fields be gmn fds pay m ref unl').
Proof.
  induction fds as [|f r IH]; intros pay m ref unl unl' Hlen; [reflexivity|].
  rewrite psize_cons in Hlen. rewrite strip_pay_cons. cbn [filter].
  set (sz := N.to_nat (sf_size f)) in *.
  assert (Hb1 : List.length (firstn sz pay) = sz) by (rewrite firstn_length; lia).
  assert (Hb2 : List.length (skipn sz pay) = psize r) by (rewrite skipn_length; lia).
  destruct (listed gmn f) eqn:El; unfold listed in El;
    destruct (get_field gmn (sf_num f)) as [p|] eqn:Eg; try discriminate.
  - cbn [denote_fields]. fold sz. rewrite Eg.
    rewrite !(firstn_app_len (firstn sz pay) _ sz Hb1), !(skipn_app_len (firstn sz pay) _ sz Hb1).
    apply IH. exact Hb2.
  - cbn [app denote_fields]. fold sz. rewrite Eg. apply IH. exact Hb2.
Qed.

Definition strip_def (d : sdef) : sdef :=
  mk_sdef (sd_be d) (sd_gmn d) (keep_fds (sd_gmn d) (sd_fds d)) 0%nat.

(* so a data record of the stripped definition has the effect of the original one, but for the unlisted fields
   it no longer meets *)
Lemma strip_effect d off ref pay : List.length pay = psize (sd_fds d) ->
  option_map fst (data_effect (strip_def d) off ref (strip_pay (sd_gmn d) (sd_fds d) pay)) =
  option_map fst (data_effect d off ref pay).
Proof.
  intros Hlen. unfold data_effect. cbn [strip_def sd_be sd_gmn sd_fds]. rewrite keep_fds_filter.
  destruct (known_msg (sd_gmn d)); [|reflexivity].
  destruct (mesg_all_invalid (sd_gmn d)) as [m0|]; [|reflexivity].
  match goal with |- context [denote_fields ?be ?gmn ?fds pay ?m ?r []] =>
    pose proof (strip_fields be gmn fds pay m r [] [] Hlen) as E;
    destruct (denote_fields be gmn fds pay m r []) as [[m2 ref2] unl] end.
  destruct (denote_fields _ _ _ _ _ _ _) as [[m3 ref3] unl3]. cbn [fst] in E. injection E as -> ->. reflexivity.
Qed.

(* the stripped run knows the stripped definition of every local type whose current definition the
   rewriting keeps: all of them, or those of known messages *)
Definition env_relg (all : bool) (env env' : list (N * sdef)) : Prop :=
  forall l d, lookup_def env l = Some d -> all && negb (known_msg (sd_gmn d)) = false ->
    lookup_def env' l = Some (strip_def d).

Definition st_relg (all : bool) (a b : sstate) : Prop :=
  env_relg all (ss_env a) (ss_env b) /\ ss_ref a = ss_ref b /\ ss_msgs a = ss_msgs b.

Lemma st_relg_init all : st_relg all ss_init ss_init.
Proof. split; [intros l d Hl; discriminate|split; reflexivity]. Qed.

Lemma env_relg_cons all env env' l d :
  env_relg all env env' ->
  env_relg all ((l, d) :: env) (if all && negb (known_msg (sd_gmn d)) then env' else (l, strip_def d) :: env').
Proof.
  intros He l' d'. rewrite lookup_def_cons. destruct (l =? l') eqn:El.
  - intros E Hc. injection E as <-. rewrite Hc. cbv iota. rewrite lookup_def_cons, El. reflexivity.
  - intros E Hc. destruct (all && negb (known_msg (sd_gmn d))); [|rewrite lookup_def_cons, El]; now apply He.
Qed.

Lemma def_step a b l be gmn fds devflag devs a1 :
  denote_record a (RDef l be gmn fds devflag devs) = Some a1 ->
  denote_record b (RDef l be gmn (keep_fds gmn fds) false []) =
    Some (mk_sstate ((l, mk_sdef be gmn (keep_fds gmn fds) 0%nat) :: ss_env b) (ss_ref b) (ss_msgs b) (ss_unkm b) (ss_unkf b)).
Proof.
  intros (El & Eg & Ec & _)%denote_def_iff. apply denote_def_iff. repeat split; try assumption.
  rewrite keep_fds_filter. now apply forallb_filter.
Qed.

(* a data record the rewriting keeps: the stripped run holds the stripped definition (env_relg), under which by
   strip_effect the stripped payload has the effect of the original, the unlisted fields apart; for an unknown
   message, whose payload strips to nothing, that is a counter bump and, compressed, the step of the reference *)
Lemma data_sim all a b l off pay dev a1 :
  st_relg all a b -> (all = true -> known_at (ss_env a) l = true) -> denote_data a l off pay dev = Some a1 ->
  exists b1, denote_data b l off (pay_at (ss_env a) l pay) [] = Some b1 /\ st_relg all a1 b1.
Proof.
  intros (He & Hr & Hm) Hk. unfold known_at, pay_at in *. rewrite !denote_data_effect.
  destruct (lookup_def (ss_env a) l) as [d|] eqn:El; [|discriminate].
  rewrite (He l d El), <- Hr by (destruct all; [now rewrite Hk|reflexivity]).
  destruct (Nat.eqb_spec (List.length pay) (payload_size d)) as [Ep|]; [|discriminate].
  destruct (negb true || _); [discriminate|].
  rewrite (strip_pay_length _ _ _ Ep), <- keep_fds_filter, Nat.eqb_refl.
  cbn [strip_def sd_devsize List.length Nat.eqb negb orb].
  pose proof (strip_effect d off (ss_ref a) pay Ep) as E.
  destruct (data_effect d off (ss_ref a) pay) as [[[ref1 ms] unl]|]; [|discriminate].
  destruct (data_effect (strip_def d) _ _ _) as [[[ref1' ms'] unl']|]; [|discriminate].
  injection E as -> ->. intros Ea. injection Ea as <-. eexists. split; [reflexivity|].
  split; [exact He|]. cbn [ss_ref ss_msgs]. now rewrite Hm.
Qed.

Lemma strip_rec_sim all r a b a1 :
  st_relg all a b -> (all = true -> comp_known (ss_env a) r = true) -> denote_record a r = Some a1 ->
  exists b1, denote_from b (strip_rec all (ss_env a) r) = Some b1 /\ st_relg all a1 b1.
Proof.
  intros Hrel Hnc Ea. pose proof Hrel as (He & Hr & Hm).
  destruct r as [l be gmn fds devflag devs | l pay dev | l off pay dev]; cbn [strip_rec comp_known denote_record] in *.
  - pose proof (env_relg_cons all _ _ l (mk_sdef be gmn fds (devsize_of devflag devs)) He) as He1. cbn [sd_gmn] in He1.
    rewrite (proj2 (proj2 (proj2 (proj1 (denote_def_iff _ _ _ _ _ _ _ _) Ea)))).
    destruct (all && negb (known_msg gmn)); cbn [denote_from]; [|rewrite (def_step a b _ _ _ _ _ _ _ Ea)];
      (eexists; split; [reflexivity|]); (split; [exact He1|split; assumption]).
  - destruct (known_at (ss_env a) l) eqn:Ek.
    + destruct (data_sim all a b l None pay dev a1 Hrel (fun _ => Ek) Ea) as (b1 & Eb & Hrel1).
      exists b1. cbn [denote_from denote_record]. now rewrite Eb.
    + exists b. split; [reflexivity|]. unfold known_at in Ek.
      destruct (lookup_def (ss_env a) l) as [d|] eqn:El; [|discriminate].
      rewrite (unknown_data_skipped a l None pay dev d El Ek) in Ea.
      destruct (negb _ || negb _); [discriminate|]. injection Ea as <-. exact Hrel.
  - destruct (4 <=? l) eqn:E4; [discriminate|].
    destruct (data_sim all a b l (Some off) pay dev a1 Hrel Hnc Ea) as (b1 & Eb & Hrel1).
    exists b1. cbn [denote_from denote_record]. now rewrite E4, Eb.
Qed.

Theorem strip_gen_sim all : forall rs a b a',
  st_relg all a b -> (all = true -> no_unknown_comp (ss_env a) rs = true) -> denote_from a rs = Some a' ->
  exists b', denote_from b (strip_gen all (ss_env a) rs) = Some b' /\ st_relg all a' b'.
Proof.
  induction rs as [|r rs IH]; intros a b a' Hrel Hnc Hden.
  - injection Hden as <-. exists b. auto.
  - cbn [denote_from strip_gen] in *. destruct (denote_record a r) as [a1|] eqn:Ea; [|discriminate].
    rewrite no_unknown_comp_cons, <- (denote_record_env a r a1 Ea) in *.
    destruct (strip_rec_sim all r a b a1 Hrel (fun E => proj1 (andb_prop _ _ (Hnc E))) Ea) as (b1 & Eb & Hrel1).
    rewrite denote_from_app, Eb. exact (IH a1 b1 a' Hrel1 (fun E => proj2 (andb_prop _ _ (Hnc E))) Hden).
Qed.

Theorem strip_gen_skipped all : forall rs ss, (all = true -> no_unknown_comp [] rs = true) -> denote rs = Some ss ->
  exists ss', denote (strip_gen all [] rs) = Some ss' /\ ss_msgs ss' = ss_msgs ss /\ ss_ref ss' = ss_ref ss.
Proof.
  intros rs ss Hnc Hden. unfold denote in *.
  destruct (strip_gen_sim all rs ss_init ss_init ss (st_relg_init all) Hnc Hden) as (ss' & Hden' & _ & Hr & Hm).
  exists ss'. cbn [ss_init ss_env] in Hden'. split; [exact Hden'|]. split; symmetry; assumption.
Qed.

(* C02 unknown_skipped: stripping all unknown content changes neither the decoded messages nor the time reference *)
Theorem unknown_skipped : forall rs ss, denote rs = Some ss ->
  exists ss', denote (strip [] rs) = Some ss' /\ ss_msgs ss' = ss_msgs ss /\ ss_ref ss' = ss_ref ss.
Proof. intros rs ss. rewrite strip_is_gen. apply strip_gen_skipped. discriminate. Qed.

Lemma all_bytes_flat_filter (q : sfdef -> bool) fds :
  all_bytes (flat_map ser_fdef fds) = true -> all_bytes (flat_map ser_fdef (filter q fds)) = true.
Proof.
  unfold all_bytes. rewrite !forallb_forall. intros H x Hx. apply H.
  apply in_flat_map in Hx. destruct Hx as (f & Hf & Hx). apply in_flat_map. exists f.
  apply filter_In in Hf. tauto.
Qed.

Lemma rec_wf_def l be gmn fds devflag devs :
  rec_wf (RDef l be gmn fds devflag devs) = true -> rec_wf (RDef l be gmn (keep_fds gmn fds) false []) = true.
Proof.
  unfold rec_wf. cbn [ser_record]. rewrite keep_fds_filter, !all_bytes_app_eq, !all_bytes_cons_eq, !andb_true_iff.
  intros (((Hh & H0 & Hbe & _) & Hp & (Hn & _) & Hf & _) & Hg & Hc).
  pose proof (filter_length_le' (listed gmn) fds) as Hle.
  unfold is_byte in *. apply N.ltb_lt in Hh, Hn.
  repeat apply conj; try assumption; try reflexivity.
  - apply N.ltb_lt. destruct devflag; lia.
  - apply N.ltb_lt. lia.
  - now apply all_bytes_flat_filter.
  - now apply forallb_filter.
Qed.

(* the bytes of a data record whose payload shrank to [pay'] and whose developer bytes are gone *)
Lemma all_bytes_shrink x pay dev pay' :
  (all_bytes pay = true -> all_bytes pay' = true) ->
  all_bytes (x :: pay ++ dev) = true -> all_bytes (x :: pay' ++ []) = true.
Proof.
  intros Hp. rewrite !all_bytes_cons_eq, !all_bytes_app_eq. intros H. apply andb_prop in H. destruct H as [H1 H2].
  apply andb_prop in H2. destruct H2 as [H2 _]. rewrite H1, (Hp H2). reflexivity.
Qed.

Lemma strip_rec_wf all env r : rec_wf r = true -> forallb rec_wf (strip_rec all env r) = true.
Proof.
  destruct r as [l be gmn fds devflag devs | l pay dev | l off pay dev]; cbn [strip_rec]; intros Hr.
  - destruct (all && _); [reflexivity|]. cbn [forallb]. now rewrite (rec_wf_def _ _ _ _ _ _ Hr).
  - destruct (known_at env l); [|reflexivity]. unfold rec_wf in *. cbn [forallb ser_record] in *.
    rewrite !andb_true_r in *. revert Hr. apply all_bytes_shrink, all_bytes_pay_at.
  - unfold rec_wf in *. cbn [forallb ser_record] in *. apply andb_prop in Hr. destruct Hr as [Hr Ho].
    rewrite Ho, !andb_true_r. revert Hr. apply all_bytes_shrink, all_bytes_pay_at.
Qed.

Theorem strip_gen_stream_wf all : forall rs env, stream_wf rs = true -> stream_wf (strip_gen all env rs) = true.
Proof. exact (strip_gen_forallb all rec_wf rec_wf (strip_rec_wf all)). Qed.

Theorem strip_gen_starts_with_file_id all : forall rs,
  starts_with_file_id rs = true -> starts_with_file_id (strip_gen all [] rs) = true.
Proof.
  intros rs (l & be & fds & devflag & devs & pay & dev & rest & ->)%file_id_shape.
  cbn [strip_gen strip_rec env_step]. unfold known_at. rewrite lookup_def_cons, N.eqb_refl. cbn [sd_gmn].
  rewrite known_fileid, andb_false_r. cbn [app starts_with_file_id]. rewrite !N.eqb_refl. reflexivity.
Qed.

Definition no_bytes (l : list N) : bool := match l with [] => true | _ :: _ => false end.

(* every field of every definition is listed -- so the definition of an unknown message is empty --,
   there are no developer fields and no developer bytes, no plain data record addresses an unknown
   message and a compressed one that does is a bare header *)
Fixpoint clean_from (env : list (N * sdef)) (rs : list record) : bool :=
  match rs with
  | [] => true
  | r :: rest =>
      match r with
      | RDef l be gmn fds devflag devs =>
          forallb (listed gmn) fds && negb devflag && (match devs with [] => true | _ :: _ => false end) &&
          clean_from ((l, mk_sdef be gmn fds 0%nat) :: env) rest
      | RData l pay dev =>
          no_bytes dev && (match lookup_def env l with Some d => known_msg (sd_gmn d) | None => true end) &&
          clean_from env rest
      | RComp l off pay dev =>
          no_bytes dev &&
          (match lookup_def env l with Some d => known_msg (sd_gmn d) || no_bytes pay | None => true end) &&
          clean_from env rest
      end
  end.
Definition clean (rs : list record) : bool := clean_from [] rs.

Lemma clean_unknown_def_empty gmn fds : known_msg gmn = false -> forallb (listed gmn) fds = true -> fds = [].
Proof.
  intros Hk H. destruct fds as [|f r]; [reflexivity|]. cbn [forallb] in H. rewrite (listed_unknown gmn f Hk) in H.
  discriminate.
Qed.

Definition strip_env (env : list (N * sdef)) : list (N * sdef) := map (fun e => (fst e, strip_def (snd e))) env.

Lemma lookup_strip_env l : forall env, lookup_def (strip_env env) l = option_map strip_def (lookup_def env l).
Proof.
  induction env as [|[l' d] env IH]; [reflexivity|]. cbn [strip_env map fst snd]. rewrite !lookup_def_cons.
  destruct (l' =? l); [reflexivity|exact IH].
Qed.

Lemma strip_clean_from : forall rs env, clean_from (strip_env env) (strip env rs) = true.
Proof.
  induction rs as [|r rs IH]; intros env; [reflexivity|].
  destruct r as [l be gmn fds devflag devs | l pay dev | l off pay dev]; cbn [strip].
  2, 3: destruct (lookup_def env l) as [d|] eqn:El; [destruct (known_msg (sd_gmn d)) eqn:Ek|];
      cbn [clean_from no_bytes andb]; rewrite ?lookup_strip_env, ?El; cbn [option_map strip_def sd_gmn];
      rewrite ?Ek; apply IH.
  cbn [clean_from]. rewrite keep_fds_filter, forallb_filter_same, <- keep_fds_filter. exact (IH _).
Qed.

Theorem strip_gen_in_domain all : forall h g rs, (all = true -> no_unknown_comp [] rs = true) ->
  in_domain h g rs -> in_domain h g (strip_gen all [] rs).
Proof.
  intros h g rs Hnc (Hs & Hwf & ss & f2 & g1 & Hden & Hst).
  destruct (strip_gen_skipped all rs ss Hnc Hden) as (ss' & Hden' & Hm & _).
  split; [exact (strip_gen_starts_with_file_id all rs Hs)|].
  split; [exact (strip_gen_stream_wf all rs [] Hwf)|].
  exists ss', f2, g1. split; [exact Hden'|]. rewrite Hm. exact Hst.
Qed.

Theorem strip_gen_decoder all : forall o h g rs, (all = true -> no_unknown_comp [] rs = true) -> in_domain h g rs ->
  decoded_file o h g (strip_gen all [] rs) = decoded_file o h g rs.
Proof.
  intros o h g rs Hnc D. pose proof (strip_gen_in_domain all h g rs Hnc D) as D'.
  pose proof D as (_ & _ & ss & _ & _ & Hden & _).
  destruct (strip_gen_skipped all rs ss Hnc Hden) as (ss' & Hden' & Hm & _).
  exact (same_messages_same_file o h g (strip_gen all [] rs) rs ss' ss D' D Hden' Hden Hm).
Qed.

(* C02 unknown_skipped on the decoder model *)
Theorem unknown_skipped_decoder : forall o h g rs, in_domain h g rs ->
  decoded_file o h g (strip [] rs) = decoded_file o h g rs.
Proof. intros o h g rs. rewrite strip_is_gen. apply strip_gen_decoder. discriminate. Qed.

Corollary unknown_skipped_decoder_ok : forall o h g rs, in_domain h g rs ->
  decoded_file o h g (strip [] rs) <> None.
Proof.
  intros o h g rs D. rewrite (unknown_skipped_decoder o h g rs D).
  pose proof D as (_ & _ & ss & _ & _ & Hden & _).
  exact (proj2 (decoded_is_routed o h g rs ss D Hden)).
Qed.

Definition known_def (r : record) : bool :=
  match r with RDef _ _ gmn _ _ _ => known_msg gmn | _ => true end.

Theorem strip_all_known_defs : forall rs env, forallb known_def (strip_all env rs) = true.
Proof.
  intros rs env. rewrite strip_all_is_gen.
  apply (strip_gen_forallb true (fun _ => true) known_def); [|now apply forallb_forall].
  intros env' [l be gmn fds devflag devs | l pay dev | l off pay dev] _; cbn [strip_rec andb].
  - destruct (known_msg gmn) eqn:Ek; cbn [negb forallb known_def]; [now rewrite Ek|reflexivity].
  - destruct (known_at env' l); reflexivity.
  - reflexivity.
Qed.

Print Assumptions unknown_skipped.
Print Assumptions unknown_skipped_decoder.
