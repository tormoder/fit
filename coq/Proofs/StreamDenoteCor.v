(* Stream-level decode = denote: transfer of the reference-semantics corollaries to the decoder model. *)
From Coq Require Import NArith ZArith List Bool Lia Arith.
From FitV Require Import Proofs.Util Model.Values Model.Bytes Model.Base Model.Profile Model.Reflect Model.IO
  Model.Header Model.Route Model.Components Model.Decode Spec.FitSyntax Spec.RouteSpec Proofs.DecodeLemmas Gen.Consts
  Proofs.StreamDenoteBase Proofs.StreamDenoteDefs Proofs.StreamDenoteData Proofs.StreamDenoteLift Proofs.StreamDenoteMain
  Proofs.StreamDenoteSkip Proofs.StreamDenoteSlots.
Import ListNotations.
Local Open Scope N_scope.

(* the File the decoder model builds from a stream (None: the run did not end in success) *)
Definition decoded_file (o : dopts) (h : header) (g : gstate) (rs : list record) : option (file * gstate) :=
  match run_a (data_prog o false (S (List.length (ser_records rs))))
              (mk_ast (ser_records rs) TEOF 0 (List.length (ser_records rs))) (init_dstate (new_file h) g) with
  | ROk _ _ s => Some (ds_file s, ds_g s)
  | _ => None
  end.

Definition in_domain (h : header) (g : gstate) (rs : list record) : Prop :=
  starts_with_file_id rs = true /\ stream_wf rs = true /\
  exists ss f2 g1, denote rs = Some ss /\ start_file h g (hd dummy_msg (ss_msgs ss)) = Some (f2, g1).

Theorem decoded_is_routed : forall o h g rs ss, in_domain h g rs -> denote rs = Some ss ->
  decoded_file o h g rs = route_msgs h g (ss_msgs ss) /\ decoded_file o h g rs <> None.
Proof.
  intros o h g rs ss (Hs & Hwf & ss' & f2 & g1 & Hden & Hst) Hd. rewrite Hd in Hden. inversion Hden; subst ss'.
  destruct (decode_denote_abstract o h g rs ss f2 g1 [] TEOF Hs Hwf Hd Hst) as (s1 & f & g' & Hrun & Hroute & Hf & Hg & _).
  unfold decoded_file. rewrite app_nil_r in Hrun. rewrite Hrun, Hroute, Hf, Hg. split; [reflexivity|discriminate].
Qed.

Corollary same_messages_same_file : forall o h g rs rs' ss ss', in_domain h g rs -> in_domain h g rs' ->
  denote rs = Some ss -> denote rs' = Some ss' -> ss_msgs ss = ss_msgs ss' ->
  decoded_file o h g rs = decoded_file o h g rs'.
Proof.
  intros o h g rs rs' ss ss' D D' H H' E.
  rewrite (proj1 (decoded_is_routed o h g rs ss D H)), (proj1 (decoded_is_routed o h g rs' ss' D' H')). now rewrite E.
Qed.

(* C13 on whole streams: redefining local type l never changes how records of other local types decode *)
Theorem redefinition_invisible_decoder : forall o h g l rs0 be1 g1' f1 v1 x1 be2 g2 f2' v2 x2 rs,
  forallb (fun r => negb (uses_local l r)) rs = true ->
  in_domain h g (rs0 ++ RDef l be1 g1' f1 v1 x1 :: rs) -> in_domain h g (rs0 ++ RDef l be2 g2 f2' v2 x2 :: rs) ->
  decoded_file o h g (rs0 ++ RDef l be1 g1' f1 v1 x1 :: rs) = decoded_file o h g (rs0 ++ RDef l be2 g2 f2' v2 x2 :: rs).
Proof.
  intros o h g l rs0 be1 g1' f1 v1 x1 be2 g2 f2' v2 x2 rs Hno D D'.
  pose proof D as (_ & _ & ss & _ & _ & Hden & _). pose proof D' as (_ & _ & ss' & _ & _ & Hden' & _).
  apply (same_messages_same_file o h g _ _ ss ss'); try assumption.
  unfold denote in Hden, Hden'.
  destruct (redefinition_invisible l rs0 be1 g1' f1 v1 x1 be2 g2 f2' v2 x2 rs ss_init ss Hno Hden) as (s2 & Hd2 & Hm & _).
  - intros sm Hsm Hn. rewrite denote_from_app, Hsm in Hden'. cbn [denote_from] in Hden'. rewrite Hn in Hden'. discriminate.
  - rewrite Hd2 in Hden'. inversion Hden'; subst. exact Hm.
Qed.

(* C16 unknown_counts_exact: on success the lists the File reports are the reference counts, sorted *)
Theorem unknown_counts_exact : forall o h g rs ss1 f2 g1 tl t,
  starts_with_file_id rs = true -> stream_wf rs = true -> denote rs = Some ss1 ->
  start_file h g (hd dummy_msg (ss_msgs ss1)) = Some (f2, g1) ->
  let L := List.length (ser_records rs) in
  exists s1,
    run_a (data_prog o false (S L)) (mk_ast (ser_records rs ++ tl) t 0 L) (init_dstate (new_file h) g) =
      ROk tt (mk_ast tl t L L) s1 /\
    (o_unkm o = true -> f_unkm (finalize_unknown o s1) = Some (sorted_unkm ss1)) /\
    (o_unkf o = true -> f_unkf (finalize_unknown o s1) = Some (sorted_unkf ss1)).
Proof.
  intros o h g rs ss1 f2 g1 tl t Hs Hwf Hd Hst L.
  destruct (decode_denote_abstract o h g rs ss1 f2 g1 tl t Hs Hwf Hd Hst) as (s1 & f & g' & Hrun & _ & _ & _ & Hm & Hf & _).
  exists s1. split; [exact Hrun|]. unfold finalize_unknown. cbn [f_unkm f_unkf]. split; intros Ho; rewrite Ho.
  - now rewrite (Hm Ho).
  - now rewrite (Hf Ho).
Qed.

Print Assumptions redefinition_invisible_decoder.
Print Assumptions unknown_counts_exact.
