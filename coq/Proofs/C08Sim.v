(* Relational reasoning about decoder programs (Model/IO.v [prog]): two programs that read
   the same input and keep their decoder states in a relation R produce related results
   ([rsim]) under both interpreters.  Generic in the state type, in R and in the relation Q
   between returned values.  [isim] is the relation the soundness theorems are proved for;
   [psim] is its lock-step case. *)
From Coq Require Import NArith List Bool.
From FitV Require Import Model.IO.
Import ListNotations.

Inductive psim {S E A} (R : S -> S -> Prop) (Q : A -> A -> Prop) : prog S E A -> prog S E A -> Prop :=
| ps_ret a1 a2 : Q a1 a2 -> psim R Q (Ret a1) (Ret a2)
| ps_fail e : psim R Q (Fail e) (Fail e)
| ps_panic w : psim R Q (Panic w) (Panic w)
| ps_byte k1 k2 : (forall b, psim R Q (k1 b) (k2 b)) -> psim R Q (ReadByte k1) (ReadByte k2)
| ps_full n k1 k2 : (forall l, psim R Q (k1 l) (k2 l)) -> psim R Q (ReadFull n k1) (ReadFull n k2)
| ps_more k1 k2 : (forall b, psim R Q (k1 b) (k2 b)) -> psim R Q (More k1) (More k2)
| ps_get k1 k2 : (forall s1 s2, R s1 s2 -> psim R Q (k1 s1) (k2 s2)) -> psim R Q (Get k1) (Get k2)
| ps_put s1 s2 k1 k2 : R s1 s2 -> psim R Q k1 k2 -> psim R Q (Put s1 k1) (Put s2 k2).

Definition rsim {X S E A} (R : S -> S -> Prop) (Q : A -> A -> Prop) (r1 r2 : result X S E A) : Prop :=
  match r1, r2 with
  | ROk a1 x1 s1, ROk a2 x2 s2 => Q a1 a2 /\ x1 = x2 /\ R s1 s2
  | RFail e1 x1 s1, RFail e2 x2 s2 => e1 = e2 /\ x1 = x2 /\ R s1 s2
  | RIOErr e1 x1 s1, RIOErr e2 x2 s2 => e1 = e2 /\ x1 = x2 /\ R s1 s2
  | RPanic w1, RPanic w2 => w1 = w2
  | ROutOfFuel, ROutOfFuel => True
  | _, _ => False
  end.

Lemma rsim_impl {X S E A} (R R' : S -> S -> Prop) (Q : A -> A -> Prop) (r1 r2 : result X S E A) :
  (forall s1 s2, R s1 s2 -> R' s1 s2) -> rsim R Q r1 r2 -> rsim R' Q r1 r2.
Proof. intro H. destruct r1, r2; cbn; intuition. Qed.

(* [isim R Q s1 s2 p1 p2] carries the two current states, so that either side may read or
   write its state alone; R is asked for where a run can end (a return, a failure, a read
   that hits the end of the input). *)
Inductive isim {S E A} (R : S -> S -> Prop) (Q : A -> A -> Prop) : S -> S -> prog S E A -> prog S E A -> Prop :=
| is_ret s1 s2 a1 a2 : R s1 s2 -> Q a1 a2 -> isim R Q s1 s2 (Ret a1) (Ret a2)
| is_fail s1 s2 e : R s1 s2 -> isim R Q s1 s2 (Fail e) (Fail e)
| is_panic s1 s2 w : isim R Q s1 s2 (Panic w) (Panic w)
| is_byte s1 s2 k1 k2 : R s1 s2 -> (forall b, isim R Q s1 s2 (k1 b) (k2 b)) -> isim R Q s1 s2 (ReadByte k1) (ReadByte k2)
| is_full s1 s2 n k1 k2 : R s1 s2 -> (forall l, isim R Q s1 s2 (k1 l) (k2 l)) -> isim R Q s1 s2 (ReadFull n k1) (ReadFull n k2)
| is_more s1 s2 k1 k2 : (forall b, isim R Q s1 s2 (k1 b) (k2 b)) -> isim R Q s1 s2 (More k1) (More k2)
| is_get_l s1 s2 k p2 : isim R Q s1 s2 (k s1) p2 -> isim R Q s1 s2 (Get k) p2
| is_get_r s1 s2 p1 k : isim R Q s1 s2 p1 (k s2) -> isim R Q s1 s2 p1 (Get k)
| is_put_l s1 s2 t k p2 : isim R Q t s2 k p2 -> isim R Q s1 s2 (Put t k) p2
| is_put_r s1 s2 t p1 k : isim R Q s1 t p1 k -> isim R Q s1 s2 p1 (Put t k).

(* the only cases that look at the input are the two reads, which see the same bytes on both sides *)
Theorem run_c_isim {S E A} (R : S -> S -> Prop) (Q : A -> A -> Prop) s1 s2 (p1 p2 : prog S E A) :
  isim R Q s1 s2 p1 p2 -> forall c, rsim R Q (run_c p1 c s1) (run_c p2 c s2).
Proof.
  induction 1; intro c; cbn [run_c rsim]; auto.
  - destruct (c_byte (Datatypes.S (c_fuel c)) c); cbn [rsim]; auto.
  - destruct (c_take (Datatypes.S (c_fuel c)) n [] c); cbn [rsim]; auto.
Qed.

Theorem run_a_isim {S E A} (R : S -> S -> Prop) (Q : A -> A -> Prop) s1 s2 (p1 p2 : prog S E A) :
  isim R Q s1 s2 p1 p2 -> forall x, rsim R Q (run_a p1 x s1) (run_a p2 x s2).
Proof.
  induction 1; intro x; cbn [run_a rsim]; auto.
  - destruct (a_take 1 x) as [[l x']|e]; cbn [rsim]; auto.
  - destruct (a_take n x) as [[l x']|e]; cbn [rsim]; auto.
Qed.

(* lock-step: every state written is R-related to the one the other side writes, so R holds
   of the current states throughout *)
Lemma psim_isim {S E A} (R : S -> S -> Prop) (Q : A -> A -> Prop) (p1 p2 : prog S E A) :
  psim R Q p1 p2 -> forall s1 s2, R s1 s2 -> isim R Q s1 s2 p1 p2.
Proof. induction 1; intros t1 t2 HR; constructor; auto using is_get_r, is_put_r. Qed.

Theorem run_a_psim {S E A} (R : S -> S -> Prop) (Q : A -> A -> Prop) (p1 p2 : prog S E A) :
  psim R Q p1 p2 -> forall x s1 s2, R s1 s2 -> rsim R Q (run_a p1 x s1) (run_a p2 x s2).
Proof. intros H x s1 s2 HR. exact (run_a_isim R Q s1 s2 p1 p2 (psim_isim R Q p1 p2 H s1 s2 HR) x). Qed.

(* Where both sides make the same move the two states do not matter: [esim R p1 p2] relates
   the programs, returning equal values, from every R-related pair, and such pairs compose
   like the programs. *)
Definition esim {S E A} (R : S -> S -> Prop) (p1 p2 : prog S E A) : Prop :=
  forall s1 s2, R s1 s2 -> isim R eq s1 s2 p1 p2.

Lemma isim_bind {S E A B} (R : S -> S -> Prop) s1 s2 (p1 p2 : prog S E A) (f1 f2 : A -> prog S E B) :
  isim R eq s1 s2 p1 p2 -> (forall a, esim R (f1 a) (f2 a)) -> isim R eq s1 s2 (bind p1 f1) (bind p2 f2).
Proof. intros H Hf. induction H; cbn [bind]; [subst; apply Hf; assumption|constructor; auto ..]. Qed.

Lemma esim_bind {S E A B} (R : S -> S -> Prop) (p1 p2 : prog S E A) (f1 f2 : A -> prog S E B) :
  esim R p1 p2 -> (forall a, esim R (f1 a) (f2 a)) -> esim R (bind p1 f1) (bind p2 f2).
Proof. intros H Hf s1 s2 HR. apply isim_bind; auto. Qed.

Lemma esim_ret {S E A} (R : S -> S -> Prop) a : esim R (Ret a : prog S E A) (Ret a).
Proof. intros s1 s2 HR. apply is_ret; auto. Qed.
Lemma esim_fail {S E A} (R : S -> S -> Prop) e : esim R (Fail e : prog S E A) (Fail e).
Proof. intros s1 s2. apply is_fail. Qed.
Lemma esim_panic {S E A} (R : S -> S -> Prop) w : esim R (Panic w : prog S E A) (Panic w).
Proof. intros s1 s2 _. apply is_panic. Qed.
Lemma esim_byte {S E A} (R : S -> S -> Prop) (k1 k2 : N -> prog S E A) :
  (forall b, esim R (k1 b) (k2 b)) -> esim R (ReadByte k1) (ReadByte k2).
Proof. intros H s1 s2 HR. apply is_byte; [exact HR|]. intro b. apply H, HR. Qed.
Lemma esim_full {S E A} (R : S -> S -> Prop) n (k1 k2 : list N -> prog S E A) :
  (forall l, esim R (k1 l) (k2 l)) -> esim R (ReadFull n k1) (ReadFull n k2).
Proof. intros H s1 s2 HR. apply is_full; [exact HR|]. intro l. apply H, HR. Qed.
Lemma esim_more {S E A} (R : S -> S -> Prop) (k1 k2 : bool -> prog S E A) :
  (forall b, esim R (k1 b) (k2 b)) -> esim R (More k1) (More k2).
Proof. intros H s1 s2 HR. apply is_more. intro b. apply H, HR. Qed.
Lemma esim_get {S E A} (R : S -> S -> Prop) (k1 k2 : S -> prog S E A) :
  (forall s1 s2, R s1 s2 -> isim R eq s1 s2 (k1 s1) (k2 s2)) -> esim R (Get k1) (Get k2).
Proof. intros H s1 s2 HR. apply is_get_l, is_get_r, H, HR. Qed.
Lemma isim_put {S E A} (R : S -> S -> Prop) s1 s2 t1 t2 (k1 k2 : prog S E A) :
  R t1 t2 -> esim R k1 k2 -> isim R eq s1 s2 (Put t1 k1) (Put t2 k2).
Proof. intros HR H. apply is_put_l, is_put_r, H, HR. Qed.
