(* C04 (b)/(c): the entry points, through the verdict characterisation of Proofs/C04Verdict.v.
   - decode_agrees_check: where Decode accepts or returns an IntegrityError, CheckIntegrity returns the same,
     under any two schedules; decode_ok_integrity_ok is the case of acceptance;
   - corruption_detected: after a burst of at most 16 contiguous bits outside the size fields both
     Decode and CheckIntegrity return an error. *)
From Coq Require Import NArith List Lia.
From FitV Require Import Model.Crc Model.IO Model.Decode Spec.Burst Spec.Integrity
  Proofs.C04IO Proofs.C04Verdict Proofs.C04Bytes.
Import ListNotations.
Local Open Scope N_scope.

Theorem decode_agrees_check : forall o g fuel rd r,
  decode o MFull g rd fuel = TDone r -> (forall e, dr_err r = Some e -> is_integrity e = true) ->
  forall o2 g2 fuel2 rd2, rd_data rd2 = rd_data rd -> (measure rd2 < fuel2)%nat ->
  exists r2, decode o2 MCrcOnly g2 rd2 fuel2 = TDone r2 /\ dr_err r2 = dr_err r /\
             (dr_err r = None -> (rd_pos (dr_rd r2) - rd_pos rd2 = rd_pos (dr_rd r) - rd_pos rd)%nat).
Proof.
  intros o g fuel rd r Hd Hi o2 g2 fuel2 rd2 Hdata Hm2.
  destruct (decode_full_spec o g fuel rd r Hd) as [[Hv Hp]|(e & He & Hn)]; [|rewrite (Hi e He) in Hn; discriminate Hn].
  destruct (check_integrity_spec o2 g2 fuel2 rd2 Hm2) as (r2 & E2 & Hv2 & Hp2).
  rewrite Hdata, (verdict_term_irrelevant _ _ (rd_term rd)), <- Hv in Hv2 by now rewrite <- Hv.
  exists r2. split; [exact E2|]. split; [exact Hv2|]. intros Hn. rewrite Hp2, Hp, Hdata by congruence. lia.
Qed.

Theorem decode_ok_integrity_ok : forall o g fuel rd r, (measure rd < fuel)%nat ->
  decode o MFull g rd fuel = TDone r -> dr_err r = None ->
  forall o2 g2 fuel2 rd2, rd_data rd2 = rd_data rd -> (measure rd2 < fuel2)%nat ->
  exists r2, decode o2 MCrcOnly g2 rd2 fuel2 = TDone r2 /\ dr_err r2 = None /\
             (rd_pos (dr_rd r2) - rd_pos rd2 = rd_pos (dr_rd r) - rd_pos rd)%nat.
Proof.
  intros o g fuel rd r _ Hd He o2 g2 fuel2 rd2 Hdata Hm2.
  destruct (decode_agrees_check o g fuel rd r Hd ltac:(congruence) o2 g2 fuel2 rd2 Hdata Hm2) as (r2 & E2 & Hv2 & Hp2).
  exists r2. split; [exact E2|]. split; [congruence|auto].
Qed.

Lemma verdict_rejected : forall o g fuel rd, (measure rd < fuel)%nat ->
  crc_verdict_with checksum (rd_data rd) (rd_term rd) <> None ->
  (exists r, decode o MCrcOnly g rd fuel = TDone r /\ dr_err r <> None) /\
  (forall r, decode o MFull g rd fuel = TDone r -> dr_err r <> None).
Proof.
  intros o g fuel rd Hm Hc. split.
  - destruct (check_integrity_spec o g fuel rd Hm) as (r & E & Hr & _). exists r. split; [exact E|]. now rewrite Hr.
  - intros r E He. apply Hc. now destruct (accepted_verdict o g fuel rd r MFull (or_introl eq_refl) Hm E He).
Qed.

Theorem corruption_detected : forall bs tm off p,
  crc_verdict_with checksum bs tm = None ->
  burst16 (frame_len bs) off p ->
  outside_size_fields (burst (frame_len bs) off p) = true ->
  forall rd, rd_data rd = xorl bs (burst (frame_len bs) off p) ->
  forall o g fuel, (measure rd < fuel)%nat ->
    (exists r, decode o MCrcOnly g rd fuel = TDone r /\ dr_err r <> None) /\
    (forall r, decode o MFull g rd fuel = TDone r -> dr_err r <> None).
Proof.
  intros bs tm off p Hv Hb Ho rd Hdata o g fuel Hm. apply verdict_rejected; [exact Hm|].
  rewrite Hdata. now apply (corrupted_verdict bs tm).
Qed.
