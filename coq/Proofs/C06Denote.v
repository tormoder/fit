(* C06 at stream level, middle piece: the record list Encode lays out ([lay], C06Defs.v) is in the
   domain of the reference semantics [denote] (Spec/FitSyntax.v) and denotes the messages that were put
   in, up to the normal form [norm_msg].

   The profile enters through the finite check EncodeProofs.msg_ok0 over the generated entries (compat of every
   entry, no entry 255, invalid values).  One field ([field_rt]) goes through [array_rt] if it is an array, else by
   one case analysis on its kind (integers, arrays and strings through the reference readings of C06Codec.v); [denote_fields_inv] carries
   one such fact per field ([fld_fact]) along a definition, up to [lay_denote] for the record list. *)
From Coq Require Import NArith ZArith List Bool Lia String.
From Coq Require Import ZifyN ZifyNat ZifyBool.
From FitV Require Import Model.Values Model.Bytes Model.Base Model.Profile Model.Components Model.Route Model.Encode
  Spec.FitSyntax Spec.Grammar Spec.RoundTrip Proofs.Util Proofs.ProfileProofs Proofs.EncodeProofs Proofs.C05Grammar Proofs.C05Wire
  Proofs.C06Codec Proofs.C06Defs Gen.ProfileData Gen.Consts.
From FitV Require Proofs.StreamDenoteSkip.
Import ListNotations.
Local Open Scope N_scope.
Ltac Zify.zify_post_hook ::= Z.div_mod_to_equations.

Lemma known_not_invalid : forallb (fun n => negb (n =? c_MesgNumInvalid)) known_msgnums = true.
Proof. vm_compute. reflexivity. Qed.

Lemma known_msg_valid gmn : known_msg gmn = true -> (gmn =? c_MesgNumInvalid) = false.
Proof.
  unfold known_msg. intros H. apply existsb_exists in H as (n & Hin & Hn). apply N.eqb_eq in Hn. subst n.
  pose proof known_not_invalid as T. rewrite forallb_forall in T. apply T in Hin. now apply negb_true_iff in Hin.
Qed.

Lemma from_profile_compat gmn pf : from_profile gmn pf -> compat gmn (sfdef_of pf) = true.
Proof.
  intros H. destruct (from_profile_ok0 _ _ H) as (md & Ef & Hok). rewrite <- (proj2 (find_msg_in _ _ Ef)).
  exact (e0_compat _ _ Hok).
Qed.

Lemma int_in_type_typed ty x : int_in_type ty x = true -> val_has_type ty x = true.
Proof. destruct ty, x; cbn [int_in_type val_has_type]; auto; discriminate. Qed.

(* an array of integers: its elements, then Invalid() up to the profile length, which norm_field strips *)
Lemma array_rt be pf ety v p ref :
  fit_kind (pf_t pf) = kind_native -> fit_array (pf_t pf) = true -> codec_ty (fit_base (pf_t pf)) = Some ety ->
  pf_length pf < 256 -> field_in_domain pf (TSlice ety) v = true -> write_field be pf (TSlice ety) v = EOk p ->
  exists x, denote_field be (sfdef_of pf) pf (TSlice ety) ref p = Some x /\ norm_field pf x = norm_field pf v.
Proof.
  intros Hk Ea Ec H256 Hd Hw.
  destruct (codec_facts_ok _ _ Ec) as (_ & Es & _ & Hbs & (iv & Hiv & _) & _).
  (* nil is written as the empty array *)
  assert (Hl : exists l, write_field be pf (TSlice ety) (VList l) = EOk p /\ norm_field pf (VList l) = norm_field pf v /\
                         N.of_nat (List.length l) <= pf_length pf /\ all_typed ety l).
  { unfold field_in_domain in Hd. cbv zeta in Hd. rewrite Ea, Es in Hd. cbn [elem_type] in Hd. destruct v; try discriminate Hd.
    - exists []. split; [exact Hw|]. split; [unfold norm_field; now rewrite Ea, Es|]. split; [cbn [List.length]; lia|intros x []].
    - apply andb_true_iff in Hd as [Hlen Hall]. apply N.leb_le in Hlen. exists l. repeat split; [exact Hw|exact Hlen|].
      intros x Hx. rewrite forallb_forall in Hall. now apply int_in_type_typed, Hall. }
  destruct Hl as (l & Hwl & <- & Hlen & Ht).
  assert (Hkb : (fit_kind (pf_t pf) =? kind_native) = true) by (rewrite Hk; reflexivity).
  destruct (write_field_array_int be pf ety iv l p Ea Hkb Ec Hiv Hlen H256 Ht Hwl) as [HL ->].
  exists (VList (l ++ repeat iv (N.to_nat (pf_length pf) - List.length l))). split.
  - unfold denote_field. cbv zeta. change (sf_btype (sfdef_of pf)) with (fit_base (pf_t pf)).
    rewrite Hk, Ea, Es, Hbs. change (kind_native =? kind_native) with true. cbv iota.
    do 2 f_equal. apply enc_list_rt; [exact (codec_ty_int _ _ Ec)|exact HL].
  - apply (norm_field_array_pad pf iv l _ Ea Es (codec_is_inv _ _ Hiv)).
Qed.

Lemma norm_local_time_of pf ref u : fit_kind (pf_t pf) = kind_timelocal -> fit_array (pf_t pf) = false ->
  norm_field pf (local_time_of ref u) = VTime (Z.of_N u) 0 None.
Proof.
  intros Hk Ha. unfold local_time_of. destruct ref as [r|]; [destruct (r <? c_systemTimeMarker)|];
    rewrite (norm_field_local pf _ _ _ Hk Ha); cbn [zone_off]; f_equal; lia.
Qed.

Lemma lat_of_valid z : (z = 2147483647 \/ -1073741824 <= z <= 1073741823)%Z -> lat_of z = VLat z.
Proof.
  intros Hz. unfold lat_of, coord_invalid. change (2 ^ 30)%Z with 1073741824%Z. destruct Hz as [->|Hz]; [reflexivity|].
  match goal with |- (if ?c then _ else _) = _ => assert (E : c = false) by lia; rewrite E end. reflexivity.
Qed.

Lemma array_native gmn pf ty : C05Grammar.entry_ok gmn pf = true -> field_type gmn (pf_sindex pf) = Some ty ->
  fit_array (pf_t pf) = true -> fit_kind (pf_t pf) = kind_native.
Proof.
  intros (bs & H)%entry_ok_parts Hty Ha. pose proof (eo_sized _ _ _ H ty Hty) as K. unfold sized in K. rewrite Ha in K.
  now apply N.eqb_eq.
Qed.

(* The reference semantics reads nothing only from the empty string; the field then keeps
   the value of the all-invalid message, which is the empty string *)
Lemma field_rt be gmn md pf ty v p ref :
  find_msg gmn = Some md -> from_profile gmn pf -> field_type gmn (pf_sindex pf) = Some ty ->
  field_in_domain pf ty v = true -> write_field be pf ty v = EOk p ->
  match denote_field be (sfdef_of pf) pf ty ref p with
  | Some x => norm_field pf x = norm_field pf v
  | None => forall iv, nth_error (md_invalid md) (pf_sindex pf) = Some iv -> norm_field pf iv = norm_field pf v
  end.
Proof.
  intros Ef Hfp Hty Hd Hw. pose proof (fp_ok0 _ _ _ Ef Hfp) as Hok0.
  destruct (get_field_expected_ty _ _ _ (proj1 (from_profile_get_field _ _ Hfp))) as (Hexp & _ & H256).
  rewrite Hty in Hexp. unfold expected_ty in Hexp. cbv zeta in Hexp.
  destruct (fit_array (pf_t pf)) eqn:Ea.
  - pose proof (array_native _ _ _ (from_profile_entry_ok _ _ Hfp) Hty Ea) as Hk.
    destruct (fit_base (pf_t pf) =? base_string) eqn:Es.
    { unfold write_field in Hw. cbv zeta in Hw. rewrite Ea, Es in Hw. discriminate. }
    destruct (codec_ty (fit_base (pf_t pf))) as [ety|] eqn:Ec; [|discriminate]. injection Hexp as <-.
    destruct (array_rt be pf ety v p ref Hk Ea Ec H256 Hd Hw) as (x & -> & E). exact E.
  - (* a single value: the writer, the reader, the domain and the expected Go type all branch on the kind *)
    unfold field_in_domain in Hd. cbv zeta in Hd. rewrite Ea in Hd.
    unfold write_field in Hw. rewrite Ea in Hw. cbn [negb] in Hw. unfold encode_value in Hw. cbv zeta in Hw.
    unfold denote_field. cbv zeta. rewrite Ea. change (sf_btype (sfdef_of pf)) with (fit_base (pf_t pf)).
    revert Hw Hd Hexp.
    destruct (kind_specP (fit_kind (pf_t pf))) as [K|K|K|K|K|]; [destruct (fit_base (pf_t pf) =? base_string) eqn:Es|..];
      cbn [orb]; intros Hw Hd Hexp.
    + destruct v; try discriminate Hd.
      apply andb_true_iff in Hd as [Hd Hl]. apply andb_true_iff in Hd as [Hnz Hu]. apply N.leb_le in Hl.
      rewrite (encode_string_fits s _ Hu Hl) in Hw. injection Hw as <-.
      destruct (N.to_nat (pf_length pf) - List.length s)%nat as [|k] eqn:Ek; [lia|].
      rewrite (upto_nul_pad s k Hnz). destruct s; [|reflexivity].
      intros iv Hiv. rewrite (e0_string_inv _ _ Hok0 Ea Es) in Hiv. now injection Hiv as <-.
    + pose proof (codec_ty_int _ _ Hexp) as Hi. pose proof (int_in_type_typed _ _ Hd) as Hv.
      rewrite (bw_enc_elem be ty v Hi Hv) in Hw. injection Hw as <-. now rewrite elem_rt.
    + destruct v; try discriminate Hd.
      apply andb_true_iff in Hd as [Hn Hs]. apply N.eqb_eq in Hn. subst nsec. apply z_in_iff in Hs.
      injection Hw as <-. rewrite (encode_time_id sec Hs). unfold wire_unsigned. rewrite get_val_put_int4 by lia.
      destruct (N.eqb_spec (Z.to_N sec) 4294967295) as [E|_]; [lia|]. unfold time_of. rewrite Z2N.id by lia.
      now rewrite !(norm_field_utc pf _ _ _ K Ea).
    + destruct v; try discriminate Hd.
      apply andb_true_iff in Hd as [Hd Hz]. apply andb_true_iff in Hd as [Hn Hs]. apply N.eqb_eq in Hn. subst nsec.
      apply z_in_iff in Hs. apply z_in_iff in Hz. fold (zone_off zone) in Hz.
      injection Hw as <-. rewrite (encode_time_local_id sec zone Hs Hz). unfold wire_unsigned. rewrite get_val_put_int4 by lia.
      destruct (N.eqb_spec (Z.to_N (sec + zone_off zone)) 4294967295) as [E|_]; [lia|].
      rewrite (norm_local_time_of pf ref _ K Ea), (norm_field_local pf sec 0 zone K Ea). f_equal. lia.
    + rewrite (e0_coord _ _ Hok0 (or_introl K)). destruct v; try discriminate Hd.
      apply orb_true_iff in Hd. rewrite Z.eqb_eq, z_in_iff in Hd.
      injection Hw as <-. rewrite wire_signed_put32 by lia. now rewrite lat_of_valid.
    + rewrite (e0_coord _ _ Hok0 (or_intror K)). destruct v; try discriminate Hd. apply z_in_iff in Hd.
      injection Hw as <-. now rewrite wire_signed_put32.
    + discriminate Hexp.
Qed.

(* what the induction needs of one field of the definition and the bytes written for it *)
Definition fld_fact (be : bool) (gmn : N) (inv0 : list goval) (good : nat -> goval -> Prop) (pf : pfield) (p : list N) : Prop :=
  get_field gmn (pf_num pf) = Some pf /\ List.length p = N.to_nat (fsize pf) /\
  forall ref,
    match denote_field be (sfdef_of pf) pf (match field_type gmn (pf_sindex pf) with Some t => t | None => TOther end) ref p with
    | Some x => good (pf_sindex pf) x
    | None => forall iv, nth_error inv0 (pf_sindex pf) = Some iv -> good (pf_sindex pf) iv
    end.

Definition sdef_of (be : bool) (gmn : N) (fields : list pfield) : sdef := mk_sdef be gmn (map sfdef_of fields) 0.

Lemma payload_size_parts be gmn inv0 good : forall fields parts, Forall2 (fld_fact be gmn inv0 good) fields parts ->
  payload_size (sdef_of be gmn fields) = List.length (List.concat parts).
Proof.
  unfold payload_size, sdef_of. cbn [sd_fds].
  induction 1 as [|pf p fields parts (_ & Hp & _) HF IH]; [reflexivity|].
  cbn [map fold_right List.concat]. rewrite app_length, IH. change (sf_size (sfdef_of pf)) with (fsize pf). now rewrite Hp.
Qed.

(* [good i x]: x is acceptable at struct index i.  Starting from values each of which is good already or is the
   all-invalid value at an index that a field of the definition owns, denote_fields ends with good values
   everywhere; no field is unlisted *)
Lemma denote_fields_inv be gmn inv0 good : forall fields parts,
  Forall2 (fld_fact be gmn inv0 good) fields parts ->
  forall cur ref unl,
    (forall i x, nth_error cur i = Some x -> good i x \/ In i (map pf_sindex fields) /\ nth_error inv0 i = Some x) ->
    exists fs' ref',
      denote_fields be gmn (map sfdef_of fields) (List.concat parts) (mk_msg gmn cur) ref unl = (mk_msg gmn fs', ref', unl) /\
      List.length fs' = List.length cur /\ forall i x, nth_error fs' i = Some x -> good i x.
Proof.
  induction 1 as [|pf p fields parts (Hg & Hl & Hden) HF IH]; intros cur ref unl Hcur.
  - exists cur, ref. split; [reflexivity|]. split; [reflexivity|]. intros i x Hx. now destruct (Hcur i x Hx) as [H|[[] _]].
  - cbn [map List.concat denote_fields]. change (sf_num (sfdef_of pf)) with (pf_num pf).
    change (sf_size (sfdef_of pf)) with (fsize pf). rewrite Hg. cbv zeta. rewrite <- Hl, firstn_len_app, skipn_len_app.
    specialize (Hden ref). cbn [m_num m_fields].
    destruct (denote_field be (sfdef_of pf) pf _ ref p) as [x|].
    + edestruct (IH (set_at (pf_sindex pf) x cur)) as (fs' & ref' & E & Hlen & Hall).
      * intros i y Hy. rewrite Util.nth_error_set_nth in Hy. destruct (Nat.eqb_spec i (pf_sindex pf)) as [->|Hne].
        -- left. destruct (nth_error cur (pf_sindex pf)); [injection Hy as <-; exact Hden|discriminate].
        -- destruct (Hcur i y Hy) as [H|[[E|Hin] Hiv]]; [now left|now destruct Hne|now right].
      * exists fs', ref'. split; [exact E|]. split; [now rewrite Hlen, StreamDenoteSkip.set_at_length|exact Hall].
    + apply IH. intros i y Hy.
      destruct (Hcur i y Hy) as [H|[[<-|Hin] Hiv]]; [now left|left; now apply Hden|now right].
Qed.

Definition msg_dom (m : msg) : Prop :=
  vals_typed (msg_layout (m_num m)) (m_fields m) = true /\ msg_in_domain m = true /\ known_msg (m_num m) = true.

Lemma fields_in_domain_nth gmn vals i v : fields_in_domain gmn 0 vals = true -> nth_error vals i = Some v ->
  exists pf ty, pfield_of_sindex gmn i = Some pf /\ field_type gmn i = Some ty /\ field_in_domain pf ty v = true.
Proof.
  change i with (0 + i)%nat at 2 3. generalize 0%nat as k. revert i.
  induction vals as [|a vals IH]; intros i k H Hn; [destruct i; discriminate|].
  cbn [fields_in_domain] in H. apply andb_true_iff in H as [H0 H].
  destruct i as [|i]; cbn [nth_error] in Hn.
  - inversion Hn; subst. rewrite Nat.add_0_r.
    destruct (pfield_of_sindex gmn k) as [pf|]; [|discriminate]. destruct (field_type gmn k) as [ty|]; [|discriminate]. eauto.
  - rewrite Nat.add_succ_r. now apply (IH i (S k)).
Qed.

Lemma map_fields_ext f gmn : forall l1 l2 k, List.length l1 = List.length l2 ->
  (forall i x y, nth_error l1 i = Some x -> nth_error l2 i = Some y ->
     exists pf, pfield_of_sindex gmn (k + i) = Some pf /\ f pf x = f pf y) ->
  map_fields f gmn k l1 = map_fields f gmn k l2.
Proof.
  induction l1 as [|a l1 IH]; intros [|b l2] k Hl H; try discriminate; [reflexivity|].
  cbn [map_fields]. f_equal.
  - destruct (H 0%nat a b eq_refl eq_refl) as (pf & Hq & E). rewrite Nat.add_0_r in Hq. now rewrite Hq.
  - apply IH; [now inversion Hl|]. intros i x y Hx Hy. replace (S k + i)%nat with (k + S i)%nat by lia. now apply H.
Qed.

Lemma nil_is_array pf ty v : field_in_domain pf ty v = true -> v = VNil \/ v = VList [] -> fit_array (pf_t pf) = true.
Proof.
  unfold field_in_domain. cbv zeta. destruct (fit_array (pf_t pf)); [reflexivity|].
  intros H Hv. exfalso.
  repeat match type of H with (if ?c then _ else _) = _ => destruct c end;
    destruct Hv as [-> | ->]; try discriminate; destruct ty; discriminate.
Qed.

(* a struct field the definition does not mention is unset: the all-invalid value stands for it *)
Lemma unset_norm q ty v iv : unset v iv = true -> field_in_domain q ty v = true ->
  (fit_array (pf_t q) = true -> iv = VNil) -> norm_field q iv = norm_field q v.
Proof.
  intros Hu Hd Hiv.
  assert (Hnil : v = VNil \/ v = VList [] -> norm_field q iv = norm_field q v).
  { intros Hv. pose proof (nil_is_array _ _ _ Hd Hv) as Ea. rewrite (Hiv Ea). unfold norm_field. rewrite Ea.
    destruct Hv as [-> | ->]; destruct (fit_base (pf_t q) =? base_string); reflexivity. }
  destruct v; cbn [unset] in Hu; try (apply goval_eqb_eq in Hu; now subst); [now apply Hnil; left|].
  destruct l; [apply Hnil; now right|discriminate].
Qed.

Definition same_at (m : msg) (i : nat) (x : goval) : Prop :=
  forall v q, nth_error (m_fields m) i = Some v -> pfield_of_sindex (m_num m) i = Some q -> norm_field q x = norm_field q v.

Lemma same_at_intro m i x v q : nth_error (m_fields m) i = Some v -> pfield_of_sindex (m_num m) i = Some q ->
  norm_field q x = norm_field q v -> same_at m i x.
Proof. intros Hv Hq E v' q' Hv' Hq'. rewrite Hv in Hv'. rewrite Hq in Hq'. injection Hv' as <-. injection Hq' as <-. exact E. Qed.

Lemma field_fact be m md pf p :
  find_msg (m_num m) = Some md -> fields_in_domain (m_num m) 0 (m_fields m) = true ->
  from_profile (m_num m) pf -> field_out be m pf = EOk p -> fld_fact be (m_num m) (md_invalid md) (same_at m) pf p.
Proof.
  intros Ef Hfd Hpf Hp.
  unfold field_out in Hp. destruct (nth_error (m_fields m) (pf_sindex pf)) as [v|] eqn:Ev; [|discriminate].
  destruct (field_type (m_num m) (pf_sindex pf)) as [ty|] eqn:Ety; [|discriminate].
  pose proof (from_profile_sindex _ _ Hpf) as Hq.
  destruct (fields_in_domain_nth _ _ _ _ Hfd Ev) as (q & ty' & Hq' & Hty' & Hd).
  rewrite Hq in Hq'. rewrite Ety in Hty'. injection Hq' as <-. injection Hty' as <-.
  split; [exact (proj1 (from_profile_get_field _ _ Hpf))|].
  split; [pose proof (write_field_len _ _ _ _ _ _ (from_profile_entry_ok _ _ Hpf) Ety Hp); lia|].
  intros ref. rewrite Ety. pose proof (field_rt be _ md pf ty v p ref Ef Hpf Ety Hd Hp) as R.
  destruct (denote_field be (sfdef_of pf) pf ty ref p) as [x|]; [|intros iv Hiv];
    apply (same_at_intro m _ _ v pf Ev Hq); auto.
Qed.

Lemma menc_denote be m fields parts ref unl : menc be m fields parts -> msg_dom m ->
  payload_size (sdef_of be (m_num m) fields) = List.length (List.concat parts) /\
  exists inv fs' ref', mesg_all_invalid (m_num m) = Some inv /\
    denote_fields be (m_num m) (map sfdef_of fields) (List.concat parts) inv ref unl = (mk_msg (m_num m) fs', ref', unl) /\
    norm_msg (mk_msg (m_num m) fs') = norm_msg m.
Proof.
  intros (Hfp & _ & HF & (inv & Hinv & Hlen & Hcov)) (_ & Hdom & _).
  destruct (mesg_all_invalid_some _ _ Hinv) as (md & Ef & ->). cbn [m_fields] in Hlen, Hcov.
  unfold msg_in_domain in Hdom. apply andb_true_iff in Hdom as [Hfd _].
  assert (HFF : Forall2 (fld_fact be (m_num m) (md_invalid md) (same_at m)) fields parts).
  { eapply Forall2_impl_l; [|exact Hfp|exact HF]. intros pf p. now apply field_fact. }
  split; [exact (payload_size_parts _ _ _ _ _ _ HFF)|].
  destruct (denote_fields_inv be (m_num m) (md_invalid md) (same_at m) fields parts HFF (md_invalid md) ref unl)
    as (fs' & ref' & E & Hlen' & Hall).
  - (* a struct field is unset, or the definition has its entry *)
    intros i x Hx. destruct (nth_error (m_fields m) i) as [v|] eqn:Hv; [|left; intros v q Hv'; congruence].
    destruct (fields_in_domain_nth _ _ _ _ Hfd Hv) as (q & ty & Hq & _ & Hd).
    destruct (Hcov i v x Hv Hx) as [Hun|(pf & Hby & Hin)].
    + left. apply (same_at_intro m i x v q Hv Hq), (unset_norm q ty v x Hun Hd). intros Ea.
      pose proof (e0_array_inv _ _ (fp_ok0 _ _ _ Ef (pfs_from _ _ _ Hq)) Ea) as E.
      rewrite (proj2 (pfs_by _ _ _ Hq)), Hx in E. now injection E.
    + right. split; [|exact Hx]. apply by_pfs in Hby. rewrite <- (proj2 (pfs_by _ _ _ Hby)).
      apply in_map_iff in Hin as (pf' & En & Hin'). rewrite Forall_forall in Hfp.
      destruct (from_profile_get_field _ _ (Hfp pf' Hin')) as [G' _].
      destruct (from_profile_get_field _ _ (pfs_from _ _ _ Hby)) as [G _].
      rewrite En, G in G'. injection G' as <-. now apply in_map.
  - exists (mk_msg (m_num m) (md_invalid md)), fs', ref'. split; [exact Hinv|]. split; [exact E|].
    unfold norm_msg. cbn [m_num m_fields]. f_equal. apply map_fields_ext; [now rewrite Hlen', Hlen|].
    intros i x y Hx Hy. destruct (fields_in_domain_nth _ _ _ _ Hfd Hy) as (q & _ & Hq & _).
    exists q. split; [exact Hq|exact (Hall i x Hx y q Hy Hq)].
Qed.

Lemma def_step be gmn fields s : known_msg gmn = true -> Forall (from_profile gmn) fields ->
  denote_record s (rdef_of be gmn fields) =
  Some (mk_sstate ((0, sdef_of be gmn fields) :: ss_env s) (ss_ref s) (ss_msgs s) (ss_unkm s) (ss_unkf s)).
Proof.
  intros Hk Hfp. apply StreamDenoteData.denote_def_iff. repeat split; [now apply N.eqb_neq, known_msg_valid|].
  apply forallb_forall. intros f (pf & <- & Hin)%in_map_iff. rewrite Forall_forall in Hfp. now apply from_profile_compat, Hfp.
Qed.

Lemma data_step be m fields parts s : menc be m fields parts -> msg_dom m ->
  FitSyntax.lookup_def (ss_env s) 0 = Some (sdef_of be (m_num m) fields) ->
  exists m2 ref2,
    denote_record s (rdata_of parts) = Some (mk_sstate (ss_env s) ref2 (ss_msgs s ++ [m2]) (ss_unkm s) (ss_unkf s)) /\
    msg_norm_eq m m2.
Proof.
  intros Hm Hd Hl.
  destruct (menc_denote be m fields parts (ss_ref s) [] Hm Hd) as (Hsz & inv & fs' & ref' & Hinv & E & Hn).
  exists (mk_msg (m_num m) fs'), ref'. split; [|split; [reflexivity|exact Hn]].
  unfold rdata_of, denote_record, denote_data. rewrite Hl, Hsz, Nat.eqb_refl.
  cbn [sdef_of sd_gmn sd_be sd_fds sd_devsize List.length Nat.eqb negb orb]. cbv zeta.
  destruct Hd as (_ & _ & Hk). rewrite Hk, Hinv. cbv beta iota. rewrite E. reflexivity.
Qed.

Definition denotes_to (s : sstate) (rs : list record) (msgs : list msg) : Prop :=
  exists s' msgs', denote_from s rs = Some s' /\ ss_msgs s' = ss_msgs s ++ msgs' /\ Forall2 msg_norm_eq msgs msgs' /\
    ss_unkm s' = ss_unkm s /\ ss_unkf s' = ss_unkf s.

Lemma denotes_to_nil s : denotes_to s [] [].
Proof. exists s, []. rewrite app_nil_r. repeat split; constructor. Qed.

Lemma denotes_to_app s a b ms1 ms2 : denotes_to s a ms1 -> (forall s1, denotes_to s1 b ms2) -> denotes_to s (a ++ b) (ms1 ++ ms2).
Proof.
  intros (s1 & l1 & E1 & M1 & F1 & U1 & V1) H2. destruct (H2 s1) as (s2 & l2 & E2 & M2 & F2 & U2 & V2).
  exists s2, (l1 ++ l2). rewrite StreamDenoteData.denote_from_app, E1, E2. split; [reflexivity|].
  split; [now rewrite M2, M1, <- app_assoc|]. split; [now apply Forall2_app|]. now rewrite U2, V2, U1, V1.
Qed.

Lemma data_run be mn fields : forall group partss,
  Forall2 (fun m parts => menc be m fields parts) group partss ->
  Forall (fun m => m_num m = mn) group -> Forall msg_dom group ->
  forall s, FitSyntax.lookup_def (ss_env s) 0 = Some (sdef_of be mn fields) -> denotes_to s (map rdata_of partss) group.
Proof.
  induction 1 as [|m parts group partss Hm HF IH]; intros Hn Hd s Hl; [apply denotes_to_nil|].
  inversion Hn as [|? ? En Hn']; subst. inversion Hd as [|? ? Hdm Hd']; subst.
  destruct (data_step be m fields parts s Hm Hdm Hl) as (m2 & ref2 & E & Hne).
  destruct (IH Hn' Hd' (mk_sstate (ss_env s) ref2 (ss_msgs s ++ [m2]) (ss_unkm s) (ss_unkf s)) Hl)
    as (s' & msgs' & E' & Hmsgs & HF2 & Hu1 & Hu2).
  exists s', (m2 :: msgs'). cbn [map denote_from]. rewrite E, E'.
  split; [reflexivity|]. split; [rewrite Hmsgs; cbn [ss_msgs]; now rewrite <- app_assoc|].
  split; [now constructor|]. split; assumption.
Qed.

Lemma slot_denote be mn fields group partss s :
  Forall2 (fun m parts => menc be m fields parts) group partss -> group <> [] ->
  Forall (fun m => m_num m = mn) group -> Forall msg_dom group ->
  denotes_to s (rdef_of be mn fields :: map rdata_of partss) group.
Proof.
  intros HF Hne Hn Hd.
  assert (Hk : known_msg mn = true /\ Forall (from_profile mn) fields).
  { destruct HF as [|m0 p0 group partss (Hfp & _) _]; [congruence|].
    inversion Hn as [|? ? En _]; subst. inversion Hd as [|? ? (_ & _ & Hk) _]; subst. auto. }
  unfold denotes_to. cbn [denote_from]. rewrite (def_step be mn fields s (proj1 Hk) (proj2 Hk)).
  exact (data_run be mn fields group partss HF Hn Hd
           (mk_sstate ((0, sdef_of be mn fields) :: ss_env s) (ss_ref s) (ss_msgs s) (ss_unkm s) (ss_unkf s)) eq_refl).
Qed.

Theorem lay_denote : forall be msgs rs, lay be msgs rs -> Forall msg_dom msgs ->
  forall ss0, exists ss1 msgs',
    denote_from ss0 rs = Some ss1 /\ ss_msgs ss1 = ss_msgs ss0 ++ msgs' /\ Forall2 msg_norm_eq msgs msgs' /\
    ss_unkm ss1 = ss_unkm ss0 /\ ss_unkf ss1 = ss_unkf ss0.
Proof.
  intros be msgs rs H. change (Forall msg_dom msgs -> forall ss0, denotes_to ss0 rs msgs).
  induction H as [|mn fields group partss ms rs Hne Hn HF IH] using lay_groups; intros Hd ss0.
  - apply denotes_to_nil.
  - apply Forall_app in Hd as [Hdg Hd'].
    apply (denotes_to_app ss0 (rdef_of be mn fields :: map rdata_of partss) rs group ms); [|now apply IH].
    now apply slot_denote.
Qed.

Corollary lay_denote_init be msgs rs : lay be msgs rs -> Forall msg_dom msgs ->
  exists ss1 msgs', denote rs = Some ss1 /\ ss_msgs ss1 = msgs' /\ Forall2 msg_norm_eq msgs msgs' /\
    ss_unkm ss1 = [] /\ ss_unkf ss1 = [].
Proof.
  intros H Hd. destruct (lay_denote be msgs rs H Hd ss_init) as (ss1 & msgs' & E & Hm & HF & H1 & H2).
  exists ss1, msgs'. auto.
Qed.
