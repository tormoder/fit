(* C14 -- The checksum is CRC-16/ARC and does not depend on how data is fed. *)
From Coq Require Import NArith List.
From FitV Require Import Model.Crc Spec.CrcSpec Proofs.CrcProofs.
Import ListNotations.
Local Open Scope N_scope.

Theorem C14_update_is_arc : forall c d, c < 65536 -> d < 256 -> update_byte c d = arc_step c d.
Proof. exact update_is_arc. Qed.
Print Assumptions C14_update_is_arc.

(* for every byte sequence the package checksum is the reflected CRC-16, poly 0xA001, init 0 *)
Theorem C14_checksum_is_arc : forall data, is_bytes data -> checksum data = arc data.
Proof. exact checksum_is_arc. Qed.
Print Assumptions C14_checksum_is_arc.

(* any split of the data into successive writes gives the same sum as a single write *)
Theorem C14_write_partition : forall h chunks,
  crc_sum16 (fold_left crc_write chunks h) = crc_sum16 (crc_write h (concat chunks)).
Proof.
  intros h chunks. revert h. induction chunks as [|c cs IH]; intros h; cbn [fold_left concat].
  - reflexivity.
  - rewrite IH. apply write_split.
Qed.
Print Assumptions C14_write_partition.

Theorem C14_checksum_is_write : forall data, checksum data = crc_sum16 (crc_write crc_new data).
Proof. exact checksum_is_write. Qed.

Theorem C14_reset : forall h, crc_reset h = crc_new.
Proof. reflexivity. Qed.

(* appending the sum little-endian makes the checksum of the whole zero *)
Theorem C14_residue_zero : forall data, is_bytes data ->
  checksum (data ++ [lo8 (checksum data); hi8 (checksum data)]) = 0.
Proof. exact residue_zero. Qed.
Print Assumptions C14_residue_zero.

(* non-vacuity: the standard check value of CRC-16/ARC, "123456789" -> 0xBB3D *)
Example C14_check_value : checksum [49; 50; 51; 52; 53; 54; 55; 56; 57] = 0xBB3D /\ is_bytes [49; 50; 51; 52; 53; 54; 55; 56; 57].
Proof. split; [vm_compute; reflexivity|repeat constructor]. Qed.
