(* The string-array scanner of the decoder model (indices j, k over the whole buffer)
   computes the same list of pieces as the reference split_strings (upto_nul / skipn). *)
From Coq Require Import NArith ZArith List Bool Lia Arith.
From Coq Require Import ZifyN ZifyNat ZifyBool.
From FitV Require Import Proofs.Util Model.Values Model.Bytes Model.Decode Spec.FitSyntax
  Proofs.StreamDenoteBase.
Import ListNotations.
Local Open Scope N_scope.

Lemma first_zero_nil : first_zero [] = O.
Proof. reflexivity. Qed.

Lemma first_zero_le_length : forall l, (first_zero l <= List.length l)%nat.
Proof.
  induction l as [|b r IH]; [cbn; lia|]. rewrite first_zero_cons. cbn [List.length].
  destruct (b =? 0); lia.
Qed.

Lemma first_zero_before : forall l k, (k < first_zero l)%nat -> nth k l 0 <> 0.
Proof.
  induction l as [|b r IH]; intros k Hk; [rewrite first_zero_nil in Hk; lia|].
  rewrite first_zero_cons in Hk. destruct (b =? 0) eqn:Hb; [lia|].
  destruct k as [|k]; cbn [nth]; [lia|]. apply IH. lia.
Qed.

Lemma first_zero_at : forall l, (first_zero l < List.length l)%nat -> nth (first_zero l) l 0 = 0.
Proof.
  induction l as [|b r IH]; intros Hl; [cbn in Hl; lia|].
  rewrite first_zero_cons in *. cbn [List.length] in Hl. destruct (b =? 0) eqn:Hb; cbn [nth]; [lia|].
  apply IH. lia.
Qed.

Lemma first_zero_here : forall l k, (k <= first_zero l)%nat -> (k < List.length l)%nat ->
  if nth k l 0 =? 0 then first_zero l = k else (S k <= first_zero l)%nat.
Proof.
  intros l k Hle Hlen. destruct (Nat.eq_dec (first_zero l) k) as [E|E].
  - subst k. rewrite first_zero_at by exact Hlen. reflexivity.
  - pose proof (first_zero_before l k ltac:(lia)) as Hnz. apply N.eqb_neq in Hnz. rewrite Hnz. lia.
Qed.

Lemma split_strings_nil : forall f, split_strings f [] = [].
Proof. destruct f; reflexivity. Qed.

Lemma split_strings_stop : forall f l, first_zero l = O -> split_strings f l = [].
Proof.
  intros f l Hz. destruct f as [|f]; [reflexivity|]. cbn [split_strings].
  destruct l as [|b r]; [reflexivity|]. apply upto_nul_nil_iff in Hz. rewrite Hz. reflexivity.
Qed.

Lemma split_strings_step : forall f l, first_zero l <> O ->
  split_strings (S f) l = firstn (first_zero l) l :: split_strings f (skipn (S (first_zero l)) l).
Proof.
  intros f l Hnz. cbn [split_strings].
  destruct l as [|b r]; [rewrite first_zero_nil in Hnz; lia|].
  pose proof (first_zero_le_length (b :: r)) as Hle.
  rewrite upto_nul_first_zero.
  assert (Hlen : List.length (firstn (first_zero (b :: r)) (b :: r)) = first_zero (b :: r))
    by (rewrite firstn_length; lia).
  destruct (firstn (first_zero (b :: r)) (b :: r)) as [|x s] eqn:Es; [cbn [List.length] in Hlen; lia|].
  rewrite Hlen. reflexivity.
Qed.

Lemma split_strings_fuel : forall f1 f2 l, (List.length l <= f1)%nat -> (List.length l <= f2)%nat ->
  split_strings f1 l = split_strings f2 l.
Proof.
  induction f1 as [|f1 IH]; intros f2 l H1 H2.
  - destruct l as [|b r]; [|cbn in H1; lia]. now rewrite !split_strings_nil.
  - destruct f2 as [|f2].
    + destruct l as [|b r]; [|cbn in H2; lia]. now rewrite !split_strings_nil.
    + destruct (Nat.eq_dec (first_zero l) O) as [E|E].
      * now rewrite !split_strings_stop by exact E.
      * rewrite !split_strings_step by exact E. f_equal.
        apply IH; rewrite skipn_length; lia.
Qed.

Lemma scan_split_gen : forall fuel buf j k acc fuel',
  (j + k < List.length buf)%nat ->
  (k <= first_zero (skipn j buf))%nat ->
  (List.length buf - (j + k) <= fuel)%nat ->
  (List.length buf - j <= fuel')%nat ->
  scan_strings fuel buf (List.length buf) j k acc = acc ++ split_strings fuel' (skipn j buf).
Proof.
  induction fuel as [|f IH]; intros buf j k acc fuel' Hjk Hk Hf Hf'; [lia|].
  pose proof (skipn_length j buf) as Hlen.
  pose proof (first_zero_le_length (skipn j buf)) as Hfz.
  destruct fuel' as [|f']; [lia|].
  cbn [scan_strings]. unfold b_at. rewrite <- nth_skipn_add.
  pose proof (first_zero_here (skipn j buf) k Hk ltac:(lia)) as Efz.
  destruct (nth k (skipn j buf) 0 =? 0).
  - (* a zero byte ends the piece *)
    destruct (Nat.eqb k 0) eqn:Hk0; [apply Nat.eqb_eq in Hk0|apply Nat.eqb_neq in Hk0].
    + (* an empty piece ends the list *)
      rewrite split_strings_stop by congruence. now rewrite app_nil_r.
    + rewrite split_strings_step by congruence. rewrite Efz, skipn_skipn_add.
      replace (j + S k)%nat with (j + k + 1)%nat by lia.
      destruct (Nat.leb (List.length buf) (j + k + 1)) eqn:Hend; [apply Nat.leb_le in Hend|apply Nat.leb_gt in Hend].
      * rewrite (skipn_all2 buf (n := (j + k + 1)%nat)) by lia. now rewrite split_strings_nil.
      * rewrite (IH buf (j + k + 1)%nat O _ f'); try lia.
        now rewrite <- app_assoc.
  - (* a non-zero byte extends the piece *)
    destruct (Nat.leb (List.length buf) (j + S k)) eqn:Hend; [apply Nat.leb_le in Hend|apply Nat.leb_gt in Hend].
    + (* the buffer ends inside the piece *)
      assert (Eend : first_zero (skipn j buf) = (List.length buf - j)%nat) by lia.
      rewrite split_strings_step by lia. rewrite Eend.
      rewrite (skipn_all2 (skipn j buf)) by lia. now rewrite split_strings_nil.
    + apply IH; lia.
Qed.

Theorem scan_is_split : forall buf, buf <> [] ->
  scan_strings (S (List.length buf)) buf (List.length buf) 0 0 [] = split_strings (S (List.length buf)) buf.
Proof.
  intros buf Hne.
  assert (Hlen : (0 < List.length buf)%nat) by (destruct buf; [congruence|cbn; lia]).
  rewrite (scan_split_gen (S (List.length buf)) buf O O [] (S (List.length buf))); cbn [skipn]; try lia.
  reflexivity.
Qed.

Corollary string_array_agree : forall buf,
  (match buf with [] => true | _ => false end = false) ->
  (match scan_strings (S (List.length buf)) buf (List.length buf) 0 0 [] with [] => VNil | l => VList (map VStr l) end) =
  (match split_strings (S (List.length buf)) buf with [] => VNil | l => VList (map VStr l) end).
Proof.
  intros buf H. rewrite scan_is_split; [reflexivity|]. intros E. subst buf. discriminate.
Qed.

Print Assumptions string_array_agree.
Print Assumptions scan_is_split.
