(* C16 counts_on_failure: the unknown-message / unknown-field counters of the state a failing decode
   returns.  They are at least the counts of the records completed before the failure and at most
   those plus the contribution of the one record in flight.
   On any input and from any state, record_spec bounds what parse_record can do to the counters, and the
   record loop never decreases them; the two bounds are then taken after a well-formed prefix followed by
   arbitrary bytes or by a truncated well-formed record, and carried to the sorted lists the File reports. *)
From Coq Require Import NArith ZArith List Bool Lia Arith.
From Coq Require Import ZifyN ZifyNat ZifyBool Permutation.
From FitV Require Import Proofs.Util Model.Values Model.Bytes Model.Base Model.Profile Model.Reflect Model.IO
  Model.Route Model.Components Model.Decode Spec.FitSyntax Spec.RouteSpec Proofs.RouteProofs Proofs.DecodeLemmas Gen.Consts
  Proofs.C10IO Proofs.DecodeFrame Proofs.StreamDenoteBase Proofs.StreamDenoteDefs Proofs.StreamDenoteDef Proofs.StreamDenoteData
  Proofs.StreamDenoteRecord Proofs.StreamDenoteLoop Proofs.StreamDenoteSkip.
Import ListNotations.
Local Open Scope N_scope.
Ltac Zify.zify_post_hook ::= Z.div_mod_to_equations.

Fixpoint cnt1 (k : N) (l : list (N * N)) : N :=
  match l with [] => 0 | (a, c) :: r => if a =? k then c else cnt1 k r end.
Fixpoint cnt2 (m k : N) (l : list (N * N * N)) : N :=
  match l with [] => 0 | (a, b, c) :: r => if (a =? m) && (b =? k) then c else cnt2 m k r end.

Definition le1 (l l' : list (N * N)) : Prop := forall k, cnt1 k l <= cnt1 k l'.
Definition le2 (l l' : list (N * N * N)) : Prop := forall m k, cnt2 m k l <= cnt2 m k l'.

Lemma le1_refl l : le1 l l.
Proof. intros k. apply N.le_refl. Qed.

Lemma bump_keys {K} (eqb : K -> K -> bool) k : forall l a,
  In a (map fst (bump eqb k l)) -> a = k \/ In a (map fst l).
Proof.
  induction l as [|[b c] r IH]; intros a; simpl.
  - intros [H|[]]. now left.
  - destruct (eqb b k); simpl; [tauto|]. intros [H|H]; [tauto|]. apply IH in H. tauto.
Qed.

Lemma bump_nodup {K} (eqb : K -> K -> bool) (Hs : forall a b : K, reflect (a = b) (eqb a b)) k : forall l,
  NoDup (map fst l) -> NoDup (map fst (bump eqb k l)).
Proof.
  induction l as [|[b c] r IH]; intros Hn; simpl.
  - constructor; [intros []|constructor].
  - destruct (Hs b k) as [E|NE]; [exact Hn|].
    simpl in *. inversion Hn as [|? ? Hni Hn']; subst. constructor; [|now apply IH].
    intros Hin. apply bump_keys in Hin. destruct Hin; [congruence|contradiction].
Qed.

Lemma cnt_perm {K} (eqb : K -> K -> bool) (Hs : forall a b : K, reflect (a = b) (eqb a b)) k l l' :
  Permutation l l' -> NoDup (map fst l) -> cnt eqb k l = cnt eqb k l'.
Proof.
  induction 1 as [|[a c] l l' Hp IH|[a c] [b d] l|l l' l'' Hp1 IH1 Hp2 IH2]; intros Hn; simpl in *.
  - reflexivity.
  - inversion Hn; subst. destruct (eqb a k); auto.
  - inversion Hn as [|? ? Hni _]; subst. destruct (Hs a k), (Hs b k); try reflexivity.
    exfalso. apply Hni. left. congruence.
  - rewrite IH1 by exact Hn. apply IH2. eapply Permutation_NoDup; [apply Permutation_map, Hp1|exact Hn].
Qed.

(* cnt1 and bump1 are DecodeLemmas.cnt and bump at N.eqb by conversion; cnt2 and bump2 spell the pair of
   keys out and are brought to that form by cnt2_gen and bump2_gen *)
Definition eqb2 (p q : N * N) : bool := (fst p =? fst q) && (snd p =? snd q).
Definition key2 (x : N * N * N) : N * N := (fst (fst x), snd (fst x)).

Lemma eqb2_spec p q : reflect (p = q) (eqb2 p q).
Proof.
  destruct p as [a b], q as [a' b']. unfold eqb2. cbn [fst snd].
  destruct (N.eqb_spec a a'), (N.eqb_spec b b'); constructor; congruence.
Qed.
Lemma cnt2_gen m k l : cnt2 m k l = cnt eqb2 (m, k) l.
Proof. induction l as [|[[a b] c] r IH]; simpl; [|rewrite IH]; reflexivity. Qed.
Lemma bump2_gen m k l : bump2 (m, k) l = bump eqb2 (m, k) l.
Proof. unfold bump2. cbn [fst snd]. induction l as [|[[a b] c] r IH]; simpl; [|rewrite IH]; reflexivity. Qed.
Lemma key2_fst l : map key2 l = map fst l.
Proof. apply map_ext. now intros [[a b] c]. Qed.

Lemma bump2_cnt m k m' k' l :
  cnt2 m' k' (bump2 (m, k) l) = if (m' =? m) && (k' =? k) then cnt2 m' k' l + 1 else cnt2 m' k' l.
Proof. rewrite !cnt2_gen, bump2_gen. exact (bump_cnt eqb2 eqb2_spec (m, k) (m', k') l). Qed.

Lemma le1_bump k l : le1 l (bump1 k l).
Proof.
  intros k'. change (cnt N.eqb k' l <= cnt N.eqb k' (bump N.eqb k l)).
  rewrite (bump_cnt N.eqb N.eqb_spec). destruct (k' =? k); lia.
Qed.

(* the counters after a run of unlisted fields of one message *)
Definition folds (m0 : N) (ks : list N) (l : list (N * N * N)) : list (N * N * N) :=
  fold_left (fun acc x => bump2 (m0, x) acc) ks l.

Lemma folds_app m0 ks1 ks2 l : folds m0 (ks1 ++ ks2) l = folds m0 ks2 (folds m0 ks1 l).
Proof. unfold folds. apply fold_left_app. Qed.

(* bumps commute up to cnt: only the number of occurrences of a key matters *)
Lemma folds_cnt m0 m k : forall ks l,
  cnt2 m k (folds m0 ks l) = cnt2 m k l + (if m =? m0 then N.of_nat (count_occ N.eq_dec ks k) else 0).
Proof.
  induction ks as [|x r IH]; intros l.
  - cbn [folds fold_left count_occ]. destruct (m =? m0); cbn [N.of_nat]; lia.
  - change (folds m0 (x :: r) l) with (folds m0 r (bump2 (m0, x) l)). rewrite IH, bump2_cnt.
    cbn [count_occ]. destruct (N.eqb_spec m m0) as [->|NE]; cbn [andb].
    + destruct (N.eq_dec x k) as [->|NE]; [rewrite N.eqb_refl; lia|].
      replace (k =? x) with false by (symmetry; apply N.eqb_neq; congruence). lia.
    + lia.
Qed.

Lemma le2_folds m0 ks l : le2 l (folds m0 ks l).
Proof. intros m k. rewrite folds_cnt. lia. Qed.

Definition prefix {A} (l1 l2 : list A) : Prop := exists r, l2 = l1 ++ r.

Lemma prefix_refl {A} (l : list A) : prefix l l.
Proof. exists []. now rewrite app_nil_r. Qed.
Lemma prefix_nil {A} (l : list A) : prefix [] l.
Proof. exists l. reflexivity. Qed.
Lemma prefix_trans {A} (a b c : list A) : prefix a b -> prefix b c -> prefix a c.
Proof. intros [r ->] [r' ->]. exists (r ++ r'). now rewrite app_assoc. Qed.
Lemma prefix_app {A} (a b c : list A) : prefix b c -> prefix (a ++ b) (a ++ c).
Proof. intros [r ->]. exists r. now rewrite app_assoc. Qed.
Lemma prefix_app_l {A} (a b : list A) : prefix a (a ++ b).
Proof. exists b. reflexivity. Qed.
Lemma prefix_nil_inv {A} (l : list A) : prefix l [] -> l = [].
Proof. intros [r H]. destruct l; [reflexivity|discriminate]. Qed.

Lemma le2_folds_prefix m0 ks1 ks2 l : prefix ks1 ks2 -> le2 (folds m0 ks1 l) (folds m0 ks2 l).
Proof. intros [r ->]. rewrite folds_app. apply le2_folds. Qed.

(* [post2 Pok Perr r]: a state returned with success satisfies Pok, one returned with a failure
   (decoder error or I/O error) satisfies Perr; panics and fuel exhaustion return no state *)
Definition post2 {X E A} (Pok Perr : dstate -> Prop) (r : result X dstate E A) : Prop :=
  match r with
  | ROk _ _ s' => Pok s'
  | RFail _ _ s' => Perr s'
  | RIOErr _ _ s' => Perr s'
  | RPanic _ => True
  | ROutOfFuel => True
  end.
Definition post {X E A} (Q : dstate -> Prop) (r : result X dstate E A) : Prop := post2 Q Q r.

Lemma post2_bind {A B} (Pok Perr Qok Qerr : dstate -> Prop) (p : P A) (f : A -> P B) x s :
  post2 Pok Perr (run_a p x s) ->
  (forall a x' s', Pok s' -> post2 Qok Qerr (run_a (f a) x' s')) ->
  (forall s', Perr s' -> Qerr s') ->
  post2 Qok Qerr (run_a (bind p f) x s).
Proof.
  intros Hp Hf He. rewrite run_bind. destruct (run_a p x s) as [a x' s'|e x' s'|e x' s'|w|]; cbn [rbind post2] in *; auto.
Qed.

Lemma post2_weaken {X E A} (Pok Perr Qok Qerr : dstate -> Prop) (r : result X dstate E A) :
  post2 Pok Perr r -> (forall s', Pok s' -> Qok s') -> (forall s', Perr s' -> Qerr s') -> post2 Qok Qerr r.
Proof. destruct r; cbn [post2]; auto. Qed.

Lemma post_weaken {X E A} (Q1 Q2 : dstate -> Prop) (r : result X dstate E A) :
  post Q1 r -> (forall s, Q1 s -> Q2 s) -> post Q2 r.
Proof. destruct r; cbn [post post2]; auto. Qed.

Lemma post_and {X E A} (Q1 Q2 : dstate -> Prop) (r : result X dstate E A) :
  post Q1 r -> post Q2 r -> post (fun s => Q1 s /\ Q2 s) r.
Proof. destruct r; cbn [post post2]; auto. Qed.

Definition cs (um : list (N * N)) (uf : list (N * N * N)) (s : dstate) : Prop := ds_unkm s = um /\ ds_unkf s = uf.

Lemma cs_self s : cs (ds_unkm s) (ds_unkf s) s.
Proof. split; reflexivity. Qed.

Lemma cs_slots um uf : slots_free (cs um uf).
Proof. intros s d ts lo h H. exact H. Qed.
Lemma cs_file um uf : file_free (cs um uf).
Proof. intros s f g H. exact H. Qed.


(* the field numbers of a definition the profile does not list for its message, in order *)
Definition is_unl (gmn : N) (fd : fdef) : bool :=
  match get_field gmn (fd_num fd) with None => true | Some _ => false end.
Definition unlisted_of (gmn : N) (fds : list fdef) : list N := map fd_num (filter (is_unl gmn) fds).
Definition unlisted (dm : defmsg) : list N := unlisted_of (dm_gmn dm) (dm_fdefs dm).

Lemma unlisted_unfold dm :
  unlisted dm =
  map fd_num (filter (fun fd => match get_field (dm_gmn dm) (fd_num fd) with None => true | Some _ => false end) (dm_fdefs dm)).
Proof. reflexivity. Qed.

Definition counted (o : dopts) (gmn : N) (known : bool) (fds : list fdef) : list N :=
  if known && o_unkf o then unlisted_of gmn fds else [].

Lemma counted_cons o gmn known fd r :
  counted o gmn known (fd :: r) = counted o gmn known [fd] ++ counted o gmn known r.
Proof.
  unfold counted, unlisted_of. destruct (known && o_unkf o); [|reflexivity].
  cbn [filter]. destruct (is_unl gmn fd); reflexivity.
Qed.

Definition upto (gmn : N) (um : list (N * N)) (uf : list (N * N * N)) (ks : list N) (s' : dstate) : Prop :=
  exists ks1, prefix ks1 ks /\ cs um (folds gmn ks1 uf) s'.

(* [bumps gmn ks p]: p leaves the unknown-message counters alone and bumps the unknown-field counters
   for the fields ks of message gmn, in order: for all of them if it succeeds, for a prefix if it fails *)
Definition bumps {A} (gmn : N) (ks : list N) (p : P A) : Prop :=
  forall x s um uf, cs um uf s -> post2 (cs um (folds gmn ks uf)) (upto gmn um uf ks) (run_a p x s).

Lemma bumps_bind {A B} gmn k1 k2 (p : P A) (f : A -> P B) :
  bumps gmn k1 p -> (forall a, bumps gmn k2 (f a)) -> bumps gmn (k1 ++ k2) (bind p f).
Proof.
  intros Hp Hf x s um uf Hs. eapply post2_bind; [apply Hp, Hs| |].
  - intros a x' s' Hs'. eapply post2_weaken; [apply Hf, Hs'| |]; intros s''.
    + now rewrite folds_app.
    + intros (ks1 & Hpre & H). exists (k1 ++ ks1). rewrite folds_app. split; [now apply prefix_app|exact H].
  - intros s' (ks1 & Hpre & H). exists ks1. split; [|exact H].
    eapply prefix_trans; [exact Hpre|apply prefix_app_l].
Qed.

Lemma bumps_okp {A} gmn (p : P A) : (forall um uf, okp (cs um uf) p) -> bumps gmn [] p.
Proof.
  intros Hp x s um uf Hs. eapply post2_weaken; [apply (okp_sound _ _ (Hp um uf) x s Hs)|auto|].
  intros s' H. exists []. split; [apply prefix_nil|exact H].
Qed.

(* one field: a bump for (message, field) if the field is counted, and then before its bytes are read *)
Lemma pof_bumps o dm known fd msgv :
  bumps (dm_gmn dm) (counted o (dm_gmn dm) known [fd]) (parse_one_field o dm known fd msgv).
Proof.
  unfold counted, unlisted_of, is_unl. cbn [filter].
  destruct (get_field (dm_gmn dm) (fd_num fd)) as [p|] eqn:Eg.
  - replace (if known && o_unkf o then _ else _) with (@nil N) by (destruct (known && o_unkf o); reflexivity).
    apply bumps_okp. intros um uf. apply okp_pof; [apply slots_clock, cs_slots|congruence].
  - unfold parse_one_field. rewrite Eg, <- (app_nil_r (if known && o_unkf o then _ else [])).
    apply bumps_bind; [|intros _; apply bumps_okp; intros um uf; okp_walk (idtac; fail)].
    intros x s um uf [H1 H2]. destruct (known && o_unkf o); [|now split].
    cbn [bind get_st put_st run_a post2]. split; cbn [with_unkf ds_unkm ds_unkf]; [exact H1|now rewrite H2].
Qed.

Lemma fields_bumps o dm known : forall fds msgv,
  bumps (dm_gmn dm) (counted o (dm_gmn dm) known fds) (parse_fields o dm known fds msgv).
Proof.
  induction fds as [|fd r IH]; intros msgv.
  - intros x s um uf Hs. unfold counted. destruct (known && o_unkf o); exact Hs.
  - rewrite counted_cons. cbn [parse_fields]. apply bumps_bind; [apply pof_bumps|intros m'; apply IH].
Qed.

(* od: the definition in the slot the record header addresses (None: no data record, or an empty slot).
   What a complete record does to the counters: it bumps the unknown-message counter to [rec_um], then
   the unknown-field counters of message [rec_gmn] for the fields [rec_uf] *)
Definition rec_gmn (od : option defmsg) : N := match od with Some dm => dm_gmn dm | None => 0 end.
Definition rec_um (o : dopts) (od : option defmsg) (um : list (N * N)) : list (N * N) :=
  match od with
  | Some dm => if negb (known_msg (dm_gmn dm)) && o_unkm o then bump1 (dm_gmn dm) um else um
  | None => um
  end.
Definition rec_uf (o : dopts) (od : option defmsg) : list N :=
  match od with Some dm => counted o (dm_gmn dm) (known_msg (dm_gmn dm)) (dm_fdefs dm) | None => [] end.

(* [rec_ok]: the counters after the record completed; [rec_bound]: the counters at any point of it,
   untouched or with the message counted and a prefix of the fields *)
Definition rec_ok (o : dopts) (od : option defmsg) (um : list (N * N)) (uf : list (N * N * N)) (s' : dstate) : Prop :=
  cs (rec_um o od um) (folds (rec_gmn od) (rec_uf o od) uf) s'.
Definition rec_bound (o : dopts) (od : option defmsg) (um : list (N * N)) (uf : list (N * N * N)) (s' : dstate) : Prop :=
  cs um uf s' \/ upto (rec_gmn od) (rec_um o od um) uf (rec_uf o od) s'.

Lemma rec_ok_bound o od um uf s' : rec_ok o od um uf s' -> rec_bound o od um uf s'.
Proof. intros H. right. exists (rec_uf o od). split; [apply prefix_refl|exact H]. Qed.

Lemma rec_um_le o od um : le1 um (rec_um o od um).
Proof. destruct od as [dm|]; cbn [rec_um]; [destruct (_ && _)|]; apply le1_bump || apply le1_refl. Qed.

Lemma data_fields_spec o dm msgv x s um uf : cs (rec_um o (Some dm) um) uf s ->
  post2 (rec_ok o (Some dm) um uf) (rec_bound o (Some dm) um uf)
        (run_a (parse_data_fields o dm (known_msg (dm_gmn dm)) msgv) x s).
Proof.
  assert (Hb : bumps (dm_gmn dm) (rec_uf o (Some dm)) (parse_data_fields o dm (known_msg (dm_gmn dm)) msgv)).
  { unfold parse_data_fields. cbn [rec_uf]. rewrite <- (app_nil_r (counted _ _ _ _)).
    apply bumps_bind; [apply fields_bumps|intros m]. apply bumps_okp. intros um' uf'.
    apply okp_bind; [apply okp_skip_dev|intros _; exact I]. }
  intros Hs. eapply post2_weaken; [apply (Hb x s _ _ Hs)|auto|]. intros s' H. now right.
Qed.

(* the unknown-message counter is bumped first, then come the fields *)
Lemma dmw_spec o b c dm x s um uf : cs um uf s ->
  post2 (rec_ok o (Some dm) um uf) (rec_bound o (Some dm) um uf) (run_a (data_message_with o b c dm s) x s).
Proof.
  intros Hs. unfold data_message_with. cbv zeta.
  eapply post2_bind with (Pok := cs (rec_um o (Some dm) um) uf) (Perr := fun _ => False); [| |intros s' []].
  - cbn [rec_um]. destruct Hs as [H1 H2]. destruct (known_msg (dm_gmn dm)); cbn [negb andb].
    + destruct (mesg_all_invalid (dm_gmn dm)); cbn [run_a post2 panic]; [now split|exact I].
    + destruct (o_unkm o); unfold put_st; cbn [bind run_a post2]; split; cbn [with_unkm ds_unkm ds_unkf]; congruence.
  - (* the time stamp of a compressed header changes no counter: every branch that does not panic ends in the field loop *)
    intros msgv x1 s1 Hs1.
    destruct c; cbn [negb]; [|apply data_fields_spec, Hs1].
    cbn [get_st bind run_a].
    destruct (negb (ds_hasts s1)); [apply data_fields_spec, Hs1|].
    cbn [put_st bind run_a].
    destruct (get_field (dm_gmn dm) c_fieldNumTimeStamp) as [p|]; [|apply data_fields_spec, Hs1].
    destruct msgv as [m|]; [|exact I].
    destruct (field_type (dm_gmn dm) (pf_sindex p)) as [ty|]; [|exact I].
    destruct (set_time ty _) as [v|]; [|exact I].
    apply data_fields_spec, Hs1.
Qed.

(* the slot a data-record header addresses *)
Definition data_local (b : N) (compressed : bool) : N :=
  if compressed then N.shiftr (N.land b c_compressedLocalMesgNumMask) 5 else N.land b c_localMesgNumMask.

(* the definition a record header byte addresses: that of the slot of a data record (normal or with a
   compressed timestamp); none for a definition record or an invalid header *)
Definition hdr_slot (b : N) (s : dstate) : option defmsg :=
  if N.land b c_compressedHeaderMask =? c_compressedHeaderMask then nth (N.to_nat (data_local b true)) (ds_defs s) None
  else if N.land b c_mesgDefinitionMask =? c_mesgDefinitionMask then None
  else if N.land b c_mesgDefinitionMask =? c_mesgHeaderMask then nth (N.to_nat (data_local b false)) (ds_defs s) None
  else None.

Lemma data_record_spec o b c x s um uf : cs um uf s ->
  post2 (rec_ok o (nth (N.to_nat (data_local b c)) (ds_defs s) None) um uf)
        (rec_bound o (nth (N.to_nat (data_local b c)) (ds_defs s) None) um uf)
        (run_a (bind (parse_data_message o b c) tail_k) x s).
Proof.
  intros Hs. destruct (nth (N.to_nat (data_local b c)) (ds_defs s) None) as [dm|] eqn:En.
  - eapply post2_bind; [rewrite (data_message_uses_own_slot o b c x s dm En); apply dmw_spec, Hs| |auto].
    intros om x' s' H. eapply post2_weaken; [apply (okp_sound _ (tail_k om)); [|exact H]|auto|apply rec_ok_bound].
    destruct om as [m|]; [apply okp_add_msg, cs_file|exact I].
  - rewrite run_bind, (undefined_local_is_error o b c x s En). now left.
Qed.

Lemma a_take1_hd d x l x' : a_take 1 x = inl (l, x') -> hd 0 l = hd d (a_rest x).
Proof.
  unfold a_take. destruct (Nat.leb_spec 1 (Nat.min (a_limit x - a_n x) (List.length (a_rest x)))) as [L|_].
  - intros H. inversion H. destruct (a_rest x); [cbn [List.length] in L; lia|reflexivity].
  - destruct (Nat.leb _ _); discriminate.
Qed.

(* one record, any input, any state.  With od the definition the header byte addresses (d when there is no
   input: it is then not read): on success the counters are exactly those of a completed record of od; whenever a
   state is returned they lie between the start counters and those *)
Theorem record_spec d o x s um uf : cs um uf s ->
  post2 (rec_ok o (hdr_slot (hd d (a_rest x)) s) um uf) (rec_bound o (hdr_slot (hd d (a_rest x)) s) um uf)
        (run_a (parse_record o) x s).
Proof.
  intros Hs. unfold parse_record. rewrite run_bind. unfold read_byte. cbn [run_a].
  destruct (a_take 1 x) as [[l x']|e] eqn:Et; cbn [rbind post2]; [|now left].
  rewrite <- (a_take1_hd d x l x' Et). set (b := hd 0 l). unfold hdr_slot.
  destruct (N.land b c_compressedHeaderMask =? c_compressedHeaderMask); [apply data_record_spec, Hs|].
  destruct (N.land b c_mesgDefinitionMask =? c_mesgDefinitionMask).
  - eapply post2_weaken; [apply (okp_sound (cs um uf)); [|exact Hs]|auto|intros s' H; now left].
    apply okp_bind; [apply okp_parse_def|intros dm; apply okp_set_def, cs_slots].
  - destruct (N.land b c_mesgDefinitionMask =? c_mesgHeaderMask); [apply data_record_spec, Hs|now left].
Qed.

Corollary record_bound d o x s :
  post (rec_bound o (hdr_slot (hd d (a_rest x)) s) (ds_unkm s) (ds_unkf s)) (run_a (parse_record o) x s).
Proof.
  eapply post2_weaken; [apply (record_spec d o x s _ _ (cs_self s))|apply rec_ok_bound|auto].
Qed.

Definition grows (s s' : dstate) : Prop := le1 (ds_unkm s) (ds_unkm s') /\ le2 (ds_unkf s) (ds_unkf s').

Lemma grows_refl s : grows s s.
Proof. split; [apply le1_refl|intros m k; apply N.le_refl]. Qed.
Lemma grows_trans a b c : grows a b -> grows b c -> grows a c.
Proof.
  intros [H1 H2] [H3 H4]. split; [intros k|intros m k]; eapply N.le_trans; [apply H1|apply H3|apply H2|apply H4].
Qed.

Lemma rec_bound_le o od s s' : rec_bound o od (ds_unkm s) (ds_unkf s) s' -> grows s s'.
Proof.
  unfold grows. intros [[-> ->]|(ks & _ & -> & ->)]; [apply grows_refl|].
  split; [apply rec_um_le|apply le2_folds].
Qed.

Lemma rec_bound_ok_le o od um uf sf s2 : rec_bound o od um uf sf -> rec_ok o od um uf s2 -> grows sf s2.
Proof.
  unfold grows. intros [[-> ->]|(ks & Hp & -> & ->)] [-> ->]; split;
    first [apply le1_refl | apply rec_um_le | apply le2_folds | now apply le2_folds_prefix].
Qed.

Lemma loop_inv (J : dstate -> Prop) o : (forall x s, J s -> post J (run_a (parse_record o) x s)) ->
  forall fuel x s, J s -> post J (run_a (decode_file_data o fuel) x s).
Proof.
  intros Hrec. induction fuel as [|f IH]; intros x s Hs; [exact I|].
  cbn [decode_file_data run_a]. destruct (Nat.ltb (a_n x) (a_limit x)); [|exact Hs].
  eapply post2_bind; [apply Hrec, Hs| |auto]. intros _ x' s' H. apply IH, H.
Qed.

Theorem loop_grows o : forall fuel x s, post (grows s) (run_a (decode_file_data o fuel) x s).
Proof.
  intros fuel x s. apply (loop_inv (grows s)); [|apply grows_refl]. intros x' s' Hs'.
  eapply post_weaken; [apply (record_bound 0)|]. intros s'' H. exact (grows_trans _ _ _ Hs' (rec_bound_le _ _ _ _ H)).
Qed.

Definition counts_ge (o : dopts) (ss : sstate) (s : dstate) : Prop :=
  (o_unkm o = true -> le1 (ss_unkm ss) (ds_unkm s)) /\ (o_unkf o = true -> le2 (ss_unkf ss) (ds_unkf s)).
Definition counts_le (o : dopts) (s : dstate) (ss : sstate) : Prop :=
  (o_unkm o = true -> le1 (ds_unkm s) (ss_unkm ss)) /\ (o_unkf o = true -> le2 (ds_unkf s) (ss_unkf ss)).

Lemma inv_counts o pre fb gb ft s ss s' : Inv o pre fb gb ft s ss ->
  (grows s s' -> counts_ge o ss s') /\ (grows s' s -> counts_le o s' ss).
Proof.
  intros HI. split; intros [H1 H2]; split; intros Ho.
  1, 3: now rewrite <- (inv_unkm _ _ _ _ _ _ _ HI Ho).
  all: now rewrite <- (inv_unkf _ _ _ _ _ _ _ HI Ho).
Qed.

(* at least the counts of the completed records, whatever follows them and however it ends *)
Theorem counts_on_failure_lower : forall rs o pre fb gb ft s0 ss0 ss1 junk t n lim fuel,
  Inv o pre fb gb ft s0 ss0 ->
  stream_wf rs = true -> denote_from ss0 rs = Some ss1 ->
  (n + List.length (ser_records rs) <= lim)%nat ->
  post (counts_ge o ss1) (run_a (decode_file_data o fuel) (mk_ast (ser_records rs ++ junk) t n lim) s0).
Proof.
  intros rs o pre fb gb ft s0 ss0 ss1 junk t n lim fuel HI Hwf Hden Hlim.
  destruct (records_then rs o pre fb gb ft s0 ss0 ss1 junk t n lim HI Hwf Hden Hlim) as (s1 & HI1 & Heq).
  change (mk_ast (ser_records rs ++ junk) t n lim) with (ast_at (ser_records rs) junk t n lim).
  rewrite Heq. eapply post_weaken; [apply loop_grows|]. intros sf. apply (inv_counts _ _ _ _ _ _ _ sf HI1).
Qed.

(* a record the reference semantics accepts: every state the decoder can be left in while reading it has
   counters at least those of the reference state before the record and at most those of the reference state
   after it.  The decoder's own completed run of the record is the upper bound: it ends in a state the invariant
   ties to the reference *)
Lemma trunc_bound o pre fb gb ft s1 ss1 r ss2 sf :
  Inv o pre fb gb ft s1 ss1 -> rec_wf r = true -> denote_record ss1 r = Some ss2 ->
  rec_bound o (hdr_slot (hd 0 (ser_record r)) s1) (ds_unkm s1) (ds_unkf s1) sf -> counts_ge o ss1 sf /\ counts_le o sf ss2.
Proof.
  intros HI Hwf Hden Hb. split; [exact (proj1 (inv_counts _ _ _ _ _ _ _ sf HI) (rec_bound_le _ _ _ _ Hb))|].
  destruct (record_consumes o pre fb gb ft s1 ss1 r ss2 HI Hwf Hden) as (s2 & Hc & HI2).
  apply (inv_counts o pre fb gb ft s2 ss2 sf HI2), (rec_bound_ok_le _ _ _ _ _ _ Hb).
  pose proof (record_spec 0 o (mk_ast (ser_record r) TEOF 0 (0 + List.length (ser_record r))) s1 _ _ (cs_self s1)) as Hok.
  rewrite (consumes_all _ _ _ _ _ TEOF 0%nat _ Hc (le_n _)) in Hok. exact Hok.
Qed.

Lemma record_cut o pre fb gb ft s1 ss1 r ss2 cut rem t n lim :
  Inv o pre fb gb ft s1 ss1 -> rec_wf r = true -> denote_record ss1 r = Some ss2 ->
  ser_record r = cut ++ rem -> rem <> [] ->
  exists e x' sf, run_a (parse_record o) (mk_ast cut t n lim) s1 = RIOErr e x' sf.
Proof.
  intros HI Hwf Hden Hser Hrem.
  destruct (record_consumes o pre fb gb ft s1 ss1 r ss2 HI Hwf Hden) as (s2 & Hc & _). rewrite Hser in Hc.
  exact (consumes_cut _ _ _ _ _ Hc cut rem t n lim eq_refl Hrem).
Qed.

(* A well-formed record list, then a further record cut short.  The loop completes the list, reaching a state s1
   the invariant ties to it.  At the limit it stops there; below it, its outcome is the I/O error of the turn that
   parses the cut bytes from s1, so whatever holds of a failing parse_record holds of the failing loop. *)
Lemma truncated_run : forall rs r cut rem o pre fb gb ft s0 ss0 ss1 ss2 t n lim fuel,
  Inv o pre fb gb ft s0 ss0 ->
  stream_wf rs = true -> denote_from ss0 rs = Some ss1 ->
  rec_wf r = true -> denote_record ss1 r = Some ss2 ->
  ser_record r = cut ++ rem -> rem <> [] ->
  (n + List.length (ser_records rs) <= lim)%nat ->
  exists s1, Inv o pre fb gb ft s1 ss1 /\
  match run_a (decode_file_data o fuel) (mk_ast (ser_records rs ++ cut) t n lim) s0 with
  | ROk _ _ sf => (n + List.length (ser_records rs) = lim)%nat /\ sf = s1
  | RIOErr e x sf => (n + List.length (ser_records rs) < lim)%nat /\
                     run_a (parse_record o) (mk_ast cut t (n + List.length (ser_records rs)) lim) s1 = RIOErr e x sf
  | RPanic _ => (fuel <= List.length rs)%nat
  | _ => False
  end.
Proof.
  intros rs r cut rem o pre fb gb ft s0 ss0 ss1 ss2 t n lim fuel HI Hwf Hden Hwfr Hdr Hser Hrem Hlim.
  destruct (records_then rs o pre fb gb ft s0 ss0 ss1 cut t n lim HI Hwf Hden Hlim) as (s1 & HI1 & Heq).
  exists s1. split; [exact HI1|].
  change (mk_ast (ser_records rs ++ cut) t n lim) with (ast_at (ser_records rs) cut t n lim). rewrite Heq.
  destruct (fuel - List.length rs)%nat as [|f] eqn:Ef; [cbn [decode_file_data panic run_a]; lia|].
  cbn [decode_file_data run_a a_n a_limit].
  destruct (Nat.ltb_spec (n + List.length (ser_records rs)) lim) as [Hlt|Hge]; [|split; [lia|reflexivity]].
  rewrite run_bind.
  destruct (record_cut o pre fb gb ft s1 ss1 r ss2 cut rem t (n + List.length (ser_records rs))%nat lim HI1 Hwfr Hdr Hser Hrem)
    as (e & x' & sf & Hrun).
  rewrite Hrun. split; [exact Hlt|reflexivity].
Qed.

(* the headline: a well-formed record list, then a truncated further record: the counters returned lie
   between the counts of the completed records and those including the record in flight *)
Theorem counts_on_failure_truncated : forall rs r cut rem o pre fb gb ft s0 ss0 ss1 ss2 t n lim fuel,
  Inv o pre fb gb ft s0 ss0 ->
  stream_wf rs = true -> denote_from ss0 rs = Some ss1 ->
  rec_wf r = true -> denote_record ss1 r = Some ss2 ->
  ser_record r = cut ++ rem -> rem <> [] ->
  (n + List.length (ser_records rs) <= lim)%nat ->
  post (fun sf => counts_ge o ss1 sf /\ counts_le o sf ss2)
       (run_a (decode_file_data o fuel) (mk_ast (ser_records rs ++ cut) t n lim) s0).
Proof.
  intros rs r cut rem o pre fb gb ft s0 ss0 ss1 ss2 t n lim fuel HI Hwf Hden Hwfr Hdr Hser Hrem Hlim.
  destruct (truncated_run rs r cut rem o pre fb gb ft s0 ss0 ss1 ss2 t n lim fuel HI Hwf Hden Hwfr Hdr Hser Hrem Hlim)
    as (s1 & HI1 & H).
  pose proof (fun sf => trunc_bound o pre fb gb ft s1 ss1 r ss2 sf HI1 Hwfr Hdr) as Hle. rewrite Hser in Hle.
  destruct (run_a _ _ s0) as [a x sf|e x sf|e x sf|w|]; try contradiction; try exact I; cbn [post post2]; apply Hle.
  - destruct H as [_ ->]. left. apply cs_self.
  - (* were cut empty, the header byte would not be read *)
    pose proof (record_bound (hd 0 (cut ++ rem)) o (mk_ast cut t (n + List.length (ser_records rs)) lim) s1) as Hb.
    rewrite (proj2 H) in Hb. cbn [a_rest] in Hb. now replace (hd (hd 0 (cut ++ rem)) cut) with (hd 0 (cut ++ rem)) in Hb by now destruct cut.
Qed.

Definition distinct_keys (s : dstate) : Prop := NoDup (map fst (ds_unkm s)) /\ NoDup (map key2 (ds_unkf s)).

Lemma distinct_keys_init f g : distinct_keys (init_dstate f g).
Proof. split; constructor. Qed.

Lemma distinct_keys_free : slots_free distinct_keys /\ counts_free distinct_keys /\ file_free distinct_keys.
Proof.
  split; [intros s d ts lo h H; exact H|]. split; [|intros s f g H; exact H].
  split; intros s k [H1 H2]; (split; [try exact H1|try exact H2]); cbn [with_unkf with_unkm ds_unkm ds_unkf].
  - destruct k as [m k]. rewrite key2_fst, bump2_gen in *. now apply (bump_nodup eqb2 eqb2_spec).
  - now apply (bump_nodup N.eqb N.eqb_spec).
Qed.

Theorem loop_distinct o fuel x s : distinct_keys s -> post distinct_keys (run_a (decode_file_data o fuel) x s).
Proof.
  apply loop_inv. destruct distinct_keys_free as (HJ & HC & HF). exact (okp_sound _ _ (okp_record _ o HJ HC HF)).
Qed.

(* the lists of the File handed back with the failure: the sorted counters, count for count *)
Theorem finalize_counts o sf : distinct_keys sf ->
  (o_unkm o = true ->
   exists lm, f_unkm (finalize_unknown o sf) = Some lm /\ forall k, cnt1 k lm = cnt1 k (ds_unkm sf)) /\
  (o_unkf o = true ->
   exists lf, f_unkf (finalize_unknown o sf) = Some lf /\ forall m k, cnt2 m k lf = cnt2 m k (ds_unkf sf)).
Proof.
  intros [H1 H2]. unfold finalize_unknown. cbn [f_unkm f_unkf]. split; intros Ho; rewrite Ho.
  - eexists. split; [reflexivity|]. intros k. symmetry.
    exact (cnt_perm N.eqb N.eqb_spec k _ _ (sort_unkm_perm _) H1).
  - eexists. split; [reflexivity|]. intros m k. rewrite !cnt2_gen. symmetry.
    apply (cnt_perm eqb2 eqb2_spec); [apply unknown_fields_perm|now rewrite <- key2_fst].
Qed.

Definition counts_between (o : dopts) (ss1 ss2 : sstate) (file' : file) : Prop :=
  (o_unkm o = true ->
   exists lm, f_unkm file' = Some lm /\ forall k, cnt1 k (ss_unkm ss1) <= cnt1 k lm <= cnt1 k (ss_unkm ss2)) /\
  (o_unkf o = true ->
   exists lf, f_unkf file' = Some lf /\ forall m k, cnt2 m k (ss_unkf ss1) <= cnt2 m k lf <= cnt2 m k (ss_unkf ss2)).

(* the lists in the File returned with the failure, count for count, lie between the
   reference counts of the completed records and those including the truncated record *)
Theorem counts_on_failure_file : forall rs r cut rem o pre fb gb ft s0 ss0 ss1 ss2 t n lim fuel,
  Inv o pre fb gb ft s0 ss0 -> distinct_keys s0 ->
  stream_wf rs = true -> denote_from ss0 rs = Some ss1 ->
  rec_wf r = true -> denote_record ss1 r = Some ss2 ->
  ser_record r = cut ++ rem -> rem <> [] ->
  (n + List.length (ser_records rs) <= lim)%nat ->
  post (fun sf => counts_between o ss1 ss2 (finalize_unknown o sf))
       (run_a (decode_file_data o fuel) (mk_ast (ser_records rs ++ cut) t n lim) s0).
Proof.
  intros rs r cut rem o pre fb gb ft s0 ss0 ss1 ss2 t n lim fuel HI Hd Hwf Hden Hwfr Hdr Hser Hrem Hlim.
  eapply post_weaken.
  - apply post_and; [eapply counts_on_failure_truncated; eassumption|apply loop_distinct, Hd].
  - cbv beta. intros sf [[[L1 L2] [U1 U2]] Hdk].
    destruct (finalize_counts o sf Hdk) as [F1 F2]. split; intros Ho.
    + destruct (F1 Ho) as (lm & E & Hc). exists lm. split; [exact E|]. intros k. rewrite Hc.
      split; [apply (L1 Ho)|apply (U1 Ho)].
    + destruct (F2 Ho) as (lf & E & Hc). exists lf. split; [exact E|]. intros m k. rewrite Hc.
      split; [apply (L2 Ho)|apply (U2 Ho)].
Qed.

(* a byte string that ends inside a serialised record list: complete records, then a strict prefix of the next *)
Lemma ser_records_cut : forall full inp more, ser_records full = inp ++ more -> more <> [] ->
  exists rs r rest cut rem, full = rs ++ r :: rest /\ inp = ser_records rs ++ cut /\ ser_record r = cut ++ rem /\ rem <> [].
Proof.
  induction full as [|r rest IH]; intros inp more E Hm.
  - symmetry in E. apply app_eq_nil in E. now destruct E.
  - change (ser_records (r :: rest)) with (ser_record r ++ ser_records rest) in E.
    assert (Hin : exists l, inp = ser_record r ++ l /\ ser_records rest = l ++ more \/ ser_record r = inp ++ l /\ l <> []).
    { apply app_eq_app in E. destruct E as [l [[E1 E2]|[E1 E2]]]; [destruct l as [|y l]|].
      - exists []. left. now rewrite app_nil_r in *.
      - exists (y :: l). right. split; [exact E1|discriminate].
      - exists l. now left. }
    destruct Hin as [l [[-> E2]|[E1 Hl]]].
    + destruct (IH l more E2 Hm) as (rs & r' & rest' & cut & rem & -> & -> & Hser & Hne).
      exists (r :: rs), r', rest', cut, rem. repeat split; try assumption.
      change (ser_records (r :: rs)) with (ser_record r ++ ser_records rs). now rewrite app_assoc.
    + exists [], r, rest, inp, l. repeat split; assumption.
Qed.

Lemma denote_from_split rs r rest ss0 ssF :
  stream_wf (rs ++ r :: rest) = true ->
  denote_from ss0 (rs ++ r :: rest) = Some ssF ->
  exists ss1 ss2, stream_wf rs = true /\ denote_from ss0 rs = Some ss1 /\
                  rec_wf r = true /\ denote_record ss1 r = Some ss2.
Proof.
  unfold stream_wf. rewrite forallb_app, denote_from_app. cbn [forallb denote_from].
  intros Hwf Hden. apply andb_prop in Hwf. destruct Hwf as [Hwf Hr]. apply andb_prop in Hr.
  destruct (denote_from ss0 rs) as [ss1|]; [|discriminate].
  destruct (denote_record ss1 r) as [ss2|] eqn:Er; [|discriminate].
  exists ss1, ss2. tauto.
Qed.

(* decoding a strict prefix of the bytes of a stream the reference semantics accepts (the limit not below
   the bytes available): the counters returned lie between the reference counts after the records that
   are complete in the prefix and those after the record the prefix cuts *)
Theorem counts_on_failure_prefix : forall full inp o pre fb gb ft s0 ss0 ssF t n lim fuel,
  Inv o pre fb gb ft s0 ss0 ->
  stream_wf full = true -> denote_from ss0 full = Some ssF ->
  prefix inp (ser_records full) -> inp <> ser_records full ->
  (n + List.length inp <= lim)%nat ->
  exists rs r rest cut rem ss1 ss2,
    full = rs ++ r :: rest /\ inp = ser_records rs ++ cut /\ ser_record r = cut ++ rem /\ rem <> [] /\
    denote_from ss0 rs = Some ss1 /\ denote_record ss1 r = Some ss2 /\
    post (fun sf =>
            ((o_unkm o = true -> le1 (ss_unkm ss1) (ds_unkm sf)) /\ (o_unkf o = true -> le2 (ss_unkf ss1) (ds_unkf sf))) /\
            ((o_unkm o = true -> le1 (ds_unkm sf) (ss_unkm ss2)) /\ (o_unkf o = true -> le2 (ds_unkf sf) (ss_unkf ss2))))
         (run_a (decode_file_data o fuel) (mk_ast inp t n lim) s0).
Proof.
  intros full inp o pre fb gb ft s0 ss0 ssF t n lim fuel HI Hwf Hden Hp Hne Hlim.
  destruct Hp as [more Hm].
  destruct (ser_records_cut full inp more Hm) as (rs & r & rest & cut & rem & -> & -> & Hser & Hrem).
  { intros ->. apply Hne. now rewrite Hm, app_nil_r. }
  destruct (denote_from_split rs r rest ss0 ssF Hwf Hden) as (ss1 & ss2 & H1 & H3 & H4 & H6).
  exists rs, r, rest, cut, rem, ss1, ss2. repeat (split; [assumption || reflexivity|]).
  rewrite app_length in Hlim. eapply counts_on_failure_truncated; try eassumption. lia.
Qed.

Print Assumptions record_spec.
Print Assumptions loop_grows.
Print Assumptions counts_on_failure_lower.
Print Assumptions counts_on_failure_truncated.
Print Assumptions finalize_counts.
Print Assumptions counts_on_failure_file.
Print Assumptions counts_on_failure_prefix.
