(* What the parts of the decoder's state can see of each other (C08, C16).

   The state of Model/Decode.v has three parts: the parsing state proper (definition
   slots, time reference), the two unknown-item counters, and the File under
   construction with the package-level accumulators.  The counters are only written.
   Of the File the decoder reads only whether File.add panics and whether File.init
   finds a file type; the accumulators are read by File.add alone.  [decoder_sim] says
   so for two runs of the buffered part of decode, under possibly different options:
   - the parsing state stays equal;
   - the counters stay equal if they are compared at all (K), which needs equal options;
   - the File and accumulators stay in any relation F that File.add, File.init and the
     storing of the CRC keep ([sink_ok]: in particular both sides panic or fail together).
   [decode_sim] is the same at the entry point.  C16 is the instance (K false, F equality),
   C08 the instance (K true, F the relation between two accumulator states of
   Proofs/C08Route.v). *)
From Coq Require Import NArith ZArith List Bool.
From FitV Require Import Model.Values Model.Base Model.Profile Model.Reflect Model.IO Model.Components Model.Route Model.Decode
  Model.Crc Model.Header Gen.Consts Proofs.DecodeBuffered Proofs.C08Sim.
Import ListNotations.
Local Open Scope N_scope.

Record prel (K : Prop) (F : file -> gstate -> file -> gstate -> Prop) (s s' : dstate) : Prop := {
  pr_defs : ds_defs s = ds_defs s';
  pr_ts : ds_ts s = ds_ts s';
  pr_lastoff : ds_lastoff s = ds_lastoff s';
  pr_hasts : ds_hasts s = ds_hasts s';
  pr_quirks : ds_quirks s = ds_quirks s';
  pr_counts : K -> ds_unkf s = ds_unkf s' /\ ds_unkm s = ds_unkm s';
  pr_sink : F (ds_file s) (ds_g s) (ds_file s') (ds_g s')
}.
Arguments pr_defs {K F s s'}.
Arguments pr_ts {K F s s'}.
Arguments pr_lastoff {K F s s'}.
Arguments pr_hasts {K F s s'}.
Arguments pr_quirks {K F s s'}.
Arguments pr_counts {K F s s'}.
Arguments pr_sink {K F s s'}.

(* F is kept by what the decoder does to the File: File.add, File.init, storing the CRC *)
Definition sink_ok (F : file -> gstate -> file -> gstate -> Prop) : Prop :=
  (forall f g f' g' m, F f g f' g' ->
     match file_add f g m, file_add f' g' m with
     | AddOk a h, AddOk a' h' => F a h a' h'
     | AddPanic w, AddPanic w' => w = w'
     | _, _ => False
     end) /\
  (forall f g f' g', F f g f' g' ->
     match file_init f, file_init f' with Some a, Some a' => F a g a' g' | None, None => True | _, _ => False end) /\
  (forall f g f' g' c, F f g f' g' -> F (set_crc f c) g (set_crc f' c) g').

(* a write to one part leaves the relation on the others alone: from He : prel K F s s', the relation between
   two states each got from s, s' by [with_...] writes, field by field *)
Ltac prel_tac He :=
  destruct He; constructor;
  cbn [with_unkf with_unkm with_defs with_file with_time ds_defs ds_ts ds_lastoff ds_unkf ds_unkm ds_file ds_g ds_quirks ds_hasts];
  intuition (subst; congruence).

Lemma prel_defs (K : Prop) F s s' d : prel K F s s' -> prel K F (with_defs s d) (with_defs s' d).
Proof. intros He. prel_tac He. Qed.
Lemma prel_time (K : Prop) F s s' ts lo : prel K F s s' -> prel K F (with_time s ts lo) (with_time s' ts lo).
Proof. intros He. prel_tac He. Qed.
Lemma prel_file (K : Prop) F s s' f g f' g' : prel K F s s' -> F f g f' g' -> prel K F (with_file s f g) (with_file s' f' g').
Proof. intros He HF. prel_tac He. Qed.

Create HintDb esim.
#[global] Hint Unfold parse_definition_message parse_data_fields parse_file_id_msg parse_record data_prog : esim.

(* Both sides are the same program text up to the options: descend through binds, case
   distinctions on a common scrutinee, reads and returns.  What is left are the places
   where the program reads or writes its state. *)
Ltac es := repeat first
  [ solve [auto with esim]
  | progress (autounfold with esim; cbv zeta)
  | match goal with
    | |- isim ?R eq ?s ?s' ?p ?q => refine ((_ : esim R p q) s s' _); [|assumption]
    | |- esim _ (bind ?p _) (bind _ _) =>
        lazymatch p with get_st => fail | put_st _ => fail | _ => apply esim_bind; [|intro] end
    | |- esim _ (match ?x with _ => _ end) (match ?x with _ => _ end) => destruct x
    end
  | apply esim_ret | apply esim_fail | apply esim_panic
  | apply esim_byte; intro | apply esim_full; intro | apply esim_more; intro ].

Lemma es_skip (R : dstate -> dstate -> Prop) devs : esim R (skip_dev_fields devs) (skip_dev_fields devs).
Proof. induction devs as [|[[a size] c] r IH]; cbn [skip_dev_fields]; es. Qed.
#[global] Hint Resolve es_skip : esim.

(* parseTimeStamp as a step of a program: it reads and writes the time reference only *)
Lemma es_time_step (K : Prop) F {A} u k n (f : option goval -> P A) : (forall ov, esim (prel K F) (f ov) (f ov)) ->
  esim (prel K F) (s0 <- get_st ;; let '(ov, s1) := parse_time_stamp s0 u k n in put_st s1 ;;; f ov)
                  (s0 <- get_st ;; let '(ov, s1) := parse_time_stamp s0 u k n in put_st s1 ;;; f ov).
Proof.
  intro Hk. apply esim_get. intros s s' He.
  unfold parse_time_stamp. rewrite (pr_ts He), (pr_hasts He).
  destruct (u =? _); [|destruct (k =? _); [destruct (n =? _)|destruct (negb _ || _)]];
    (apply isim_put; [first [exact He|prel_tac He]|apply Hk]).
Qed.

(* pof, pfs, pdm below: parse_one_field, parse_fields, parse_data_message *)
Lemma es_pof (K : Prop) F o o' dm known fd msgv : (K -> o = o') ->
  esim (prel K F) (parse_one_field o dm known fd msgv) (parse_one_field o' dm known fd msgv).
Proof.
  intro HK. unfold parse_one_field. cbv zeta. es.
  - (* each side bumps its counter or not, as its own option says.  The counters are compared under K only, and
       then HK makes the options equal: E and E' name the same test, so both sides bump or neither does *)
    intros s s' He. unfold get_st, put_st.
    destruct (known && o_unkf o) eqn:E; cbn [bind]; [apply is_get_l, is_put_l|];
      (destruct (known && o_unkf o') eqn:E'; cbn [bind]; [apply is_get_r, is_put_r|]);
      (apply is_ret; [prel_tac He|reflexivity]).
  - apply es_time_step. intro. es.
Qed.
#[global] Hint Resolve es_pof : esim.

Lemma es_pfs (K : Prop) F o o' dm known : (K -> o = o') -> forall fds msgv,
  esim (prel K F) (parse_fields o dm known fds msgv) (parse_fields o' dm known fds msgv).
Proof. intro HK. induction fds as [|fd r IH]; intro msgv; cbn [parse_fields]; es. Qed.
#[global] Hint Resolve es_pfs : esim.

Lemma es_pdm (K : Prop) F o o' b compressed : (K -> o = o') ->
  esim (prel K F) (parse_data_message o b compressed) (parse_data_message o' b compressed).
Proof.
  intro HK. unfold parse_data_message. cbv zeta. set (local := if compressed then _ else _).
  apply esim_get. intros s s' He. rewrite <- (pr_defs He).
  destruct (nth (N.to_nat local) (ds_defs s) None) as [dm|]; [|es].
  apply isim_bind.
  - destruct (known_msg (dm_gmn dm)); [es|].
    (* an unknown message: each side counts it or not; under K, HK makes E and E' the same test, as in es_pof *)
    unfold put_st.
    destruct (o_unkm o) eqn:E; cbn [bind]; [apply is_put_l|];
      (destruct (o_unkm o') eqn:E'; cbn [bind]; [apply is_put_r|]);
      (apply is_ret; [prel_tac He|reflexivity]).
  - intro msgv. destruct compressed; cbn [negb]; [|es].
    apply esim_get. intros s2 s2' He2.
    rewrite <- (pr_ts He2), <- (pr_lastoff He2), <- (pr_hasts He2).
    destruct (negb (ds_hasts s2)); [es|].
    apply isim_put; [apply prel_time, He2|es].
Qed.

Lemma es_add (K : Prop) F m : sink_ok F -> esim (prel K F) (add_msg m) (add_msg m).
Proof.
  intros (HF & _). apply esim_get. intros s s' He. specialize (HF _ _ _ _ m (pr_sink He)).
  destruct (file_add (ds_file s) (ds_g s) m) as [f g|w], (file_add (ds_file s') (ds_g s') m) as [f' g'|w'];
    try contradiction.
  - apply isim_put; [apply prel_file; assumption|es].
  - cbn in HF. subst w'. es.
Qed.

Lemma es_setdef (K : Prop) F dm : esim (prel K F) (set_def dm) (set_def dm).
Proof.
  apply esim_get. intros s s' He. rewrite <- (pr_defs He).
  apply isim_put; [apply prel_defs, He|es].
Qed.

Lemma es_init (K : Prop) F : sink_ok F -> esim (prel K F) do_init do_init.
Proof.
  intros (_ & HF & _). apply esim_get. intros s s' He. specialize (HF _ _ _ _ (pr_sink He)).
  destruct (file_init (ds_file s)) as [f|], (file_init (ds_file s')) as [f'|]; try contradiction; [|es].
  apply isim_put; [apply prel_file; assumption|es].
Qed.
#[global] Hint Resolve es_pdm es_add es_setdef es_init : esim.

Lemma es_record (K : Prop) F o o' : (K -> o = o') -> sink_ok F -> esim (prel K F) (parse_record o) (parse_record o').
Proof. intros HK HF. es. Qed.
#[global] Hint Resolve es_record : esim.

Lemma es_records (K : Prop) F o o' fuel : (K -> o = o') -> sink_ok F ->
  esim (prel K F) (decode_file_data o fuel) (decode_file_data o' fuel).
Proof. intros HK HF. induction fuel as [|f IH]; cbn [decode_file_data]; es. Qed.
#[global] Hint Resolve es_records : esim.

Theorem decoder_sim (K : Prop) F o o' fid fuel : (K -> o = o') -> sink_ok F ->
  esim (prel K F) (data_prog o fid fuel) (data_prog o' fid fuel).
Proof. intros HK HF. es. Qed.

(* The same at the entry point, from accumulators g and g'.  The two calls end in the same way
   (both return, both panic with the same code, both run out of fuel).  T is what the caller
   wants to know of two returned results: it has to hold of the results that carry no decoder
   state (a header error, the header-only and CRC-only modes) and of those built from two
   related decoder states. *)
Theorem decode_sim (K : Prop) F (T : dres -> dres -> Prop) o o' md g g' rd fuel :
  (K -> o = o') -> sink_ok F -> (forall f, F f g f g') ->
  (forall e h f r, T (mk_dres e h f r g []) (mk_dres e h f r g' [])) ->
  (forall s s' e h r, prel K F s s' ->
     T (mk_dres e h (Some (finalize_unknown o s)) r (ds_g s) (ds_quirks s))
       (mk_dres e h (Some (finalize_unknown o' s')) r (ds_g s') (ds_quirks s'))) ->
  match decode o md g rd fuel, decode o' md g' rd fuel with
  | TDone r, TDone r' => T r r'
  | TPanic w, TPanic w' => w = w'
  | TOutOfFuel, TOutOfFuel => True
  | _, _ => False
  end.
Proof.
  intros HK HF H0 Tn Ts. unfold decode.
  destruct (decode_header fuel rd) as [[[[[e|] h] crc] rd1]|]; [apply Tn| |exact I].
  assert (B : forall fid, match decode_buffered o fid h crc rd1 fuel g, decode_buffered o' fid h crc rd1 fuel g' with
                          | TDone r, TDone r' => T r r' | TPanic w, TPanic w' => w = w'
                          | TOutOfFuel, TOutOfFuel => True | _, _ => False end).
  { intro fid. unfold decode_buffered.
    assert (HI : prel K F (init_dstate (new_file h) g) (init_dstate (new_file h) g')).
    { constructor; try reflexivity; [split; reflexivity|apply H0]. }
    pose proof (run_c_isim _ _ _ _ _ _ (decoder_sim K F o o' fid (S (N.to_nat (h_dsize h))) HK HF _ _ HI)
                  (mk_cst rd1 [] 0 (N.to_nat (h_dsize h)) crc fuel)) as R.
    destruct (run_c (data_prog o _ _) _ _) as [a c s|e c s|e c s|w|],
             (run_c (data_prog o' _ _) _ _) as [a' c' s'|e' c' s'|e' c' s'|w'|]; cbn [rsim] in R; try contradiction.
    - destruct R as (_ & <- & He). destruct fid; [apply Ts, He|].
      destruct (negb (Nat.eqb (c_n c) (c_limit c))); [reflexivity|].
      pose proof (pr_sink He) as Hf. unfold check_crc.
      destruct (io_read_full fuel (c_rd c) 2 []) as [[[bs [er|]] rd3]|]; [| |exact I].
      + apply (Ts (with_file s _ _) (with_file s' _ _)), prel_file; assumption.
      + destruct (negb _); apply (Ts (with_file s _ _) (with_file s' _ _)), prel_file, HF; auto.
    - destruct R as (<- & <- & He). apply Ts, He.
    - destruct R as (<- & <- & He). apply Ts, He.
    - exact R.
    - exact I. }
  destruct md; [exact (B false)|apply Tn|exact (B true)|].
  destruct (io_copy_n fuel rd1 (N.to_nat (h_dsize h)) []) as [[[bs [er|]] rd2]|]; [apply Tn| |exact I].
  destruct (check_crc fuel rd2 (crc_write crc bs) (new_file h)) as [[[e f] rd3]|]; [apply Tn|exact I].
Qed.
