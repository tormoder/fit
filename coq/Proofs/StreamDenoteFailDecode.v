(* C16 counts_on_failure at the entry point.  The loop-level theorems of StreamDenoteFail.v
   composed with the file_id prologue, File.init, the header and the buffered reader:
   Decode on a file whose data part is cut inside a record fails with an I/O error, and the
   unknown-message / unknown-field lists of the partial File it returns lie, count for count,
   between the reference counts of the completed records and those including the record in flight.
   The same theorem says that this File is the one routed from the completed records: what C11Partial.v builds on.
   First for the abstract run of data_prog on a truncated data part, then at the entry point over a reader oracle,
   through the decoder over the plain byte list (decode_a_ioerr, C10Frame.decode_of_a). *)
From Coq Require Import NArith ZArith List Bool Lia Arith.
From Coq Require Import ZifyN ZifyNat ZifyBool.
From FitV Require Import Proofs.Util Model.Values Model.Bytes Model.Base Model.Profile Model.Reflect Model.Crc Model.IO
  Model.Header Model.Route Model.Components Model.Decode Spec.FitSyntax Spec.RouteSpec Proofs.RouteProofs
  Proofs.DecodeLemmas Gen.Consts Proofs.IOSim Proofs.C10Frame Proofs.DecodeFrame
  Proofs.StreamDenoteBase Proofs.StreamDenoteDefs Proofs.StreamDenoteDef Proofs.StreamDenoteData
  Proofs.StreamDenoteRecord Proofs.StreamDenoteLoop Proofs.StreamDenoteLift Proofs.StreamDenoteMain
  Proofs.StreamDenoteFrame Proofs.StreamDenoteFail.
From FitV Require Export Proofs.StreamDenoteSkip.
Import ListNotations.
Local Open Scope N_scope.

Definition fg (f : file) (g : gstate) (s : dstate) : Prop := ds_file s = f /\ ds_g s = g.

Lemma fg_slots f g : slots_free (fg f g).
Proof. intros s d ts lo h H. exact H. Qed.
Lemma fg_counts f g : counts_free (fg f g).
Proof. split; intros s k H; exact H. Qed.

Theorem data_prog_counts_on_failure : forall o h g rs r cut rem ss1 ss2 f2 g1 t lim,
  starts_with_file_id rs = true -> stream_wf rs = true -> denote rs = Some ss1 ->
  start_file h g (hd dummy_msg (ss_msgs ss1)) = Some (f2, g1) ->
  rec_wf r = true -> denote_record ss1 r = Some ss2 ->
  ser_record r = cut ++ rem -> rem <> [] ->
  (List.length (ser_records rs ++ cut) < lim)%nat ->
  exists e x sf,
    run_a (data_prog o false (S lim)) (mk_ast (ser_records rs ++ cut) t 0 lim) (init_dstate (new_file h) g) = RIOErr e x sf /\
    counts_between o ss1 ss2 (finalize_unknown o sf) /\ route_msgs h g (ss_msgs ss1) = Some (ds_file sf, ds_g sf).
Proof.
  intros o h g rs r cut rem ss1 ss2 f2 g1 t lim Hshape Hwf Hden Hstart Hwfr Hdr Hser Hrem Hlim.
  destruct (data_prog_prologue o h g rs ss1 f2 g1 Hshape Hwf Hden Hstart)
    as (r1 & r2 & rest & ssb & s1 & ft & -> & Hwfr' & _ & Hrest & Hpro & Hinit & HIb).
  set (fid := ser_record r1 ++ ser_record r2) in *.
  replace (ser_records (r1 :: r2 :: rest)) with (fid ++ ser_records rest) in * by (symmetry; apply app_assoc).
  rewrite <- app_assoc in *. rewrite !app_length in Hlim.
  rewrite (data_prog_run _ _ _ _ _ _ _ _ _ Hpro Hinit) by lia.
  set (n := List.length fid) in *. set (sb := with_file s1 f2 (ds_g s1)) in *.
  (* the prologue leaves the keys of the counter lists distinct *)
  destruct distinct_keys_free as (HJ & HC & HF).
  pose proof (okp_sound _ _ (okp_file_id _ o HJ HC HF) (ast_at fid [] t 0 lim) _ (distinct_keys_init (new_file h) g)) as Hdk.
  rewrite (consumes_run _ _ _ _ _ Hpro) in Hdk by (fold n; lia). change (distinct_keys sb) in Hdk.
  pose proof (records_le_bytes rest) as Hfuel.
  destruct (truncated_run rest r cut rem o _ f2 g1 ft sb ssb ss1 ss2 t n lim (S lim) HIb Hwfr' Hrest Hwfr Hdr Hser Hrem ltac:(lia))
    as (s2 & HI2 & Hrun).
  pose proof (counts_on_failure_file rest r cut rem o _ f2 g1 ft sb ssb ss1 ss2 t n lim (S lim)
                HIb Hdk Hwfr' Hrest Hwfr Hdr Hser Hrem ltac:(lia)) as Hcnt.
  destruct (run_a (decode_file_data o (S lim)) (mk_ast (ser_records rest ++ cut) t n lim) sb)
    as [a x' s'|e x' s'|e x' s'|w|]; try contradiction; [lia| |lia].
  exists e, x', s'. split; [reflexivity|]. split; [exact Hcnt|].
  (* the record that does not complete leaves the File of the completed ones *)
  pose proof (on_err_record (fg (ds_file s2) (ds_g s2)) o (fg_slots _ _) (fg_counts _ _)
                (mk_ast cut t (n + List.length (ser_records rest)) lim) s2 (conj eq_refl eq_refl)) as Hfile.
  rewrite (proj2 Hrun) in Hfile. destruct Hfile as [-> ->].
  destruct (inv_msgs _ _ _ _ _ _ _ HI2) as (ms' & Hms' & Hadds).
  unfold route_msgs. rewrite Hms' in Hstart |- *. cbn [app hd] in Hstart |- *. rewrite Hstart, Hadds. reflexivity.
Qed.

Theorem Decode_counts_on_failure :
  forall o g rd fuel h l be fds (devflag : bool) (devs : list (N * N * N)) pay dev rest r cut rem ss1 ss2 f2 g1,
  let rs := RDef l be c_MesgNumFileId fds devflag devs :: RData l pay dev :: rest in
  header_wf h ->
  rd_data rd = hdr_bytes h ++ ser_records rs ++ cut ->
  (List.length (ser_records rs ++ cut) < N.to_nat (h_dsize h))%nat ->
  stream_wf rs = true -> denote rs = Some ss1 ->
  start_file h g (hd dummy_msg (ss_msgs ss1)) = Some (f2, g1) ->
  rec_wf r = true -> denote_record ss1 r = Some ss2 ->
  ser_record r = cut ++ rem -> rem <> [] ->
  (List.length (rd_data rd) + List.length (rd_sched rd) < fuel)%nat ->
  exists e file' rd' g' q,
    entry_Decode o g rd fuel = TDone (mk_dres (Some (EIO e)) h (Some file') rd' g' q) /\
    counts_between o ss1 ss2 file'.
Proof.
  intros o g rd fuel h l be fds devflag devs pay dev rest r cut rem ss1 ss2 f2 g1 rs
         Hwfh Hd Hlim Hwf Hden Hstart Hwfr Hdr Hser Hrem Hf.
  destruct (data_prog_counts_on_failure o h g rs r cut rem ss1 ss2 f2 g1 (rd_term rd) _
              ltac:(cbn; now rewrite !N.eqb_refl) Hwf Hden Hstart Hwfr Hdr Hser Hrem Hlim) as (e & x & sf & Hrun & Hcnt & _).
  destruct (decode_a_ioerr o false g h _ _ e x sf Hwfh Hrun) as [u Ha]. fold rs in Ha. rewrite <- Hd in Ha.
  destruct (C10Frame.decode_of_a o MFull g rd fuel _ Hf Ha) as ([re hh fo rd' g' q] & Hres & [E1 E2 E3 E4 E5 _ _ _ _]).
  cbn [dr_err dr_hdr dr_file dr_g dr_quirks ar_err ar_hdr ar_file ar_g ar_quirks] in *. subst.
  exists e, (finalize_unknown o sf), rd', (ds_g sf), (ds_quirks sf). split; [exact Hres|exact Hcnt].
Qed.

Print Assumptions data_prog_counts_on_failure.
Print Assumptions Decode_counts_on_failure.
