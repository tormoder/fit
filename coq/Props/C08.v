(* C08 -- Decoding and encoding are pure: results do not depend on call history.

   Model: every entry point takes and returns the package-level accumulator state (Model/Decode.v, [gstate] of
   Model/Components.v); Model/Shared.v defines a call, what its caller observes ([obs]: error class, header,
   File(s), reader afterwards; for Encode the bytes and the File afterwards), a process ([run_history]: calls
   one after another) and the fresh process ([fresh c]: the call made first, from nil accumulators).

   FULL STATEMENT (refuted on the unchanged tree, known finding accum_history):
     forall cs, run_history g_init cs = map fresh cs.
   The component accumulators are package-level variables that the expansion of record messages reads and
   writes; a second decode of a file carrying compressed_speed_distance continues the first one's sum
   (C08_history_dependence_refuted, witness computed).  Proved instead:
   - the full statement under the exact side condition that no call reaches a compressed_speed_distance
     expansion (total_cycles / accumulated_power use accumulators of mask 0 and never show: C18);
   - unconditionally: outcome class, error, header, reader position, number of Files and every message that
     is not a record message never depend on the history;
   - Encode is a function of (File, byte order) alone, and the translator obligation that nothing else is
     shared: the package-level variables written on the six entry paths are exactly the three accumulators,
     no sync-typed variable is used, no map iteration order reaches an output (the defect repaired by f859285). *)
From Coq Require Import NArith List Bool String.
From FitV Require Import Model.IO Model.Components Model.Route Model.Decode Model.Encode Model.Shared
  Gen.SharedState Proofs.C08Decode Proofs.C08History Proofs.C08Shared.
Import ListNotations.

(* (1) one call, after any history that left the distance accumulator nil *)
Theorem C08_decode_history_free : forall c g, gwf g -> g_dist g = None -> no_distance_source c ->
  fst (run_call g c) = fresh c /\ g_dist (snd (run_call g c)) = None /\ gwf (snd (run_call g c)).
Proof. exact decode_history_free. Qed.
Print Assumptions C08_decode_history_free.

(* (2) every history of Decode / DecodeChained / CheckIntegrity / DecodeHeader / DecodeHeaderAndFileID / Encode
   calls: the k-th call returns what it returns when made first in a fresh process *)
Theorem C08_history_free : forall cs, Forall no_distance_source cs -> run_history g_init cs = map fresh cs.
Proof. exact history_free. Qed.
Print Assumptions C08_history_free.
Theorem C08_history_free_nth : forall cs k c, Forall no_distance_source cs -> nth_error cs k = Some c ->
  nth_error (run_history g_init cs) k = Some (fresh c).
Proof. intros cs k c H E. rewrite (history_free cs H). apply map_nth_error. exact E. Qed.

(* unconditional part: what can differ from the fresh call is confined to record messages *)
Theorem C08_history_control_free : forall cs, Forall2 obs_sim (map fresh cs) (run_history g_init cs).
Proof. exact history_control_free. Qed.
Print Assumptions C08_history_control_free.

(* the underlying statement about the decoder: two runs from any two reachable accumulator states *)
Theorem C08_decode_rel : forall o md g1 g2 rd fuel, gwf g1 -> gwf g2 ->
  tout_rel (dres_rel g1 g2) (decode o md g1 rd fuel) (decode o md g2 rd fuel).
Proof. exact decode_rel. Qed.

(* (3) the full statement fails *)
Theorem C08_history_dependence_refuted :
  exists c, run_history g_init [c; c] <> map fresh [c; c] /\ no_distance_sourceb c = false.
Proof. exact history_dependence_refuted. Qed.
Print Assumptions C08_history_dependence_refuted.

(* (4) Encode: a function of the File and the byte order; it does not touch the accumulators *)
Theorem C08_encode_deterministic : forall f be g1 g2,
  fst (run_call g1 (CEncode f be)) = fst (run_call g2 (CEncode f be)) /\ snd (run_call g1 (CEncode f be)) = g1.
Proof. exact encode_deterministic. Qed.

(* translator obligations (Gen/SharedState.v is regenerated from the source on every check) *)
Theorem C08_written_globals_are_gstate : written_globals = map snd gstate_variables.
Proof. exact written_globals_are_gstate. Qed.
Theorem C08_no_sync_global_used : sync_globals_used = [].
Proof. exact no_sync_global_used. Qed.
Theorem C08_no_map_order_escapes : unordered_map_ranges = [].
Proof. exact no_map_order_escapes. Qed.
Theorem C08_writes_only_in_record_expansion :
  forallb (fun d => String.eqb (snd d) "(*fit.RecordMsg).expandComponents") written_detail = true.
Proof. exact writes_only_in_record_expansion. Qed.
Print Assumptions C08_written_globals_are_gstate.

(* the side conditions are decidable by running the model, and satisfiable: a file that decodes without error
   into two record messages (plain_call), and one whose records carry cycles (inside C08's domain although it
   uses an accumulator) *)
Theorem C08_side_condition_decidable : forall c, no_distance_sourceb c = true <-> no_distance_source c.
Proof.
  intros c. unfold no_distance_sourceb, no_distance_source. destruct (g_dist (snd (run_call g_init c))); split; intro H; try discriminate H; reflexivity.
Qed.
Example C08_example : no_distance_sourceb plain_call = true /\ obs_ok (fresh plain_call) = true /\
  List.length (record_distances (fresh plain_call)) = 2%nat /\
  no_distance_sourceb cycles_call = true /\ no_accumulated_sourceb cycles_call = false /\
  record_distances (fresh csd_call) = [50; 100]%N /\
  record_distances (fst (run_call (snd (run_call g_init csd_call)) csd_call)) = [4146; 4196]%N.
Proof.
  destruct plain_call_ok as (_ & A & B & C), cycles_call_ok as (D & E & _).
  exact (conj A (conj B (conj C (conj D (conj E (conj (proj2 csd_fresh_distances) csd_second_distances)))))).
Qed.
