(* C04: what Encode writes passes CheckIntegrity.  encode_framing (Proofs/EncodeProofs.v, C05)
   says the encoder model's output has the grammar's framing; grammar_integrity_ok (Proofs/C04Bytes.v) says such a
   string is accepted.  Hypotheses on the File's header, exactly: wf_header (size 12 or 14, one-byte protocol
   version, data type ".FIT": what NewHeader makes) and a protocol major version the decoder supports. *)
From Coq Require Import NArith ZArith List Bool Arith Lia String.
From FitV Require Import Model.Values Model.Bytes Model.Crc Model.IO Model.Header Model.Route Model.Decode Model.Encode Gen.Consts
  Spec.CrcSpec Spec.Integrity Spec.Grammar Proofs.BytesUtil Proofs.CrcProofs Proofs.EncodeProofs Proofs.C04IO Proofs.C04Bytes Proofs.C04Main.
Import ListNotations.
Local Open Scope N_scope.

Lemma encode_second_byte f be bs f' :
  wf_header (f_header f) = true -> encode f be = EOk (bs, f') -> N.of_nat (List.length bs) < 4294967296 ->
  nth 1 bs 0 = h_proto (f_header f).
Proof.
  intros Hwf Henc Hlen.
  destruct (encode_layout f be bs f' Hwf Henc Hlen) as (data & _ & _ & _ & -> & _). reflexivity.
Qed.

Theorem encode_output_accepted : forall f be bs f',
  wf_header (f_header f) = true -> proto_ok (h_proto (f_header f)) = true ->
  encode f be = EOk (bs, f') -> N.of_nat (List.length bs) < 4294967296 ->
  forall o g fuel rd, rd_data rd = bs -> (measure rd < fuel)%nat ->
  exists r, decode o MCrcOnly g rd fuel = TDone r /\ dr_err r = None /\
            rd_pos (dr_rd r) = (rd_pos rd + List.length bs)%nat.
Proof.
  intros f be bs f' Hwf Hp Henc Hlen o g fuel rd Hd Hm.
  destruct (encode_framing f be bs f' Hwf Henc Hlen) as (Hb & Hh & Ht & _).
  apply (encode_integrity_ok bs (all_bytes_is_bytes _ Hb) Hh Ht); try assumption.
  now rewrite (encode_second_byte f be bs f' Hwf Henc Hlen).
Qed.
