(* C01: the finite core of "the validator admits only what reflection can store".
   A cell is (profile field descriptor, definition base-type byte, definition size).
   The profile field descriptor is what the decoder looks at in a types.Fit code:
   kind, array flag, base type. [cell_ok] says: on this cell the validator does
   not panic, and if it accepts then storing ANY data bytes of that size, in
   either byte order, cannot panic. The generic lemmas below connect the
   contents-independent boolean checks with the model's parse functions;
   [cell_ok_size] says which cell of a row decides all its sizes, and [cells_ok_true] is the evaluation
   over those cells. *)
From Coq Require Import NArith ZArith List Bool Arith Lia.
From FitV Require Import Proofs.Util Model.Values Model.Bytes Model.Base Model.Profile Model.Reflect Model.Decode
  Spec.ProfileWf Proofs.ProfileProofs Gen.BaseTables.
Import ListNotations.
Local Open Scope N_scope.

(* the validator as a function of what it looks at *)
Definition validate_cell (pd : option (bool * N)) (bt size : N) : vres :=
  match b_known bt with
  | None => VPanic 4
  | Some false => VErr
  | Some true =>
    if bt =? base_string then
      match pd with
      | None => VOk
      | Some (_, pb) => if pb =? bt then VOk else VErr
      end
    else
    match b_size bt with
    | None => VPanic 4
    | Some bs =>
      if size <? bs then VErr else
      match pd with
      | None => VOk
      | Some (arr, pb) =>
        if negb arr then
          match b_size pb with
          | None => VPanic 4
          | Some ps =>
            if ps <? size then VErr
            else if negb (bt =? pb) then
              match b_signed pb, b_signed bt with
              | Some sp, Some sd =>
                if negb (Bool.eqb sp sd) then VErr else
                match b_float bt with
                | None => VPanic 4
                | Some fl =>
                  let c2 := if fl then match b_float pb with
                                       | None => None
                                       | Some fp => Some (negb fp)
                                       end
                            else Some false in
                  match c2 with
                  | None => VPanic 4
                  | Some true => VErr
                  | Some false => if (pb =? base_string) && negb (bt =? base_string) then VErr else VOk
                  end
                end
              | _, _ => VPanic 4
              end
            else VOk
          end
        else
          if bs =? 0 then VPanic 8
          else if negb (size mod bs =? 0) then VErr
          else if negb (bt =? pb) then VErr
          else VOk
      end
    end
  end.

(* the validator's knownMsg test adds nothing: the profile lists no field for a message it does not know *)
Lemma validate_cell_eq gmn fd :
  validate_field_def gmn fd =
  validate_cell (option_map (fun p => (fit_array (pf_t p), fit_base (pf_t p))) (get_field gmn (fd_num fd))) (fd_btype fd) (fd_size fd).
Proof.
  unfold validate_field_def, validate_cell. destruct (known_msg gmn) eqn:K; [|rewrite (unknown_no_field _ _ K)].
  all: destruct (get_field gmn (fd_num fd)) as [p|]; reflexivity.
Qed.

Definition isTU (t : gotype) : bool := match t with TU _ => true | _ => false end.
Definition isTI (t : gotype) : bool := match t with TI _ => true | _ => false end.
Definition isTF (t : gotype) : bool := match t with TF _ => true | _ => false end.
Definition isTStr (t : gotype) : bool := match t with TStr => true | _ => false end.

Definition is_fpanic (r : fres) : bool := match r with FPanic _ => true | _ => false end.

(* mirrors parse_fit_field: which (definition base type, size, Go type) cannot panic *)
Definition pff_safe (bt : N) (dsize : nat) (ty : gotype) : bool :=
  if is_u8like bt then isTU ty
  else if bt =? base_sint8 then isTI ty
  else if bt =? base_sint16 then negb (Nat.ltb dsize 2) && isTI ty
  else if (bt =? base_uint16) || (bt =? base_uint16z) then negb (Nat.ltb dsize 2) && isTU ty
  else if bt =? base_sint32 then negb (Nat.ltb dsize 4) && isTI ty
  else if (bt =? base_uint32) || (bt =? base_uint32z) then negb (Nat.ltb dsize 4) && isTU ty
  else if bt =? base_float32 then negb (Nat.ltb dsize 4) && isTF ty
  else if bt =? base_float64 then negb (Nat.ltb dsize 8) && isTF ty
  else if bt =? base_string then isTStr ty
  else true.

Lemma pff_safe_sound be fd buf ty :
  pff_safe (fd_btype fd) (List.length buf) ty = true -> is_fpanic (parse_fit_field be fd buf ty) = false.
Proof.
  unfold pff_safe, parse_fit_field.
  repeat match goal with |- context [if ?c then _ else _] => destruct c end;
    intros H; try (apply andb_prop in H; destruct H as [H0 H]; try discriminate H0);
    destruct ty; try discriminate H; reflexivity.
Qed.

(* mirrors parse_fit_field_array (conservatively: element type must match even for empty slices) *)
Definition pffa_safe (bt : N) (dsize : nat) (ty : gotype) : bool :=
  if bt =? base_byte then (match ty with TSlice (TU 8) => true | _ => false end) else
  match ty with
  | TSlice e =>
    match b_size bt with
    | None => false
    | Some 0 => false
    | Some bs =>
      Nat.eqb (Nat.modulo dsize (N.to_nat bs)) 0 &&
      (if (bt =? base_uint8) || (bt =? base_uint8z) || (bt =? base_enum) then isTU e
       else if bt =? base_sint8 then isTI e
       else if bt =? base_sint16 then isTI e
       else if (bt =? base_uint16) || (bt =? base_uint16z) then isTU e
       else if bt =? base_sint32 then isTI e
       else if (bt =? base_uint32) || (bt =? base_uint32z) then isTU e
       else if bt =? base_float32 then isTF e
       else if bt =? base_float64 then isTF e
       else if bt =? base_string then isTStr e
       else true)
    end
  | _ => false
  end.

Lemma pffa_safe_sound be fd buf ty :
  pffa_safe (fd_btype fd) (List.length buf) ty = true -> is_fpanic (parse_fit_field_array be fd buf ty) = false.
Proof.
  unfold pffa_safe, parse_fit_field_array.
  destruct (fd_btype fd =? base_byte).
  - destruct ty as [| | | | | | |e|]; try discriminate. destruct e as [b| | | | | | | |]; try discriminate.
    destruct (N.eqb_spec b 8) as [->|NE]; [reflexivity|].
    intros H. exfalso. destruct b as [|p]; [discriminate|].
    (* the width is the numeral 8 = xO (xO (xO xH)) *)
    do 4 (destruct p; try discriminate). congruence.
  - destruct ty as [| | | | | | |e|]; try discriminate.
    destruct (b_size (fd_btype fd)) as [bs|]; [|discriminate].
    destruct bs as [|p]; [discriminate|].
    intros H. apply andb_prop in H. destruct H as [Hm H]. rewrite Hm. cbn [negb].
    repeat match goal with |- context [if ?c then _ else _] => destruct c end;
      destruct e; try discriminate H; reflexivity.
Qed.

(* the Go type of the struct field, from the descriptor (Spec/ProfileWf gotype_of_fit) *)
Definition gotype_of_desc (k : N) (arr : bool) (pb : N) : gotype :=
  let elem :=
    if k =? kind_native then gotype_of_base pb
    else if (k =? kind_timeutc) || (k =? kind_timelocal) then TTime
    else if k =? kind_lat then TLat
    else if k =? kind_lng then TLng
    else TOther in
  if arr then TSlice elem else elem.

Lemma gotype_of_fit_desc t : gotype_of_fit t = gotype_of_desc (fit_kind t) (fit_array t) (fit_base t).
Proof. reflexivity. Qed.

(* what the profile checker (C15) allows as a descriptor; the base type of a
   types.Fit code is always a canonical base-type byte (an image of decompress) *)
Definition desc_valid (k : N) (arr : bool) (pb : N) : bool :=
  (k <=? 4) && base_storable pb && (decompress pb =? pb) &&
  (if k =? kind_native then true
   else negb arr && (if (k =? kind_timeutc) || (k =? kind_timelocal) then pb =? base_uint32 else pb =? base_sint32)).

(* the first conjunct: for a scalar that is not a string, parse_one_field looks up the size of the
   profile type (for the padding) before it reads the data, and panics if there is none *)
Definition store_safe (k : N) (arr : bool) (pb bt size : N) : bool :=
  let ty := gotype_of_desc k arr pb in
  (if negb (pb =? base_string) && negb arr then match b_size pb with Some _ => true | None => false end else true) &&
  (if k =? kind_native then
     if negb arr then pff_safe bt (N.to_nat size) ty else pffa_safe bt (N.to_nat size) ty
   else
     match b_signed bt with
     | None => false
     | Some _ =>
       if (k =? kind_timeutc) || (k =? kind_timelocal) then (match ty with TTime => true | _ => false end)
       else if k =? kind_lat then (match ty with TLat => true | _ => false end)
       else if k =? kind_lng then (match ty with TLng => true | _ => false end)
       else false
     end).

Definition cell_ok (k : N) (arr : bool) (pb bt size : N) : bool :=
  match validate_cell (Some (arr, pb)) bt size with
  | VPanic _ => false
  | VErr => true
  | VOk => store_safe k arr pb bt size
  end.

(* Of the size of a field the validator looks only at where it lies relative to the sizes of the two types and,
   for an array, at its being a multiple of the element size; storing asks the same of it, or less.  So a cell
   is decided by the cell of its row that has the smallest size the validator admits, the size of the
   definition type ([cell_ok_size]), and a definition byte that is not a known base type is rejected. *)
Lemma validate_cell_unknown pd bt size : b_known bt = Some false -> validate_cell pd bt size = VErr.
Proof. unfold validate_cell. now intros ->. Qed.

Lemma validate_cell_size arr pb bt size bs :
  b_known bt = Some true -> (bt =? base_string) = false -> b_size bt = Some bs -> (arr = true -> bs <> 0) ->
  validate_cell (Some (arr, pb)) bt size = VErr \/
  validate_cell (Some (arr, pb)) bt size = validate_cell (Some (arr, pb)) bt bs /\ bs <= size /\
  (arr = true -> size mod bs = 0).
Proof.
  intros K S B Z. unfold validate_cell. rewrite K, S, B, N.ltb_irrefl.
  destruct (N.ltb_spec size bs) as [|G]; [now left|]. destruct arr; cbn [negb].
  - specialize (Z eq_refl). rewrite (N.mod_same bs Z), (proj2 (N.eqb_neq _ _) Z).
    destruct (N.eqb_spec (size mod bs) 0); [right; auto|now left].
  - destruct (b_size pb) as [ps|]; [|now right].
    destruct (N.ltb_spec ps size); [now left|]. right. now rewrite (proj2 (N.ltb_ge ps bs)) by lia.
Qed.

Lemma pff_safe_mono bt n n' ty : (n <= n')%nat -> pff_safe bt n ty = true -> pff_safe bt n' ty = true.
Proof.
  intros L. unfold pff_safe.
  repeat match goal with |- context [if ?c then _ else _] => destruct c end; try exact (fun H => H);
    intros [H ->]%andb_prop; rewrite andb_true_r; apply negb_true_iff, Nat.ltb_ge;
    apply negb_true_iff, Nat.ltb_ge in H; lia.
Qed.

Lemma pffa_safe_size bt bs ty size size' : b_size bt = Some bs -> size mod bs = 0 -> size' mod bs = 0 ->
  pffa_safe bt (N.to_nat size) ty = pffa_safe bt (N.to_nat size') ty.
Proof.
  intros B M M'. unfold pffa_safe. rewrite B.
  destruct (bt =? base_byte); [reflexivity|]. destruct ty; try reflexivity. destruct bs; [reflexivity|].
  now rewrite <- !N2Nat.inj_mod, M, M'.
Qed.

Lemma cell_ok_size k arr pb bt size bs :
  b_known bt = Some true -> (bt =? base_string) = false -> b_size bt = Some bs -> (arr = true -> bs <> 0) ->
  cell_ok k arr pb bt bs = true -> cell_ok k arr pb bt size = true.
Proof.
  intros K S B Z. unfold cell_ok.
  destruct (validate_cell_size arr pb bt size bs K S B Z) as [->|(-> & G & M)]; [reflexivity|].
  destruct (validate_cell _ bt bs); try exact (fun H => H).
  unfold store_safe. cbv zeta. destruct (k =? kind_native); [|exact (fun H => H)]. destruct arr; cbn [negb].
  - now rewrite (pffa_safe_size bt bs _ size bs B (M eq_refl) (N.mod_same bs (Z eq_refl))).
  - intros [-> H]%andb_prop. apply (pff_safe_mono bt (N.to_nat bs)); [lia|exact H].
Qed.

Definition row_ok (sizes : list N) (k : N) (arr : bool) (pb bt : N) : bool :=
  if bt =? base_string then forallb (cell_ok k arr pb bt) sizes else
  match b_size bt with
  | None => false
  | Some bs => (negb arr || negb (bs =? 0)) && cell_ok k arr pb bt bs
  end.

Lemma row_cell sizes k arr pb bt : b_known bt = Some true -> row_ok sizes k arr pb bt = true ->
  forall size, In size sizes -> cell_ok k arr pb bt size = true.
Proof.
  unfold row_ok. intros K H size Hs.
  destruct (bt =? base_string) eqn:S; [now apply (proj1 (forallb_forall _ _) H)|].
  destruct (b_size bt) as [bs|] eqn:B; [|discriminate]. apply andb_prop in H. destruct H as [Z H].
  apply (cell_ok_size k arr pb bt size bs K S B); [|exact H]. intros ->. now apply N.eqb_neq, negb_true_iff.
Qed.

Lemma base_storable_lt pb : base_storable pb = true -> pb < 256.
Proof. unfold base_storable. intros H. apply known_lt_256. now destruct (b_known pb) as [[|]|]. Qed.

Lemma desc_valid_inv k arr pb : desc_valid k arr pb = true -> k <= 4 /\ base_storable pb = true.
Proof. unfold desc_valid. destruct (N.leb_spec k 4), (base_storable pb); try discriminate. now split. Qed.

(* every valid descriptor, and the absent one, against the definition bytes that are known base types;
   the table of known bytes is looked at once for each byte and not once for each row.  The lists stay
   variables up to [cells_ok_true]: with closed ranges inside these lemmas, Qed compares them by evaluation. *)
Definition cells_ok (ks bytes : list N) : bool :=
  let known := filter (fun bt => match b_known bt with Some true => true | _ => false end) bytes in
  forallb (fun bt => match b_known bt with Some _ => true | None => false end) bytes &&
  forallb (fun pb => forallb (fun k => forallb (fun arr =>
    if desc_valid k arr pb then forallb (row_ok bytes k arr pb) known else true) [false; true]) ks)
    (filter base_storable bytes).

Lemma cells_valid ks bytes k arr pb bt size : cells_ok ks bytes = true -> desc_valid k arr pb = true ->
  In k ks -> In pb bytes -> In bt bytes -> In size bytes -> cell_ok k arr pb bt size = true.
Proof.
  intros H Hv Hk Hpb Hbt Hsz. apply andb_prop in H. destruct H as [HK H].
  rewrite forallb_forall in HK. specialize (HK bt Hbt).
  destruct (b_known bt) as [[|]|] eqn:K; [|unfold cell_ok; now rewrite validate_cell_unknown|discriminate].
  rewrite forallb_forall in H. specialize (H pb (proj2 (filter_In _ _ _) (conj Hpb (proj2 (desc_valid_inv _ _ _ Hv))))).
  rewrite forallb_forall in H. specialize (H k Hk).
  rewrite forallb_forall in H. specialize (H arr ltac:(destruct arr; cbn; tauto)). rewrite Hv, forallb_forall in H.
  apply (row_cell bytes); [assumption|apply H, filter_In; now rewrite K|assumption].
Qed.

(* on the tables regenerated from the compiled library (Gen/BaseTables.v) *)
Lemma cells_ok_true : cells_ok (range 5 0) (range 256 0) = true.
Proof. vm_compute. reflexivity. Qed.

Lemma valid_cell k arr pb bt size : desc_valid k arr pb = true ->
  bt < 256 -> size < 256 -> cell_ok k arr pb bt size = true.
Proof.
  intros Hv Hbt Hsz. destruct (desc_valid_inv _ _ _ Hv) as [Hk Hpb%base_storable_lt].
  apply (cells_valid _ _ k arr pb bt size cells_ok_true Hv); apply range_in; cbn; lia.
Qed.

(* a field the profile does not list (and every field of an unknown message): the validator's panics all
   come before it looks at the descriptor, so they would show with any descriptor *)
Lemma validate_cell_none d bt size w : validate_cell None bt size = VPanic w -> validate_cell (Some d) bt size = VPanic w.
Proof.
  unfold validate_cell. destruct (b_known bt) as [[|]|]; try discriminate; [|easy].
  destruct (bt =? base_string); [discriminate|]. destruct (b_size bt) as [bs|]; [|easy]. now destruct (size <? bs).
Qed.

Lemma nodesc_cell bt size w : bt < 256 -> size < 256 -> validate_cell None bt size <> VPanic w.
Proof.
  intros Hbt Hsz H. apply (validate_cell_none (false, base_enum)) in H.
  pose proof (valid_cell kind_native false base_enum bt size eq_refl Hbt Hsz) as C. unfold cell_ok in C. now rewrite H in C.
Qed.

Lemma decompress_low b : decompress b = decompress (N.land b 0x1F).
Proof. unfold decompress. cbv zeta. now rewrite <- N.land_assoc, N.land_diag. Qed.

Lemma decompress_idem b : decompress (decompress b) = decompress b.
Proof.
  rewrite (decompress_low b).
  assert (Hlt : N.land b 0x1F < 32) by (apply (land_lt_pow2 b 0x1F 5); reflexivity).
  pose proof (forall_below 32 (fun c => decompress (decompress c) =? decompress c) ltac:(vm_compute; reflexivity) _ Hlt) as H.
  now apply N.eqb_eq.
Qed.

Lemma fit_base_canonical t : decompress (fit_base t) =? fit_base t = true.
Proof. apply N.eqb_eq, decompress_idem. Qed.

Lemma entry_desc_valid gmn fdn pf : get_field gmn fdn = Some pf ->
  desc_valid (fit_kind (pf_t pf)) (fit_array (pf_t pf)) (fit_base (pf_t pf)) = true.
Proof.
  intros H. destruct (entry_sound _ _ _ H) as (m & _ & F). pose proof (ef_kind _ _ _ _ F) as Hk.
  unfold desc_valid. rewrite (ef_storable _ _ _ _ F), (proj2 (N.leb_le _ _) Hk), fit_base_canonical. cbn [andb].
  destruct (N.eqb_spec (fit_kind (pf_t pf)) kind_native) as [E|NE]; [reflexivity|].
  rewrite (ef_scalar_kinds _ _ _ _ F NE). cbn [negb andb].
  destruct (N.eqb_spec (fit_kind (pf_t pf)) kind_timeutc) as [E1|N1];
    [apply N.eqb_eq, (ef_time_base _ _ _ _ F); auto|].
  destruct (N.eqb_spec (fit_kind (pf_t pf)) kind_timelocal) as [E2|N2];
    [apply N.eqb_eq, (ef_time_base _ _ _ _ F); auto|].
  apply N.eqb_eq, (ef_coord_base _ _ _ _ F). unfold kind_native, kind_timeutc, kind_timelocal, kind_lat, kind_lng in *. lia.
Qed.
