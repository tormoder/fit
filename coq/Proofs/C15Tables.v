(* C15 speaks about the lookup tables "everywhere": the statements of Props/C15.v are about the tables as read out
   of the compiled library at the start of a run (Gen/ProfileData.v).  They describe the tables for the whole life
   of the process only if nothing reachable from the entry points writes them.  Gen/SharedState.v (the flow-based
   analysis over SSA regenerated from the source on every check, harness/gen_shared.go) classifies every
   package-level variable; C15_tables_never_written (from the one evaluation profile_tables_read_only_b below, through
   mem_In) is the obligation that the profile tables and the base-type tables are
   read and never written by code reachable from Decode, DecodeChained, CheckIntegrity, DecodeHeader,
   DecodeHeaderAndFileID and Encode. *)
From Coq Require Import String List Bool.
From FitV Require Import Gen.SharedState.
Import ListNotations.
Local Open Scope string_scope.

Definition profile_tables : list string :=
  ["fit._fields"; "fit.knownMsgNums"; "fit.msgsTypes"; "fit.newMesgFuncs";
   "types.bsize"; "types.bsigned"; "types.binteger"; "types.goinvalid"].

Definition mem (v : string) (l : list string) : bool := existsb (String.eqb v) l.

Lemma mem_In v l : mem v l = true <-> In v l.
Proof.
  unfold mem. rewrite existsb_exists. split.
  - intros [x [Hx He]]. apply String.eqb_eq in He. subst. exact Hx.
  - intros H. exists v. split; [exact H | apply String.eqb_refl].
Qed.

Lemma profile_tables_read_only_b :
  forallb (fun v => mem v read_only_globals && negb (mem v written_globals) && negb (mem v sync_globals_used)) profile_tables = true.
Proof. vm_compute. reflexivity. Qed.
