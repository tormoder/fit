(* C07, value equality between two generations.
   Generation 1 is a File f1 (typically one that Decode returned: arrays may be longer than the
   profile length, strings longer than the profile length - 1); generation 2 is Decode (Encode f1).

     1. Encode cuts arrays to the profile length and strings to length - 1 exactly as trunc_msg of
        Spec/RoundTrip.v does: Encode f1 and Encode (trunc_file f1) write the same bytes
        (encode_trunc), under two side conditions:
          - arrays_short: every array holds fewer than 256 elements (writeField computes
            byte(value.Len()), C05Wire.encode_wire_array256_refuted);
          - len1_strings_empty: a string held in a field whose profile length is below 2 is
            empty.  Six string fields of the profile have length 1; for them Encode writes one 0
            byte for any non-empty string (the field is in the definition), whereas the truncated
            value "" is skipped: the bytes differ (len1_string_differs).
     2. trunc_file f1 is again a wf_file with the same header, so the C06 round trip applies to it
        as soon as it is in the C06 domain (generations_eq, generations_eq_decoded). *)
From Coq Require Import NArith ZArith List Bool Lia String.
From FitV Require Proofs.ProfileProofs.
From FitV Require Import Model.Values Model.Bytes Model.Base Model.Profile Model.Reflect Model.Components Model.Route
  Model.Crc Model.Header Model.IO Model.Decode Model.Encode Spec.Grammar Spec.RoundTrip Spec.RouteSpec
  Proofs.Util Proofs.EncodeProofs Proofs.C05Grammar Proofs.C05Wire Proofs.C05Complete Proofs.C06Denote Proofs.C06Route
  Proofs.C06RoundTrip Proofs.C07MsgWf Proofs.C07Reencode Proofs.C07DecodeWf Proofs.C07Integrity Proofs.EncExamples
  Gen.Consts Gen.ProfileData Gen.RoutingData.
Import ListNotations.
Local Open Scope N_scope.

Definition trunc_file (f : file) : file :=
  mk_file (f_header f) (f_crc f) (map (map trunc_msg) (f_slots f)) (f_inited f) (f_unkm f) (f_unkf f).

Fixpoint fields_chk (chk : pfield -> goval -> bool) (gmn : N) (i : nat) (vals : list goval) : bool :=
  match vals with
  | [] => true
  | v :: r => (match pfield_of_sindex gmn i with Some pf => chk pf v | None => true end) && fields_chk chk gmn (S i) r
  end.

Definition len1_ok (pf : pfield) (v : goval) : bool :=
  match v with VStr (_ :: _) => negb (pf_length pf <? 2) | _ => true end.
Definition msg_len1_ok (m : msg) : bool := fields_chk len1_ok (m_num m) 0 (m_fields m).
Definition len1_strings_empty (f : file) : bool := forallb msg_len1_ok (file_msgs f).

(* every array holds fewer than 256 elements (the array part of C05Wire.file_sane) *)
Definition msg_arrays_short (m : msg) : bool := forallb arr_short (m_fields m).
Definition arrays_short (f : file) : bool := forallb msg_arrays_short (file_msgs f).

Lemma file_sane_arrays_short f : file_sane f = true -> arrays_short f = true.
Proof.
  apply forallb_impl. intros m. apply forallb_impl. intros v.
  destruct v; cbn [val_sane arr_short]; auto.
Qed.

Lemma trunc_field_cases pf v :
  trunc_field pf v = v \/
  (exists l, fit_array (pf_t pf) = true /\ v = VList l /\ trunc_field pf v = VList (firstn (N.to_nat (pf_length pf)) l)) \/
  (exists s, fit_array (pf_t pf) = false /\ (fit_base (pf_t pf) =? base_string) = true /\ v = VStr s /\
             trunc_field pf v = VStr (firstn (N.to_nat (pf_length pf) - 1) s)).
Proof.
  unfold trunc_field. cbv zeta. destruct (fit_array (pf_t pf)).
  - destruct v; try (now left). right. left. repeat esplit.
  - destruct (fit_base (pf_t pf) =? base_string); [|now left]. destruct v; try (now left). right. right. repeat esplit.
Qed.

Lemma all_invalid_inv_ok gmn inv : mesg_all_invalid gmn = Some inv -> forallb inv_ok (m_fields inv) = true.
Proof. intros H. apply ProfileProofs.mesg_all_invalid_some in H as (md & Ef & ->). apply (find_msg_ok0 _ _ Ef). Qed.

Lemma encode_string_trunc s L : encode_string (firstn (N.to_nat L - 1) s) L = encode_string s L.
Proof.
  unfold encode_string. destruct (L =? 0); [reflexivity|]. cbv zeta.
  set (k := (N.to_nat L - 1)%nat). rewrite firstn_length, firstn_firstn.
  replace (Nat.min (Nat.min k (List.length s)) k) with (Nat.min (List.length s) k) by lia.
  now rewrite <- Nat.min_assoc, Nat.min_id.
Qed.

Lemma if_ltb_min a b : (if a <? b then a else b) = N.min a b.
Proof. destruct (N.ltb_spec a b); lia. Qed.

Lemma write_field_trunc be pf ty v : arr_short v = true ->
  write_field be pf ty (trunc_field pf v) = write_field be pf ty v.
Proof.
  intros Hs. destruct (trunc_field_cases pf v) as [->|[(l & Ea & -> & ->)|(s & Ea & Es & -> & ->)]]; [reflexivity| |].
  - unfold write_field. cbv zeta. rewrite Ea. cbn [negb].
    destruct (fit_base (pf_t pf) =? base_string); [reflexivity|]. destruct (b_known _) as [kn|]; [|reflexivity].
    (* byte(Len) is Len below 256, and min (min L Len) L elements of l are written either way *)
    cbn [arr_short] in Hs. apply N.ltb_lt in Hs. rewrite firstn_length, firstn_firstn, !if_ltb_min, !N.mod_small by lia.
    set (L := pf_length pf). set (n := List.length l) in *.
    replace (N.min L (N.of_nat (Nat.min (N.to_nat L) n))) with (N.min L (N.of_nat n)) by lia.
    replace (Nat.min (N.to_nat (N.min L (N.of_nat n))) (N.to_nat L)) with (N.to_nat (N.min L (N.of_nat n))) by lia.
    reflexivity.
  - unfold write_field, encode_value. cbv zeta. rewrite Ea, Es. cbv iota. now rewrite encode_string_trunc.
Qed.

Lemma str_cons_ne_inv c s iv : inv_ok iv = true -> goval_eqb (VStr (c :: s)) iv = false.
Proof.
  destruct iv as [| | |[|b t]| | | | | |]; intros H; try reflexivity. discriminate H.
Qed.

(* getEncodeMesgDef asks of an array whether it is empty and of a string whether it is the invalid value "":
   the cut leaves non-empty what was non-empty, so the field is selected or skipped as before.
   get_field_by_sindex is generalised first: once v is a VList the match on it heads both sides and the kernel
   would walk the profile table twice to compare them. *)
Lemma def_fields_head_trunc gmn i pf v vr iv ir :
  len1_ok pf v = true -> inv_ok iv = true -> (fit_array (pf_t pf) = true -> 0 < pf_length pf) ->
  def_fields gmn i (trunc_field pf v :: vr) (iv :: ir) = def_fields gmn i (v :: vr) (iv :: ir).
Proof.
  intros Hv Hiv Hpos. cbn [def_fields]. generalize (get_field_by_sindex gmn i), (def_fields gmn (S i) vr ir). intros field rest.
  destruct (trunc_field_cases pf v) as [->|[(l & Ea & -> & ->)|(s & _ & _ & -> & ->)]]; [reflexivity| |].
  - destruct l as [|x l]; [now rewrite firstn_nil|]. specialize (Hpos Ea).
    destruct (N.to_nat (pf_length pf)) as [|k] eqn:EL; [lia|]. reflexivity.
  - destruct s as [|c s]; [now rewrite firstn_nil|].
    cbn [len1_ok] in Hv. apply negb_true_iff, N.ltb_ge in Hv.
    destruct (N.to_nat (pf_length pf) - 1)%nat as [|k] eqn:EL; [lia|].
    cbn [firstn]. now rewrite !(str_cons_ne_inv _ _ iv Hiv).
Qed.

Lemma def_fields_tail gmn i v vr vr' iv ir : def_fields gmn (S i) vr' ir = def_fields gmn (S i) vr ir ->
  def_fields gmn i (v :: vr') (iv :: ir) = def_fields gmn i (v :: vr) (iv :: ir).
Proof. intros E. cbn [def_fields]. now rewrite E. Qed.

(* getEncodeMesgDef selects the same fields *)
Lemma def_fields_trunc gmn : forall vals invs i,
  fields_chk len1_ok gmn i vals = true -> forallb inv_ok invs = true ->
  def_fields gmn i (map_fields trunc_field gmn i vals) invs = def_fields gmn i vals invs.
Proof.
  (* fields_chk is unfolded in the goal, before H is introduced (unfolded in H, the kernel reduces pfield_of_sindex
     on both sides and compares two walks through the profile table); def_fields stays folded for the same reason *)
  induction vals as [|v vr IH]; intros [|iv ir] i; try reflexivity. cbn [fields_chk forallb map_fields]. intros H Hinv.
  apply andb_true_iff in H as [Hv Hr]. apply andb_true_iff in Hinv as [Hiv Hir].
  rewrite (def_fields_tail _ _ _ _ _ _ _ (IH ir (S i) Hr Hir)).
  destruct (pfield_of_sindex gmn i) as [pf|] eqn:Ep; [|reflexivity].
  apply def_fields_head_trunc; [exact Hv|exact Hiv|].
  destruct (from_profile_ok0 _ _ (pfs_from _ _ _ Ep)) as (md & _ & Hok). exact (e0_array_pos _ _ Hok).
Qed.

Lemma get_encode_mesg_def_trunc m : msg_len1_ok m = true ->
  get_encode_mesg_def (trunc_msg m) = get_encode_mesg_def m.
Proof.
  intros H. unfold get_encode_mesg_def, trunc_msg. cbn [m_num m_fields].
  destruct (mesg_all_invalid (m_num m)) as [inv|] eqn:Ei; [|reflexivity].
  rewrite map_fields_length. destruct (negb _); [reflexivity|].
  apply def_fields_trunc; [exact H|]. eapply all_invalid_inv_ok; eassumption.
Qed.

Lemma write_mesg_trunc be m fields : Forall (from_profile (m_num m)) fields -> msg_arrays_short m = true ->
  write_mesg be (trunc_msg m) fields = write_mesg be m fields.
Proof.
  intros Hfp Hs. unfold write_mesg. f_equal. f_equal. apply map_ext_in. intros pf Hin.
  rewrite Forall_forall in Hfp. pose proof (from_profile_sindex _ _ (Hfp pf Hin)) as Hp.
  unfold trunc_msg. cbn [m_num m_fields]. rewrite map_fields_nth_error. cbn [Nat.add]. rewrite Hp.
  destruct (nth_error (m_fields m) (pf_sindex pf)) as [v|] eqn:En; [|reflexivity].
  destruct (field_type (m_num m) (pf_sindex pf)) as [ty|]; [|reflexivity].
  apply write_field_trunc. unfold msg_arrays_short in Hs. rewrite forallb_forall in Hs. apply Hs.
  eapply nth_error_In; eassumption.
Qed.

Definition msg_cond (m : msg) : Prop := msg_len1_ok m = true /\ msg_arrays_short m = true.

Lemma ebind_ext {A B} (r : eres A) (f g : A -> eres B) : (forall a, r = EOk a -> f a = g a) -> ebind r f = ebind r g.
Proof. destruct r; cbn [ebind]; auto. Qed.

Lemma encode_def_and_data_trunc be m : msg_cond m -> encode_def_and_data be (trunc_msg m) = encode_def_and_data be m.
Proof.
  intros [H1 H2]. unfold encode_def_and_data. rewrite (get_encode_mesg_def_trunc m H1).
  apply ebind_ext. intros fs E. now rewrite (write_mesg_trunc be m fs (get_def_from _ _ E) H2).
Qed.

Lemma collect_fields_trunc : forall ms acc, Forall msg_cond ms ->
  collect_fields (map trunc_msg ms) acc = collect_fields ms acc.
Proof.
  induction ms as [|m r IH]; intros acc H; [reflexivity|]. inversion H as [|? ? [H1 _] Hr]; subst.
  cbn [map collect_fields]. rewrite (get_encode_mesg_def_trunc m H1). apply ebind_ext. auto.
Qed.

Lemma last_trunc_num d : forall ms, m_num (last (map trunc_msg ms) d) = m_num (last ms d).
Proof. induction ms as [|m [|m2 r] IH]; [reflexivity|reflexivity|exact IH]. Qed.

Lemma encode_slice_trunc be mn ms : Forall (fun m => m_num m = mn) ms -> Forall msg_cond ms ->
  encode_slice be (map trunc_msg ms) = encode_slice be ms.
Proof.
  intros Hm Hc. destruct ms as [|m0 mr]; [reflexivity|]. cbn [map]. unfold encode_slice.
  change (trunc_msg m0 :: map trunc_msg mr) with (map trunc_msg (m0 :: mr)).
  rewrite (collect_fields_trunc _ [] Hc), last_trunc_num. apply ebind_ext. intros fs Ec. apply ebind_ext. intros d _.
  destruct (collect_fields_inv mn _ [] fs Hm (Forall_nil _) I Ec) as [Hfp _].
  f_equal. f_equal. rewrite map_map. apply map_ext_in. intros m Hin.
  rewrite Forall_forall in Hm, Hc. apply write_mesg_trunc; [now rewrite (Hm m Hin)|apply (Hc m Hin)].
Qed.

Lemma encode_slot_trunc be multi mn ms : Forall (fun m => m_num m = mn) ms -> Forall msg_cond ms ->
  encode_slot be multi (map trunc_msg ms) = encode_slot be multi ms.
Proof.
  intros Hm Hc. unfold encode_slot. destruct multi; [now apply (encode_slice_trunc be mn)|].
  f_equal. rewrite map_map. apply map_ext_in. intros m Hin. rewrite Forall_forall in Hc.
  apply encode_def_and_data_trunc. now apply Hc.
Qed.

Lemma encode_slots_trunc be : forall descs i slots,
  slots_wf i descs slots = true -> Forall msg_cond (visible i slots) ->
  encode_slots be i descs (map (map trunc_msg) slots) = encode_slots be i descs slots.
Proof.
  refine (slots_wf_cases _ _ _); [reflexivity|]. intros i nm multi mn dr s sr Hmsgs _ _ _ IH Hc.
  cbn [visible] in Hc. apply Forall_app in Hc as [Hc1 Hc2]. cbn [map encode_slots]. rewrite (IH Hc2).
  destruct (Nat.eqb i 3 || Nat.eqb i 4); [reflexivity|].
  now rewrite (encode_slot_trunc be multi mn s (msgs_wf_num _ _ Hmsgs) Hc1).
Qed.

Lemma uval_trunc_field pf v : uval (trunc_field pf v) = uval v.
Proof. destruct (trunc_field_cases pf v) as [->|[(l & _ & -> & ->)|(s & _ & _ & -> & ->)]]; reflexivity. Qed.

(* FileId.Type is a scalar: truncation does not move it *)
Lemma file_type_trunc f : file_type (trunc_file f) = file_type f.
Proof.
  unfold file_type, trunc_file. cbn [f_slots]. destruct (f_slots f) as [|[|m r] sr]; try reflexivity.
  cbn [map nth]. unfold fld, trunc_msg. cbn [m_num m_fields]. destruct (sindex_of (m_num m) "Type") as [i|]; [|reflexivity].
  rewrite <- !nth_default_eq. unfold nth_default. rewrite map_fields_nth_error.
  destruct (nth_error (m_fields m) i); [|reflexivity]. destruct (pfield_of_sindex _ _); [apply uval_trunc_field|reflexivity].
Qed.

Lemma file_msgs_cond f : len1_strings_empty f = true -> arrays_short f = true -> Forall msg_cond (visible 0 (f_slots f)).
Proof.
  unfold len1_strings_empty, arrays_short. rewrite file_msgs_visible. intros H1 H2.
  rewrite forallb_forall in H1, H2. apply Forall_forall. intros m Hm. split; auto.
Qed.

Theorem encode_trunc f be bs f' :
  wf_file f = true -> len1_strings_empty f = true -> arrays_short f = true ->
  encode f be = EOk (bs, f') -> exists f'', encode (trunc_file f) be = EOk (bs, f'').
Proof.
  intros Hwf H1 H2. destruct (wf_file_inv f Hwf) as (cn & descs & _ & _ & Ei & Efe & Hsw & _).
  unfold encode. rewrite file_type_trunc. cbn [trunc_file f_header f_inited f_slots].
  rewrite Efe, Ei, N.eqb_refl, (encode_slots_trunc be descs 0 (f_slots f) Hsw (file_msgs_cond f H1 H2)). cbn [negb].
  destruct (encode_slots be 0 descs (f_slots f)) as [data| |]; cbn [ebind]; try discriminate.
  destruct (header_marshal _) as [hdr hcrc]. intros H. injection H as Hbs _. rewrite Hbs. eexists. reflexivity.
Qed.

Lemma val_has_type_trunc ty pf v : val_has_type ty v = true -> val_has_type ty (trunc_field pf v) = true.
Proof.
  intros H. destruct (trunc_field_cases pf v) as [->|[(l & _ & -> & ->)|(s & _ & _ & -> & ->)]]; [exact H| |];
    destruct ty; try discriminate H; rewrite ?slice_typed in *; now apply forallb_firstn.
Qed.

Lemma vals_typed_trunc gmn : forall layout vals k, vals_typed layout vals = true ->
  vals_typed layout (map_fields trunc_field gmn k vals) = true.
Proof.
  induction layout as [|[nm ty] lr IH]; intros vals k H; destruct vals as [|v vr]; try discriminate H; [reflexivity|].
  cbn [vals_typed] in H. apply andb_true_iff in H as [H0 Hr]. cbn [map_fields vals_typed].
  rewrite (IH vr (S k) Hr), andb_true_r.
  destruct (pfield_of_sindex gmn k); [now apply val_has_type_trunc|exact H0].
Qed.

Lemma msg_wf_trunc mn m : msg_wf mn m = true -> msg_wf mn (trunc_msg m) = true.
Proof.
  rewrite !msg_wf_iff. unfold trunc_msg. cbn [m_num m_fields]. intros [Hn Ht]. split; [exact Hn|]. now apply vals_typed_trunc.
Qed.

Lemma slots_wf_trunc : forall descs i slots, slots_wf i descs slots = true ->
  slots_wf i descs (map (map trunc_msg) slots) = true.
Proof.
  apply slots_wf_cases; [reflexivity|]. intros i nm multi mn dr s sr H1 H2 H3 _ IH.
  cbn [map slots_wf]. rewrite map_length, H2, H3, IH, !andb_true_r.
  rewrite forallb_map_comp. exact (forallb_impl _ _ _ (msg_wf_trunc mn) H1).
Qed.

Theorem wf_file_trunc f : wf_file f = true -> wf_file (trunc_file f) = true.
Proof.
  intros Hwf. destruct (wf_file_inv f Hwf) as (cn & descs & _ & _ & Ei & Efe & Hsw & _).
  unfold wf_file. rewrite file_type_trunc. cbn [trunc_file f_inited f_slots]. rewrite Ei, N.eqb_refl, Efe. now apply slots_wf_trunc.
Qed.

(* C07, values: Decode of what Encode wrote for f1 returns the content of trunc_file f1 (f1 with every
   array cut to its profile length and every string to length - 1), compared as C06 compares. *)
Theorem generations_eq f1 be bs f1' o g rd fuel extra :
  wf_file f1 = true -> wf_header (f_header f1) = true ->
  proto_ok (h_proto (f_header f1)) = true -> h_profile (f_header f1) < 65536 ->
  len1_strings_empty f1 = true -> arrays_short f1 = true ->
  in_domain (trunc_file f1) = true -> ginv g ->
  encode f1 be = EOk (bs, f1') -> N.of_nat (List.length bs) < 4294967296 ->
  rd_data rd = bs ++ extra -> (List.length (rd_data rd) + List.length (rd_sched rd) < fuel)%nat ->
  exists rd' f2 g' q h,
    entry_Decode o g rd fuel = TDone (mk_dres None h (Some f2) rd' g' q) /\
    content_eq6 (trunc_file f1) f2 = true /\ ginv g' /\
    rd_data rd' = extra /\ rd_pos rd' = (rd_pos rd + List.length bs)%nat.
Proof.
  intros Hwf Hh Hpo Hpr H1 H2 Hdom Hg Henc Hlen Hrd Hfuel.
  destruct (encode_trunc f1 be bs f1' Hwf H1 H2 Henc) as (f'' & Henc').
  destruct (roundtrip (trunc_file f1) be bs f'' o g rd fuel extra (wf_file_trunc f1 Hwf) Hh Hpo Hpr Hdom Hg Henc' Hlen Hrd Hfuel)
    as (rd' & f2 & g' & q & H).
  exists rd', f2, g', q. eexists. exact H.
Qed.

(* with file_sane of C05Wire in place of arrays_short *)
Corollary generations_eq_sane f1 be bs f1' o g rd fuel extra :
  wf_file f1 = true -> wf_header (f_header f1) = true ->
  proto_ok (h_proto (f_header f1)) = true -> h_profile (f_header f1) < 65536 ->
  len1_strings_empty f1 = true -> file_sane f1 = true ->
  in_domain (trunc_file f1) = true -> ginv g ->
  encode f1 be = EOk (bs, f1') -> N.of_nat (List.length bs) < 4294967296 ->
  rd_data rd = bs ++ extra -> (List.length (rd_data rd) + List.length (rd_sched rd) < fuel)%nat ->
  exists rd' f2 g' q h,
    entry_Decode o g rd fuel = TDone (mk_dres None h (Some f2) rd' g' q) /\
    content_eq6 (trunc_file f1) f2 = true /\ ginv g' /\
    rd_data rd' = extra /\ rd_pos rd' = (rd_pos rd + List.length bs)%nat.
Proof. intros Hwf Hh Hpo Hpr H1 H2. apply generations_eq; auto using file_sane_arrays_short. Qed.

(* generation 1 is a File Decode returned (FileId.Type still naming its container): well-formedness and
   the header conditions come from the decoder (C07Integrity.decoded_encodable) *)
Corollary generations_eq_decoded o0 g0 rd0 fuel0 h0 f1 rd0' g0' q0 be bs f1' o g rd fuel extra :
  Forall (fun b => b < 256) (rd_data rd0) ->
  entry_Decode o0 g0 rd0 fuel0 = TDone (mk_dres None h0 (Some f1) rd0' g0' q0) ->
  f_inited f1 = Some (file_type f1) ->
  len1_strings_empty f1 = true -> arrays_short f1 = true ->
  in_domain (trunc_file f1) = true -> ginv g ->
  encode f1 be = EOk (bs, f1') -> N.of_nat (List.length bs) < 4294967296 ->
  rd_data rd = bs ++ extra -> (List.length (rd_data rd) + List.length (rd_sched rd) < fuel)%nat ->
  exists rd' f2 g' q h,
    entry_Decode o g rd fuel = TDone (mk_dres None h (Some f2) rd' g' q) /\
    content_eq6 (trunc_file f1) f2 = true /\ ginv g' /\
    rd_data rd' = extra /\ rd_pos rd' = (rd_pos rd + List.length bs)%nat.
Proof.
  intros Hb Hd Hi. destruct (decoded_encodable _ _ _ _ _ _ _ _ _ Hb Hd Hi) as (Hwf & Hwh & Hpo & Hpr).
  now apply generations_eq.
Qed.

(* the activity File of Proofs/EncExamples.v with a product name of 25 bytes (profile length 20) and,
   in both records, a speed_1s array of 6 elements (profile length 5): not in the C06 domain itself *)
Definition gen_fileid : msg := set_fld ex_fileid "ProductName" (VStr (repeat 65 25)).
Definition gen_record : msg := set_fld ex_record "Speed1s" (VList [VU 1; VU 2; VU 3; VU 4; VU 5; VU 6]).
Definition gen_slots : list (list msg) :=
  match ft_entry 4 with
  | Some (_, _, descs) =>
      map (fun d => let '(_, _, mn) := d in if mn =? 20 then [gen_record; gen_record] else []) descs
  | None => []
  end.
Definition gen_file : file :=
  mk_file (new_header 32 true) 0 ([gen_fileid] :: tl gen_slots) (Some 4) None None.

Definition enc_small (f : file) (be : bool) : bool :=
  match encode f be with EOk (bs, _) => N.of_nat (List.length bs) <? 4294967296 | _ => false end.
Definition same_bytes (f f' : file) (be : bool) : bool :=
  match encode f be, encode f' be with EOk (a, _), EOk (b, _) => bytes_eqb a b | _, _ => false end.

(* the hypotheses of generations_eq are satisfiable by a File outside the C06 domain *)
Example generations_example :
  wf_file gen_file && wf_header (f_header gen_file) && proto_ok (h_proto (f_header gen_file)) &&
  (h_profile (f_header gen_file) <? 65536) && len1_strings_empty gen_file && arrays_short gen_file &&
  in_domain (trunc_file gen_file) && negb (in_domain gen_file) &&
  enc_small gen_file true && enc_small gen_file false &&
  same_bytes gen_file (trunc_file gen_file) true && same_bytes gen_file (trunc_file gen_file) false = true.
Proof. (* what occurs more than once is named, here and below, so that the checker evaluates it once *)
  set (t := trunc_file gen_file). vm_compute. reflexivity.
Qed.

(* both side conditions are necessary.
   A session whose opponent_name (message 18 field 84, profile length 1) is "A": Encode writes the
   field (one 0 byte), for the truncated value "" it leaves the field out. *)
Definition one_slot (mn : N) (m : msg) : list (list msg) :=
  match ft_entry 4 with
  | Some (_, _, descs) => map (fun d => let '(_, _, mn') := d in if mn' =? mn then [m] else []) descs
  | None => []
  end.
Definition len1_session : msg :=
  match mesg_all_invalid 18 with Some m => set_fld m "OpponentName" (VStr [65]) | None => mk_msg 18 [] end.
Definition len1_file : file :=
  mk_file (new_header 32 true) 0 ([ex_fileid] :: tl (one_slot 18 len1_session)) (Some 4) None None.

Example len1_string_differs :
  wf_file len1_file && arrays_short len1_file && negb (len1_strings_empty len1_file) &&
  enc_small len1_file false && enc_small (trunc_file len1_file) false &&
  negb (same_bytes len1_file (trunc_file len1_file) false) = true.
Proof.
  unfold enc_small, same_bytes. set (e := encode len1_file false). set (e' := encode (trunc_file len1_file) false).
  vm_compute. reflexivity.
Qed.

(* A record whose speed_1s array holds 256 elements: byte(Len) is 0, Encode writes five invalid
   elements; for the truncated array it writes the first five. *)
Definition long_record : msg := set_fld ex_record "Speed1s" (VList (repeat (VU 1) 256)).
Definition long_file : file :=
  mk_file (new_header 32 true) 0 ([ex_fileid] :: tl (one_slot 20 long_record)) (Some 4) None None.

Example array256_differs :
  wf_file long_file && len1_strings_empty long_file && negb (arrays_short long_file) &&
  enc_small long_file false && enc_small (trunc_file long_file) false &&
  negb (same_bytes long_file (trunc_file long_file) false) = true.
Proof.
  unfold enc_small, same_bytes. set (e := encode long_file false). set (e' := encode (trunc_file long_file) false).
  vm_compute. reflexivity.
Qed.

(* the whole chain computed on gen_file: generation 2 has the content of trunc_file gen_file (C06
   comparator) and agrees with generation 1 under the C07 comparator *)
Example generations_run :
  forallb (fun be : bool =>
    match encode gen_file be with
    | EOk (bs, _) =>
        match entry_Decode no_opts g_init (mk_reader (bs ++ [7; 7]) [2; 0; 5]%nat TEOF true 0) (10 + List.length bs) with
        | TDone r =>
            match dr_err r, dr_file r with
            | None, Some f2 => content_eq6 (trunc_file gen_file) f2 && content_eq7 gen_file f2 && negb (content_eq6 gen_file f2)
            | _, _ => false
            end
        | _ => false
        end
    | _ => false
    end) [false; true] = true.
Proof. set (t := trunc_file gen_file). vm_compute. reflexivity. Qed.

(* the hypotheses of generations_eq_decoded on a decoded File: StreamDenoteDecode.ok_reader *)
Example generations_decoded_example :
  match entry_Decode no_opts g_init StreamDenoteDecode.ok_reader 200 with
  | TDone r =>
      match dr_err r, dr_file r with
      | None, Some f1 =>
          opt_n_eqb (f_inited f1) (Some (file_type f1)) && len1_strings_empty f1 && arrays_short f1 &&
          in_domain (trunc_file f1) && enc_small f1 true && enc_small f1 false
      | _, _ => false
      end
  | _ => false
  end = true.
Proof. vm_compute. reflexivity. Qed.
