(* Facts about N and lists in which nothing of the model occurs but [set_nth]: ranges over N for finite checks lifted
   with forallb_forall, bounds on the bitwise operations, injectivity of Some as lemmas, [opt_all] (a predicate on what
   an option holds, if anything), firstn/skipn/append, Forall, forallb, Forall2, NoDup under map, a list with one
   position replaced, the boolean no-duplicates test [nodupb].  Byte lists and the numbers read off them: BytesUtil. *)
From Coq Require Import NArith PeanoNat List Lia Bool.
From FitV Require Import Model.Reflect.
Import ListNotations.
Local Open Scope N_scope.

Fixpoint range (n : nat) (s : N) : list N :=
  match n with O => [] | S k => s :: range k (s + 1) end.

Lemma range_in n : forall s x, s <= x < s + N.of_nat n -> In x (range n s).
Proof.
  induction n as [|n IH]; intros s x H; simpl.
  - lia.
  - destruct (N.eq_dec s x) as [->|Hne]; [now left|right]. apply IH. lia.
Qed.

Lemma in_range n : forall s x, In x (range n s) -> s <= x < s + N.of_nat n.
Proof.
  induction n as [|n IH]; intros s x H; simpl in H.
  - contradiction.
  - destruct H as [->|H]; [lia|]. apply IH in H. lia.
Qed.

Lemma range_length n s : length (range n s) = n.
Proof. revert s; induction n as [|n IH]; intros s; simpl; [reflexivity|now rewrite IH]. Qed.

Lemma range_snoc n : forall s, range (S n) s = range n s ++ [s + N.of_nat n].
Proof.
  induction n as [|n IH]; intros s.
  - simpl. now rewrite N.add_0_r.
  - change (range (S (S n)) s) with (s :: range (S n) (s + 1)). rewrite IH. simpl.
    do 3 f_equal. lia.
Qed.

Lemma range_nth n : forall s i y, nth_error (range n s) i = Some y -> y = s + N.of_nat i.
Proof.
  induction n as [|n IH]; intros s [|i] y H; simpl in H; try discriminate.
  - injection H as <-. lia.
  - apply IH in H. lia.
Qed.

Lemma range_NoDup n : forall s, NoDup (range n s).
Proof.
  induction n as [|n IH]; intros s; simpl; constructor; [|apply IH].
  intros H. apply in_range in H. lia.
Qed.

Lemma forall_below (k : N) (p : N -> bool) :
  forallb p (range (N.to_nat k) 0) = true -> forall x, x < k -> p x = true.
Proof.
  intros H x Hx. rewrite forallb_forall in H. apply H, range_in. rewrite N2Nat.id. lia.
Qed.

Lemma land_lxor_l a b m : N.land (N.lxor a b) m = N.lxor (N.land a m) (N.land b m).
Proof.
  apply N.bits_inj; intro n. rewrite !N.land_spec, !N.lxor_spec, !N.land_spec.
  destruct (N.testbit a n), (N.testbit b n), (N.testbit m n); reflexivity.
Qed.

Lemma lxor_swap a b c d : N.lxor (N.lxor a b) (N.lxor c d) = N.lxor (N.lxor a c) (N.lxor b d).
Proof. apply N.bits_inj; intro n. rewrite !N.lxor_spec.
  destruct (N.testbit a n), (N.testbit b n), (N.testbit c n), (N.testbit d n); reflexivity. Qed.

Lemma split_at k c : c = N.lxor (N.shiftl (N.shiftr c k) k) (N.land c (N.ones k)).
Proof.
  apply N.bits_inj; intro n. rewrite N.lxor_spec, N.land_spec. destruct (N.ltb_spec n k) as [L|L].
  - rewrite N.shiftl_spec_low, N.ones_spec_low by assumption. now rewrite andb_true_r, xorb_false_l.
  - rewrite N.shiftl_spec_high', N.shiftr_spec', N.ones_spec_high, N.sub_add by assumption.
    now rewrite andb_false_r, xorb_false_r.
Qed.

Lemma pow2_pos n : 0 < 2 ^ n.
Proof. apply N.neq_0_lt_0, N.pow_nonzero. discriminate. Qed.

Lemma pow2_half bits : 0 < bits -> 2 ^ bits = 2 * 2 ^ (bits - 1).
Proof. intros H. rewrite <- N.pow_succ_r', N.sub_1_r, N.succ_pred by lia. reflexivity. Qed.

Lemma land_ones_small x n : x < 2 ^ n -> N.land x (N.ones n) = x.
Proof. intros H. rewrite N.land_ones. now apply N.mod_small. Qed.

Lemma land_ones_lt x n : N.land x (N.ones n) < 2 ^ n.
Proof. rewrite N.land_ones. apply N.mod_lt, N.pow_nonzero. discriminate. Qed.

Lemma lxor_lt_pow2 a b n : a < 2 ^ n -> b < 2 ^ n -> N.lxor a b < 2 ^ n.
Proof.
  intros Ha Hb. rewrite <- (land_ones_small a n Ha), <- (land_ones_small b n Hb), <- land_lxor_l.
  apply land_ones_lt.
Qed.

Lemma lor_lt_pow2 a b n : a < 2 ^ n -> b < 2 ^ n -> N.lor a b < 2 ^ n.
Proof.
  intros Ha Hb. rewrite <- (land_ones_small a n Ha), <- (land_ones_small b n Hb), <- N.land_lor_distr_l.
  apply land_ones_lt.
Qed.

Lemma land_lt_pow2 a b n : b < 2 ^ n -> N.land a b < 2 ^ n.
Proof. intros Hb. rewrite <- (land_ones_small b n Hb), N.land_assoc. apply land_ones_lt. Qed.

Lemma shiftr_le a k : N.shiftr a k <= a.
Proof. rewrite N.shiftr_div_pow2. apply N.div_le_upper_bound; [apply N.pow_nonzero; discriminate|].
  pose proof (N.pow_nonzero 2 k ltac:(discriminate)) as H. nia. Qed.

Lemma lor_shiftl_add a b n : a < 2 ^ n -> N.lor a (N.shiftl b n) = a + b * 2 ^ n.
Proof.
  intros Ha. rewrite N.shiftl_mul_pow2.
  assert (E : N.land a (b * 2 ^ n) = 0).
  { apply N.bits_inj. intros m. rewrite N.land_spec, N.bits_0.
    destruct (N.lt_ge_cases m n) as [Hm|Hm].
    - rewrite N.mul_pow2_bits_low by assumption. apply andb_false_r.
    - now rewrite <- (N.mod_small a (2 ^ n) Ha), N.mod_pow2_bits_high. }
  now rewrite N.add_nocarry_lxor, N.lxor_lor.
Qed.

Lemma mod_mul_mod a b c : b <> 0 -> c <> 0 -> (a mod (b * c)) mod b = a mod b.
Proof.
  intros Hb Hc. rewrite N.mod_mul_r, (N.mul_comm b), N.mod_add by assumption. now apply N.mod_mod.
Qed.

(* injectivity of Some as lemmas, for equations between large terms in which injection and inversion would first compute *)
Lemma some_inj {A} (a a' : A) : Some a = Some a' -> a = a'.
Proof. intros H; inversion H; auto. Qed.

Lemma some_pair_inj {A B} (a a' : A) (b b' : B) : Some (a, b) = Some (a', b') -> a = a' /\ b = b'.
Proof. intros H; inversion H; auto. Qed.

Definition opt_all {A} (P : A -> Prop) (o : option A) : Prop := match o with Some a => P a | None => True end.

Lemma skipn_skipn_add {A} (l : list A) a b : skipn b (skipn a l) = skipn (a + b) l.
Proof.
  revert l; induction a as [|a IH]; intros l; cbn [skipn Nat.add]; [reflexivity|].
  destruct l as [|x l]; [apply skipn_nil|apply IH].
Qed.

Lemma firstn_plus {A} (l : list A) n m : firstn (n + m) l = firstn n l ++ firstn m (skipn n l).
Proof.
  revert l; induction n as [|n IH]; intros l; simpl; [reflexivity|].
  destruct l as [|x l]; simpl; [now rewrite firstn_nil|]. now rewrite IH.
Qed.

Lemma firstn_eq_split {A} (l l' : list A) a b : firstn (a + b) l' = firstn (a + b) l ->
  firstn a l' = firstn a l /\ firstn b (skipn a l') = firstn b (skipn a l).
Proof.
  intros H. split.
  - assert (E : forall l0 : list A, firstn a l0 = firstn a (firstn (a + b) l0))
      by (intros; rewrite firstn_firstn, Nat.min_l by lia; reflexivity).
    rewrite (E l), (E l'), H. reflexivity.
  - rewrite !firstn_skipn_comm, H. reflexivity.
Qed.

Lemma firstn_app_le {A} k (l1 l2 : list A) : (k <= length l1)%nat -> firstn k (l1 ++ l2) = firstn k l1.
Proof. intros H. rewrite firstn_app. replace (k - length l1)%nat with 0%nat by lia. apply app_nil_r. Qed.

Lemma skipn_app_le {A} k (l1 l2 : list A) : (k <= length l1)%nat -> skipn k (l1 ++ l2) = skipn k l1 ++ l2.
Proof. intros H. rewrite skipn_app. now replace (k - length l1)%nat with 0%nat by lia. Qed.

Lemma firstn_app_len {A} (a b : list A) n : List.length a = n -> firstn n (a ++ b) = a.
Proof.
  intros <-. induction a as [|x a IH]; [reflexivity|].
  cbn [List.length app firstn]. now rewrite IH.
Qed.

Lemma skipn_app_len {A} (a b : list A) n : List.length a = n -> skipn n (a ++ b) = b.
Proof.
  intros <-. induction a as [|x a IH]; [reflexivity|].
  cbn [List.length app skipn]. exact IH.
Qed.

Lemma firstn_len_app {A} (a b : list A) : firstn (List.length a) (a ++ b) = a.
Proof. now apply firstn_app_len. Qed.

Lemma skipn_len_app {A} (a b : list A) : skipn (List.length a) (a ++ b) = b.
Proof. now apply skipn_app_len. Qed.

Lemma skipn_not_nil {A} (l : list A) n : (n < List.length l)%nat -> skipn n l <> [].
Proof. intros H E. apply (f_equal (@List.length A)) in E. rewrite skipn_length in E. cbn [List.length] in E. lia. Qed.

Lemma nth_skipn_add {A} : forall (j : nat) (l : list A) (k : nat) (d : A), nth k (skipn j l) d = nth (j + k) l d.
Proof.
  induction j as [|j IH]; intros l k d; [reflexivity|].
  destruct l as [|b r]; cbn [skipn Nat.add nth]; [destruct k; reflexivity|]. apply IH.
Qed.

Lemma nth_error_firstn_lt {A} : forall n (l : list A) i, (i < n)%nat -> nth_error (firstn n l) i = nth_error l i.
Proof.
  induction n as [|n IH]; intros l i Hi; [lia|]. destruct l as [|a l]; [reflexivity|].
  destruct i as [|i]; [reflexivity|]. cbn [firstn nth_error]. apply IH. lia.
Qed.

Lemma firstn_repeat {A} (a : A) : forall n m, (n <= m)%nat -> firstn n (repeat a m) = repeat a n.
Proof.
  induction n as [|n IH]; intros m Hm; [reflexivity|]. destruct m as [|m]; [lia|]. cbn [repeat firstn]. now rewrite IH by lia.
Qed.

Lemma map_repeat' {A B} (f : A -> B) x n : map f (repeat x n) = repeat (f x) n.
Proof. induction n as [|n IH]; [reflexivity|]. cbn [repeat map]. f_equal. exact IH. Qed.

Lemma concat_length_eq {A} k : forall (qs : list (list A)), Forall (fun q => List.length q = k) qs ->
  List.length (List.concat qs) = (List.length qs * k)%nat.
Proof. induction 1 as [|q qs Hq HF IH]; [reflexivity|]. cbn [List.concat List.length]. rewrite app_length, IH, Hq. lia. Qed.

Lemma fold_left_cons {A B} (f : A -> B -> A) b l a : fold_left f (b :: l) a = fold_left f l (f a b).
Proof. reflexivity. Qed.

Lemma fold_left_agree {A B} (f g : A -> B -> A) (P : A -> Prop) (Q : B -> Prop) :
  (forall a b, P a -> Q b -> f a b = g a b /\ P (f a b)) ->
  forall l a, P a -> Forall Q l -> fold_left f l a = fold_left g l a.
Proof.
  intros H. induction l as [|b l IH]; intros a Ha Hl; [reflexivity|].
  destruct (H a b Ha (Forall_inv Hl)) as [E Hn]. simpl. rewrite <- E. apply IH; [exact Hn|exact (Forall_inv_tail Hl)].
Qed.

Lemma Forall_firstn {A} {P : A -> Prop} n : forall l, Forall P l -> Forall P (firstn n l).
Proof. induction n as [|n IH]; intros [|a l] H; cbn [firstn]; [constructor..|]. inversion H; subst. constructor; auto. Qed.

Lemma Forall_skipn {A} {P : A -> Prop} k : forall l, Forall P l -> Forall P (skipn k l).
Proof. induction k as [|k IH]; intros [|a l] H; cbn; auto. inversion H; subst; auto. Qed.

Lemma Forall_map_all {A B} (P : B -> Prop) (f : A -> B) l : (forall x, P (f x)) -> Forall P (map f l).
Proof. intros H. induction l; simpl; constructor; auto. Qed.

Lemma Forall_repeat {A} (P : A -> Prop) x n : P x -> Forall P (repeat x n).
Proof. intros H. induction n; simpl; constructor; auto. Qed.

Lemma Forall_nth_default {A} (Pa : A -> Prop) d : Pa d -> forall l n, Forall Pa l -> Pa (nth n l d).
Proof.
  intros Hd. induction l as [|a r IH]; intros n Hl; [destruct n; exact Hd|].
  inversion Hl; subst. destruct n as [|n]; cbn [nth]; auto.
Qed.

Lemma forallb_firstn {A} (p : A -> bool) n l : forallb p l = true -> forallb p (firstn n l) = true.
Proof.
  revert n. induction l as [|x r IH]; intros [|n] H; cbn [firstn forallb] in *; try reflexivity.
  apply andb_true_iff in H as [H1 H2]. now rewrite H1, IH.
Qed.

Lemma forallb_impl {A} (p q : A -> bool) l : (forall x, p x = true -> q x = true) -> forallb p l = true -> forallb q l = true.
Proof. rewrite !forallb_forall. auto. Qed.

Lemma forallb_map_comp {A B} (p : B -> bool) (g : A -> B) l : forallb p (map g l) = forallb (fun x => p (g x)) l.
Proof. induction l; cbn; [reflexivity|now rewrite IHl]. Qed.

Lemma forallb_filter {A} (p q : A -> bool) l : forallb p l = true -> forallb p (filter q l) = true.
Proof. rewrite !forallb_forall. intros H x Hx. apply H. apply filter_In in Hx. tauto. Qed.

Lemma forallb_filter_same {A} (q : A -> bool) l : forallb q (filter q l) = true.
Proof. apply forallb_forall. intros x Hx. apply filter_In in Hx. tauto. Qed.

Lemma filter_length_le' {A} (q : A -> bool) : forall l, (List.length (filter q l) <= List.length l)%nat.
Proof.
  induction l as [|x l IH]; cbn [filter List.length]; [lia|].
  destruct (q x); cbn [List.length]; lia.
Qed.

Lemma existsb_map {A B} (p : B -> bool) (f : A -> B) l :
  existsb p (map f l) = true <-> exists x, In x l /\ p (f x) = true.
Proof.
  rewrite existsb_exists. split.
  - intros [y [Hy H]]. apply in_map_iff in Hy as [x [<- Hx]]. now exists x.
  - intros [x [Hx H]]. exists (f x). split; [now apply in_map|assumption].
Qed.

Lemma Forall2_length' {A B} (R : A -> B -> Prop) l l' : Forall2 R l l' -> List.length l' = List.length l.
Proof. induction 1; cbn; congruence. Qed.

Lemma F2_refl {A} (P : A -> A -> Prop) : (forall x, P x x) -> forall l, Forall2 P l l.
Proof. intros H l; induction l; constructor; auto. Qed.

Lemma Forall2_impl_l {A B} (P : A -> Prop) (R R' : A -> B -> Prop) : (forall x y, P x -> R x y -> R' x y) ->
  forall l l', Forall P l -> Forall2 R l l' -> Forall2 R' l l'.
Proof. intros H l l' HP HR. induction HR; inversion HP; subst; constructor; auto. Qed.

Lemma Forall2_cons_l {A B} (R : A -> B -> Prop) a l l' : Forall2 R (a :: l) l' ->
  exists b r, l' = b :: r /\ R a b /\ Forall2 R l r.
Proof. intros H. inversion H; subst. eauto. Qed.

Lemma Forall2_map_left {A B C} (R : B -> C -> Prop) (g : A -> B) : forall l l', Forall2 R (map g l) l' -> Forall2 (fun x y => R (g x) y) l l'.
Proof.
  induction l as [|x l IH]; intros l' H; inversion H; subst; constructor; auto.
Qed.

Lemma Forall2_repeat_left {B C} (R : B -> C -> Prop) (b : B) : forall n l', Forall2 R (repeat b n) l' -> Forall (R b) l' /\ List.length l' = n.
Proof.
  induction n as [|n IH]; intros l' H; inversion H as [|? ? ? ? Hhd Htl]; subst; [split; [constructor|reflexivity]|].
  destruct (IH _ Htl) as [G1 G2]. split; [constructor; assumption|cbn; now rewrite G2].
Qed.

Lemma Forall2_repeat_right {B C} (R : B -> C -> Prop) (b : B) : forall l', Forall (R b) l' -> Forall2 R (repeat b (List.length l')) l'.
Proof. induction 1; cbn [List.length repeat]; constructor; assumption. Qed.

Lemma Forall2_filter {A B} (P : A -> B -> Prop) (p : A -> bool) (q : B -> bool) :
  (forall x y, P x y -> p x = q y) -> forall a b, Forall2 P a b -> Forall2 P (filter p a) (filter q b).
Proof.
  intros Hpq. induction 1 as [|x y a b Hxy Hab IH]; [constructor|]. cbn [filter].
  rewrite <- (Hpq x y Hxy). destruct (p x); [constructor; assumption|assumption].
Qed.

Lemma F2_firstn {A} (P : A -> A -> Prop) : forall n l1 l2, Forall2 P l1 l2 -> Forall2 P (firstn n l1) (firstn n l2).
Proof. intros n l1 l2 H. revert n. induction H; intros n; destruct n; simpl; constructor; auto. Qed.

Lemma F2_nth {A} (Q : A -> A -> Prop) : forall i l1 l2, Forall2 (Forall2 Q) l1 l2 ->
  Forall2 Q (nth i l1 []) (nth i l2 []).
Proof.
  intros i l1 l2 H. revert i. induction H; intros i; destruct i; simpl; auto.
Qed.

Lemma NoDup_map_inj {A B} (f : A -> B) l x y : NoDup (map f l) -> In x l -> In y l -> f x = f y -> x = y.
Proof.
  induction l as [|a l IH]; simpl; intros Hn Hx Hy E; [contradiction|].
  inversion Hn as [|? ? Hnot Hn']; subst.
  destruct Hx as [->|Hx]; destruct Hy as [->|Hy]; try reflexivity.
  - exfalso. apply Hnot. rewrite E. now apply in_map.
  - exfalso. apply Hnot. rewrite <- E. now apply in_map.
  - now apply IH.
Qed.

Lemma NoDup_map_filter {A B} (f : A -> B) p : forall l, NoDup (map f l) -> NoDup (map f (filter p l)).
Proof.
  induction l as [|a l IH]; simpl; intros H; [constructor|].
  inversion H as [|? ? Hn Hd]; subst. destruct (p a); simpl; [|auto].
  constructor; [|auto]. intros Hin. apply Hn.
  apply in_map_iff in Hin. destruct Hin as (x & Hx & Hin). apply filter_In in Hin.
  apply in_map_iff. exists x. tauto.
Qed.

(* a list with one position replaced: [set_nth] of Model/Reflect.v.  Spec.FitSyntax.set_at and Model.Shared.upd are
   the same function under other names (convertible), so these lemmas apply to them as they stand. *)
Lemma set_nth_length {A} : forall n (x : A) l, List.length (set_nth n x l) = List.length l.
Proof. induction n as [|n IH]; intros x [|a l]; simpl; auto. Qed.

Lemma nth_set_nth_eq {A} : forall n (x d : A) l, (n < List.length l)%nat -> nth n (set_nth n x l) d = x.
Proof. induction n as [|n IH]; intros x d [|a l] H; simpl in *; try lia; [reflexivity|apply IH; lia]. Qed.

Lemma nth_set_nth_neq {A} : forall n k (x d : A) l, n <> k -> nth k (set_nth n x l) d = nth k l d.
Proof.
  induction n as [|n IH]; intros k x d [|a l] H; simpl; try reflexivity.
  - destruct k; [contradiction|reflexivity].
  - destruct k; [reflexivity|]. apply IH. lia.
Qed.

Lemma nth_error_set_nth {A} (x : A) : forall l k j,
  nth_error (set_nth k x l) j =
  if Nat.eqb j k then match nth_error l j with Some _ => Some x | None => None end else nth_error l j.
Proof.
  induction l as [|a l IH]; intros k j.
  - destruct k; cbn [set_nth]; destruct j; cbn [nth_error]; destruct (Nat.eqb _ _); reflexivity.
  - destruct k as [|k], j as [|j]; cbn [set_nth nth_error Nat.eqb]; try reflexivity. apply IH.
Qed.

Lemma nth_error_set_nth_other {A} (x : A) l i j : i <> j -> nth_error (set_nth j x l) i = nth_error l i.
Proof. intros H. rewrite nth_error_set_nth. apply Nat.eqb_neq in H. now rewrite H. Qed.

Lemma nth_error_set_nth_same {A} (x : A) l i : (i < List.length l)%nat -> nth_error (set_nth i x l) i = Some x.
Proof.
  intros Hi. rewrite nth_error_set_nth, Nat.eqb_refl. apply nth_error_Some in Hi.
  now destruct (nth_error l i).
Qed.

Lemma Forall_set_nth {A} (P : A -> Prop) x : forall n l, Forall P l -> P x -> Forall P (set_nth n x l).
Proof.
  induction n as [|n IH]; intros [|a l] H Hx; cbn; try constructor; inversion H; subst; auto.
Qed.

Lemma F2_set_nth {A B} (P : A -> B -> Prop) : forall i x y l1 l2, Forall2 P l1 l2 -> P x y ->
  Forall2 P (set_nth i x l1) (set_nth i y l2).
Proof.
  intros i x y l1 l2 H. revert i. induction H; intros i Hxy.
  - destruct i; constructor.
  - destruct i; simpl; constructor; auto.
Qed.

(* one side only, against the element that stays *)
Lemma F2_set_nth_r {A B} (P : A -> B -> Prop) : forall i x l1 l2 a, Forall2 P l1 l2 -> nth_error l1 i = Some a -> P a x ->
  Forall2 P l1 (set_nth i x l2).
Proof.
  intros i x l1 l2 a H. revert i. induction H; intros [|i] Hn Hp; try discriminate Hn; cbn in *.
  - injection Hn as ->. constructor; assumption.
  - constructor; [assumption|apply IHForall2; assumption].
Qed.

(* the boolean no-duplicates test of the checkers (RouteSpec.nodup_N, ProfileWf.nodup_nat and its copy C18Messages.nodup_nat, Grammar.nodup_n are
   [nodupb] at N.eqb, Nat.eqb, N.eqb by conversion) *)
Definition nodupb {A} (eqb : A -> A -> bool) : list A -> bool :=
  fix go l := match l with [] => true | x :: r => negb (existsb (eqb x) r) && go r end.

Lemma nodupb_NoDup {A} (eqb : A -> A -> bool) : (forall x, eqb x x = true) ->
  forall l, nodupb eqb l = true -> NoDup l.
Proof.
  intros Hrefl. induction l as [|x r IH]; simpl; intros H; [constructor|].
  apply andb_prop in H. destruct H as [H1 H2]. constructor; [|now apply IH].
  intros Hin. apply negb_true_iff, not_true_iff_false in H1. apply H1, existsb_exists. now exists x.
Qed.

