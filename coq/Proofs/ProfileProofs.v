(* C15: soundness of the profile well-formedness checker: from the evaluation
   of the clauses of [profile_wf], each once, on the tables extracted from the
   current source ([C15_profile_wf] is put together from them by rewriting) to
   the forall (message, field) statements of the property. *)
From Coq Require Import NArith ZArith List Bool String Lia.
From FitV Require Import Proofs.Util Model.Values Model.Base Model.Profile Spec.ProfileWf
  Gen.ProfileData Gen.RoutingData Gen.Consts Gen.BaseTables.
Import ListNotations.
Local Open Scope N_scope.

Lemma gotype_eqb_eq : forall a b, gotype_eqb a b = true -> a = b.
Proof.
  induction a; destruct b; simpl; intros H; try discriminate; try reflexivity;
    try (apply N.eqb_eq in H; subst; reflexivity).
  f_equal. now apply IHa.
Qed.

Lemma goval_eqb_eq : forall a b, goval_eqb a b = true -> a = b.
Proof.
  fix IH 1. intros a b; destruct a; destruct b; simpl; intros H; try discriminate; try reflexivity.
  - apply N.eqb_eq in H; subst; reflexivity.
  - apply Z.eqb_eq in H; subst; reflexivity.
  - apply N.eqb_eq in H; subst; reflexivity.
  - destruct (list_eq_dec N.eq_dec _ _); [subst; reflexivity|discriminate].
  - apply andb_prop in H; destruct H as [H H3]. apply andb_prop in H; destruct H as [H1 H2].
    apply Z.eqb_eq in H1. apply N.eqb_eq in H2. subst.
    destruct zone, zone0; try discriminate; [apply Z.eqb_eq in H3; subst|]; reflexivity.
  - apply Z.eqb_eq in H; subst; reflexivity.
  - apply Z.eqb_eq in H; subst; reflexivity.
  - f_equal. revert l0 H. induction l as [|x l IHl]; intros [|y l0] H; try discriminate; [reflexivity|].
    apply andb_prop in H; destruct H as [H1 H2]. f_equal; [now apply IH|now apply IHl].
Qed.

(* The one evaluation of the checker, clause by clause.  Going the other way, from [profile_wf = true] to the
   clauses by [andb_prop], makes the kernel compare the constant with an applied [andb] by evaluating the
   latter: the whole check once more, and slowly. *)
Lemma known_parts :
  forallb (fun k => match find_msg k with Some m => md_known m | None => false end) known_msgnums = true /\
  forallb (fun m => Bool.eqb (md_known m) (existsb (N.eqb (md_num m)) known_msgnums)) messages = true /\
  match known_false_keys with [] => true | _ :: _ => false end = true /\
  nodup_nat (map (fun m => N.to_nat (md_num m)) messages) = true.
Proof. repeat apply conj; vm_compute; reflexivity. Qed.

Lemma wf_parts :
  forallb msg_ok messages = true /\ containers_ok = true /\
  fileid_ok = true /\ fit_layout_ok = true /\ base_tables_ok = true.
Proof. repeat apply conj; vm_compute; reflexivity. Qed.

Lemma find_msg_in gmn m : find_msg gmn = Some m -> In m messages /\ md_num m = gmn.
Proof. unfold find_msg. intros H. apply find_some in H. destruct H as [H1 H2]. split; [assumption|now apply N.eqb_eq]. Qed.

Lemma find_msg_checked (P : msgdesc -> bool) gmn m : forallb P messages = true -> find_msg gmn = Some m -> P m = true.
Proof. intros T H. rewrite forallb_forall in T. exact (T m (proj1 (find_msg_in gmn m H))). Qed.

Lemma msg_ok_of gmn m : find_msg gmn = Some m -> msg_ok m = true.
Proof. exact (find_msg_checked msg_ok gmn m (proj1 wf_parts)). Qed.

Lemma known_lt_256 bt : b_known bt = Some true -> bt < 256.
Proof.
  intros Hk. destruct (N.lt_ge_cases bt 256) as [Hlt|Hge]; [exact Hlt|].
  unfold b_known, tbl in Hk. rewrite nth_overflow in Hk; [discriminate|].
  change (List.length base_known) with 256%nat. lia.
Qed.

Lemma fit_base_lt t : fit_base t < 256.
Proof.
  unfold fit_base, decompress. cbv zeta.
  assert (H : N.land (N.land t 0xFF) 0x1F < 2 ^ 5) by (apply land_lt_pow2; reflexivity).
  change (2 ^ 5) with 32 in H. destruct (_ || _); lia.
Qed.

Lemma mesg_all_invalid_some gmn inv : mesg_all_invalid gmn = Some inv ->
  exists md, find_msg gmn = Some md /\ inv = mk_msg gmn (md_invalid md).
Proof.
  unfold mesg_all_invalid. destruct (find_msg gmn) as [md|]; [|discriminate]. destruct (md_has_ctor md); [|discriminate].
  intros H. inversion H. eauto.
Qed.

Lemma known_iff gmn m : find_msg gmn = Some m -> known_msg gmn = md_known m.
Proof.
  intros H. destruct (find_msg_in _ _ H) as [Hin Hn].
  destruct known_parts as (_ & H0 & _).
  rewrite forallb_forall in H0; specialize (H0 m Hin); apply eqb_prop in H0.
  unfold known_msg. rewrite <- Hn. symmetry. assumption.
Qed.

Lemma entries_known gmn m e : find_msg gmn = Some m -> In e (md_entries m) -> md_known m = true.
Proof.
  intros Em Hin. pose proof (msg_ok_of _ _ Em) as Hok. unfold msg_ok in Hok. apply andb_prop in Hok. destruct Hok as [Hent _].
  destruct (md_entries m); [contradiction|]. now apply andb_prop in Hent.
Qed.

Lemma nodup_nat_spec l : nodup_nat l = true -> NoDup l.
Proof. exact (nodupb_NoDup Nat.eqb PeanoNat.Nat.eqb_refl l). Qed.

Lemma msg_ok_known gmn m : find_msg gmn = Some m -> md_known m = true ->
  md_has_ctor m = true /\ md_has_type m = true /\
  List.length (md_layout m) = List.length (md_invalid m) /\
  (forall e, In e (md_entries m) -> entry_ok m e = true) /\
  NoDup (map (fun e => pf_sindex (snd e)) (md_entries m)).
Proof.
  intros Em Hk. pose proof (msg_ok_of _ _ Em) as Hok. unfold msg_ok in Hok. rewrite Hk in Hok.
  rewrite !andb_true_iff in Hok. destruct Hok as [_ [[[[[[[[[Hc Ht] _] _] _] Hl] He] Hn] _] _]].
  repeat split; try assumption.
  - now apply PeanoNat.Nat.eqb_eq.
  - now apply forallb_forall.
  - now apply nodup_nat_spec.
Qed.

Lemma get_field_inv gmn fdn pf : get_field gmn fdn = Some pf ->
  exists m, find_msg gmn = Some m /\ In (fdn, pf) (md_entries m).
Proof.
  unfold get_field. destruct (fields_len <=? gmn); [discriminate|].
  destruct (find_msg gmn) as [m|] eqn:Em; [|discriminate].
  destruct (find (fun e => fst e =? fdn) (md_entries m)) as [e|] eqn:Ee; [|discriminate].
  intros H; inversion H; subst. exists m. split; [reflexivity|].
  apply find_some in Ee. destruct Ee as [Hin Hk]. apply N.eqb_eq in Hk. destruct e as [k p]. simpl in *. subst. assumption.
Qed.

Record entry_facts (gmn fdn : N) (pf : pfield) (m : msgdesc) : Prop := {
  ef_known : known_msg gmn = true;
  ef_ctor : md_has_ctor m = true;
  ef_num : pf_num pf = fdn;
  ef_sindex : (pf_sindex pf < List.length (md_layout m))%nat;
  ef_kind : fit_kind (pf_t pf) <= 4;
  ef_storable : base_storable (fit_base (pf_t pf)) = true;
  ef_type : field_type gmn (pf_sindex pf) = Some (gotype_of_fit (pf_t pf));
  ef_invalid : nth_error (md_invalid m) (pf_sindex pf) = Some (invalid_of_fit (pf_t pf));
  ef_scalar_kinds : fit_kind (pf_t pf) <> kind_native -> fit_array (pf_t pf) = false;
  ef_time_base : (fit_kind (pf_t pf) = kind_timeutc \/ fit_kind (pf_t pf) = kind_timelocal) -> fit_base (pf_t pf) = base_uint32;
  ef_coord_base : (fit_kind (pf_t pf) = kind_lat \/ fit_kind (pf_t pf) = kind_lng) -> fit_base (pf_t pf) = base_sint32;
  ef_ts : fdn = c_fieldNumTimeStamp -> fit_kind (pf_t pf) = kind_timeutc;
  ef_layout_len : List.length (md_layout m) = List.length (md_invalid m)
}.

Theorem entry_sound : forall gmn fdn pf, get_field gmn fdn = Some pf ->
  exists m, find_msg gmn = Some m /\ entry_facts gmn fdn pf m.
Proof.
  intros gmn fdn pf H. destruct (get_field_inv _ _ _ H) as (m & Em & Hin).
  exists m. split; [assumption|].
  pose proof (entries_known _ _ _ Em Hin) as Hk.
  destruct (msg_ok_known _ _ Em Hk) as (Hc & _ & Hl & He & _). specialize (He _ Hin).
  unfold entry_ok in He. rewrite !andb_true_iff in He.
  destruct He as [[[[[[[[[[E1 _] _] E4] E5] E6] E7] E8] E9] _] E11].
  destruct (nth_error (md_layout m) (pf_sindex pf)) as [[nm ty]|] eqn:El; [|discriminate].
  destruct (nth_error (md_invalid m) (pf_sindex pf)) as [v|] eqn:Ev; [|discriminate].
  assert (Hbase : forall k, fit_kind (pf_t pf) = k -> k <> kind_native ->
            fit_array (pf_t pf) = false /\
            fit_base (pf_t pf) = if (k =? kind_timeutc) || (k =? kind_timelocal) then base_uint32 else base_sint32).
  { intros k <- Hn. apply N.eqb_neq in Hn. rewrite Hn in E7. apply andb_prop in E7. destruct E7 as [Ha Hb].
    split; [now apply negb_true_iff|]. destruct (_ || _); now apply N.eqb_eq. }
  constructor.
  - now rewrite (known_iff _ _ Em).
  - assumption.
  - now apply N.eqb_eq.
  - now apply PeanoNat.Nat.ltb_lt.
  - now apply N.leb_le.
  - assumption.
  - unfold field_type, msg_layout. rewrite Em, El. f_equal. now apply gotype_eqb_eq.
  - rewrite Ev. f_equal. now apply goval_eqb_eq.
  - intros Hn. exact (proj1 (Hbase _ eq_refl Hn)).
  - intros [Ht|Ht]; exact (proj2 (Hbase _ Ht ltac:(discriminate))).
  - intros [Ht|Ht]; exact (proj2 (Hbase _ Ht ltac:(discriminate))).
  - intros ->. rewrite N.eqb_refl in E11. now apply N.eqb_eq.
  - assumption.
Qed.

Lemma unknown_no_field gmn k : known_msg gmn = false -> get_field gmn k = None.
Proof.
  intros Hk. destruct (get_field gmn k) as [p|] eqn:Eg; [|reflexivity].
  destruct (entry_sound _ _ _ Eg) as (md & _ & F). rewrite (ef_known _ _ _ _ F) in Hk. discriminate.
Qed.

Theorem known_has_constructor : forall gmn, known_msg gmn = true ->
  exists m, find_msg gmn = Some m /\ md_has_ctor m = true /\ md_has_type m = true /\
            mesg_all_invalid gmn = Some (mk_msg gmn (md_invalid m)) /\
            List.length (md_layout m) = List.length (md_invalid m).
Proof.
  intros gmn Hk.
  destruct known_parts as (Hc & _).
  unfold known_msg in Hk. apply existsb_exists in Hk. destruct Hk as (k & Hin & Hk). apply N.eqb_eq in Hk. subst k.
  rewrite forallb_forall in Hc. specialize (Hc gmn Hin).
  destruct (find_msg gmn) as [m|] eqn:Em; [|discriminate].
  destruct (msg_ok_known _ _ Em Hc) as (Hct & Hty & Hl & _).
  exists m. unfold mesg_all_invalid. rewrite Em, Hct. now repeat split.
Qed.

Theorem distinct_struct_fields : forall gmn f1 f2 p1 p2,
  get_field gmn f1 = Some p1 -> get_field gmn f2 = Some p2 -> pf_sindex p1 = pf_sindex p2 -> f1 = f2.
Proof.
  intros gmn f1 f2 p1 p2 H1 H2 E.
  destruct (get_field_inv _ _ _ H1) as (m & Em & Hin1).
  destruct (get_field_inv _ _ _ H2) as (m' & Em' & Hin2). rewrite Em in Em'. inversion Em'; subst m'.
  destruct (msg_ok_known _ _ Em (entries_known _ _ _ Em Hin1)) as (_ & _ & _ & _ & Hnd).
  assert ((f1, p1) = (f2, p2)) as Heq.
  { eapply (NoDup_map_inj (fun e : N * pfield => pf_sindex (snd e))); eauto. }
  now inversion Heq.
Qed.

Theorem container_members_known : forall ft ok cname slots name multi mn,
  In (ft, ok, cname, slots) file_types -> ok = true -> In (name, multi, mn) slots -> known_msg mn = true.
Proof.
  intros ft ok cname slots name multi mn Hin Hok Hs.
  destruct wf_parts as (_ & Hc & _). unfold containers_ok in Hc.
  rewrite forallb_forall in Hc. specialize (Hc _ Hin). simpl in Hc. rewrite Hok in Hc.
  rewrite forallb_forall in Hc. now specialize (Hc _ Hs).
Qed.

Theorem no_float_fields : forall gmn fdn pf, get_field gmn fdn = Some pf ->
  b_float (fit_base (pf_t pf)) = Some false /\ exists s, b_size (fit_base (pf_t pf)) = Some s /\ 1 <= s <= 4.
Proof.
  intros gmn fdn pf H. destruct (entry_sound _ _ _ H) as (m & _ & F).
  pose proof (ef_storable _ _ _ _ F) as Hs. unfold base_storable in Hs.
  destruct (b_known _) as [[|]|]; try discriminate.
  destruct (b_size _) as [s|]; try discriminate.
  destruct (b_float _) as [[|]|]; try discriminate.
  apply andb_prop in Hs. destruct Hs as [H1 H2]. apply N.leb_le in H1, H2.
  split; [reflexivity|]. exists s. split; [reflexivity|lia].
Qed.

(* the hand-written bit layout of types.Fit is what the exported methods compute *)
Theorem fit_layout_agrees : fit_layout_ok = true.
Proof. destruct wf_parts as (_ & _ & _ & H & _). exact H. Qed.
