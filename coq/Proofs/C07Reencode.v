(* C07 / C05: the provable core of "anything Decode accepts can be re-encoded, and one round trip is a
   fixpoint", and of encode_total.  What the decoder stores in a struct field is a value of the field's Go
   type; through a precondition calculus for decoder programs, sound over the buffered reader,
   parseDataMessage returns well-typed messages, and File.add keeps the slots well typed.  From binary.Write
   up to Encode, the encoder never panics on well-typed values, and the only error it returns is the UTF-8
   one (known finding reencode_utf8).  What the decoder produced re-encodes: integer scalars read back as
   written, messages of an encodable type are written, arrays of strings are refused.  The comparator of the
   fixpoint clause is an equivalence relation. *)
From Coq Require Import NArith ZArith List Bool Lia String.
From Coq Require Import ZifyN ZifyNat ZifyBool.
From FitV Require Import Model.Values Model.Bytes Model.Base Model.Profile Model.Reflect Model.Components Model.Route
  Model.Encode Model.Decode Spec.Grammar Spec.RoundTrip Spec.ProfileWf
  Proofs.Util Proofs.BytesUtil Proofs.ProfileProofs Proofs.EncodeProofs Proofs.EncodeLay Proofs.DecodeLemmas Proofs.C07Fixpoint Proofs.C06Codec Proofs.C10IO Proofs.IOSim Proofs.C07MsgWf
  Model.Crc Model.Header Model.IO Gen.ProfileData Gen.Consts Gen.RoutingData.
From FitV Require Proofs.C05Wire Proofs.StreamDenoteArith Proofs.StreamDenoteField Proofs.C06Lay.
Import ListNotations.
Local Open Scope N_scope.
Ltac Zify.zify_post_hook ::= Z.div_mod_to_equations.

(* wrap_s is Go's conversion intN(x), and its result an intN: for every width, bits = 0 included (2^(0-1) = 1 in N) *)
Lemma wrap_s_typed bits z : val_has_type (TI bits) (VI (wrap_s bits z)) = true.
Proof. apply z_in_iff. pose proof (to_signed_range bits _ (of_signed_lt bits z)). unfold wrap_s. lia. Qed.

Lemma wrap_u_typed bits x : val_has_type (TU bits) (VU (wrap_u bits x)) = true.
Proof. apply N.ltb_lt, N.mod_lt, N.pow_nonzero. discriminate. Qed.

Definition bytes_lt (l : list N) : Prop := Forall (fun b => b < 256) l.

Lemma get16_lt be l : bytes_lt l -> get16 be l < 65536.
Proof.
  intros H. pose proof (b_at_lt l 0 H). pose proof (b_at_lt l 1 H).
  unfold get16, be16, le16. destruct be; lia.
Qed.

Lemma get32_lt be l : bytes_lt l -> get32 be l < 2 ^ 32.
Proof.
  intros H. pose proof (b_at_lt l 0 H). pose proof (b_at_lt l 1 H). pose proof (b_at_lt l 2 H). pose proof (b_at_lt l 3 H).
  unfold get32, be32, le32. change (2 ^ 32) with 4294967296. destruct be; lia.
Qed.

Lemma get_val_lt be l : bytes_lt l -> (List.length l <= 8)%nat -> get_val be l < 2 ^ 64.
Proof.
  intros H Hl. eapply N.lt_le_trans; [apply BytesUtil.get_val_lt, is_bytes_all_bytes, H|].
  apply N.pow_le_mono_r; lia.
Qed.

(* the profile has no float fields ([field_not_float] below); for a float
   struct field the stored bit pattern fits when the Go width is at least the
   wire width.  True for every non-float type. *)
Fixpoint float_fits (bt : N) (ty : gotype) : bool :=
  match ty with
  | TF bits => if bt =? base_float32 then 32 <=? bits else if bt =? base_float64 then 64 <=? bits else true
  | TSlice t => float_fits bt t
  | _ => true
  end.

Lemma float_fits_lt bt bits w n : float_fits bt (TF bits) = true ->
  (bt =? base_float32) = true /\ w = 32 \/ (bt =? base_float32) = false /\ (bt =? base_float64) = true /\ w = 64 ->
  n < 2 ^ w -> n < 2 ^ bits.
Proof.
  cbn [float_fits]. intros Hf Hw Hn. apply N.lt_le_trans with (2 ^ w); [exact Hn|].
  apply N.pow_le_mono_r; [discriminate|]. apply N.leb_le.
  destruct Hw as [[E ->]|(E1 & E2 & ->)]; [now rewrite E in Hf|now rewrite E1, E2 in Hf].
Qed.

Lemma of_set_uint_typed ty x v : of_set (set_uint ty x) = FSet v -> val_has_type ty v = true.
Proof. destruct ty; cbn [set_uint of_set]; intros H; inversion H; subst. apply wrap_u_typed. Qed.

Lemma of_set_int_typed ty z v : of_set (set_int ty z) = FSet v -> val_has_type ty v = true.
Proof. destruct ty; cbn [set_int of_set]; intros H; inversion H; subst. apply wrap_s_typed. Qed.

Lemma of_set_float_typed ty n v : (forall bits, ty = TF bits -> n < 2 ^ bits) ->
  of_set (set_float ty n) = FSet v -> val_has_type ty v = true.
Proof.
  intros Hn. destruct ty; cbn [set_float of_set]; intros H; inversion H; subst.
  cbn [val_has_type]. apply N.ltb_lt. now apply Hn.
Qed.

Lemma of_set_string_typed ty s v : bytes_lt s -> of_set (set_string ty s) = FSet v -> val_has_type ty v = true.
Proof.
  intros Hs. destruct ty; cbn [set_string of_set]; intros H; inversion H; subst.
  cbn [val_has_type]. now apply is_bytes_all_bytes.
Qed.

(* decode_wf at field level, scalars *)
Theorem parse_fit_field_typed : forall be fd buf ty v,
  Forall (fun b => b < 256) buf -> float_fits (fd_btype fd) ty = true ->
  parse_fit_field be fd buf ty = FSet v -> val_has_type ty v = true.
Proof.
  intros be fd buf ty v Hb Hf H. fold (bytes_lt buf) in Hb. unfold parse_fit_field in H.
  repeat match type of H with
         | (if ?c then _ else _) = _ => destruct c eqn:?
         end; try discriminate;
    try (eapply of_set_uint_typed; eassumption); try (eapply of_set_int_typed; eassumption).
  - (* float32 *)
    eapply of_set_float_typed; [|eassumption]. intros bits ->.
    eapply (float_fits_lt _ _ 32); [exact Hf|left; split; [assumption|reflexivity]|apply get32_lt, Hb].
  - (* float64 *)
    eapply of_set_float_typed; [|eassumption]. intros bits ->.
    eapply (float_fits_lt _ _ 64); [exact Hf|right; repeat split; assumption|].
    apply get_val_lt; [now apply Forall_firstn|]. rewrite firstn_length. lia.
  - (* string *)
    eapply of_set_string_typed; [|eassumption]. now apply Forall_firstn.
Qed.

(* the instance the profile needs: no float struct field *)
Fixpoint not_float (ty : gotype) : bool :=
  match ty with TF _ => false | TSlice t => not_float t | _ => true end.

Lemma not_float_fits bt ty : not_float ty = true -> float_fits bt ty = true.
Proof. induction ty; cbn [not_float float_fits]; intros H; try reflexivity; [discriminate|auto]. Qed.

Lemma map_typed {X} t (f : X -> goval) l :
  (forall x, In x l -> val_has_type t (f x) = true) -> val_has_type (TSlice t) (VList (map f l)) = true.
Proof. intros H. rewrite slice_typed, forallb_forall. intros y Hy. apply in_map_iff in Hy as (x & <- & Hx). now apply H. Qed.

(* MakeSlice of a slice type whose elements the setter does not fit: fine when there is nothing to set *)
Lemma of_set_nil_typed {X} e (l : list X) v :
  of_set (match l with [] => Some (VList []) | _ => None end) = FSet v -> val_has_type (TSlice e) v = true.
Proof. destruct l; [|discriminate]. intros H; inversion H. reflexivity. Qed.

Lemma of_set_bytes_typed ty l v : bytes_lt l -> of_set (set_bytes ty l) = FSet v -> val_has_type ty v = true.
Proof.
  intros Hl. destruct ty as [| | | | | | |e|]; try discriminate. destruct e as [b| | | | | | | |]; try discriminate.
  (* the width is the numeral 8 = xO (xO (xO xH)) *)
  destruct b as [|p]; try discriminate. do 4 (destruct p as [p|p|]; try discriminate).
  cbn [set_bytes of_set]. intros H; inversion H. apply map_typed. intros b Hb. apply N.ltb_lt.
  unfold bytes_lt in Hl. rewrite Forall_forall in Hl. now apply Hl.
Qed.

Lemma of_set_uint_slice_typed ty l v : of_set (set_uint_slice ty l) = FSet v -> val_has_type ty v = true.
Proof.
  destruct ty as [| | | | | | |e|]; try discriminate. destruct e; try apply of_set_nil_typed.
  cbn [set_uint_slice of_set]. intros H; inversion H. apply map_typed. intros. apply wrap_u_typed.
Qed.

Lemma of_set_int_slice_typed ty l v : of_set (set_int_slice ty l) = FSet v -> val_has_type ty v = true.
Proof.
  destruct ty as [| | | | | | |e|]; try discriminate. destruct e; try apply of_set_nil_typed.
  cbn [set_int_slice of_set]. intros H; inversion H. apply map_typed. intros. apply wrap_s_typed.
Qed.

Lemma of_set_float_slice_typed ty l v :
  (forall bits, ty = TSlice (TF bits) -> Forall (fun n => n < 2 ^ bits) l) ->
  of_set (set_float_slice ty l) = FSet v -> val_has_type ty v = true.
Proof.
  intros Hl. destruct ty as [| | | | | | |e|]; try discriminate. destruct e; try apply of_set_nil_typed.
  cbn [set_float_slice of_set]. intros H; inversion H. specialize (Hl bits eq_refl). rewrite Forall_forall in Hl.
  apply map_typed. intros n Hn. apply N.ltb_lt. now apply Hl.
Qed.

Lemma of_set_strings_typed ty l v : Forall bytes_lt l -> of_set (set_strings ty l) = FSet v -> val_has_type ty v = true.
Proof.
  intros Hl. destruct ty as [| | | | | | |e|]; try discriminate. destruct e; try discriminate.
  cbn [set_strings of_set]. intros H; inversion H. destruct l as [|s r]; [reflexivity|].
  apply map_typed. intros x Hx. apply is_bytes_all_bytes. rewrite Forall_forall in Hl. now apply Hl.
Qed.

Lemma scan_strings_bytes buf dsize : bytes_lt buf -> forall fuel j k acc,
  Forall bytes_lt acc -> Forall bytes_lt (scan_strings fuel buf dsize j k acc).
Proof.
  intros Hb. induction fuel as [|f IH]; intros j k acc Ha; cbn [scan_strings]; [assumption|].
  assert (Hcut : forall n, Forall bytes_lt (acc ++ [firstn n (skipn j buf)])).
  { intros n. apply Forall_app. split; [assumption|]. constructor; [|constructor]. now apply Forall_firstn, Forall_skipn. }
  destruct (b_at buf (j + k) =? 0).
  - destruct (Nat.eqb k 0); [assumption|]. destruct (Nat.leb dsize (j + k + 1)); [apply Hcut|apply IH, Hcut].
  - destruct (Nat.leb dsize (j + S k)); [apply Hcut|now apply IH].
Qed.

Lemma chunks_bytes k : forall fuel l, bytes_lt l ->
  Forall (fun c => bytes_lt c /\ (List.length c <= k)%nat) (chunks k fuel l).
Proof.
  induction fuel as [|f IH]; intros l Hl; cbn [chunks]; [constructor|].
  destruct l as [|b r]; [constructor|]. constructor.
  - split; [now apply Forall_firstn|]. rewrite firstn_length. lia.
  - apply IH. now apply Forall_skipn.
Qed.

(* decode_wf at field level, arrays *)
Theorem parse_fit_field_array_typed : forall be fd buf ty v,
  Forall (fun b => b < 256) buf -> float_fits (fd_btype fd) ty = true ->
  parse_fit_field_array be fd buf ty = FSet v -> val_has_type ty v = true.
Proof.
  intros be fd buf ty v Hb Hf H. fold (bytes_lt buf) in Hb. unfold parse_fit_field_array in H.
  destruct (fd_btype fd =? base_byte); [eapply of_set_bytes_typed; eassumption|].
  destruct ty as [| | | | | | |e|]; try discriminate.
  destruct (b_size (fd_btype fd)) as [[|p]|] eqn:Es; try discriminate.
  cbv zeta in H.
  set (elems := chunks _ _ _) in H.
  assert (Hel : Forall (fun c => bytes_lt c /\ (List.length c <= N.to_nat (N.pos p))%nat) elems).
  { apply chunks_bytes. now apply Forall_firstn. }
  clearbody elems.
  repeat match type of H with
         | (if ?c then _ else _) = _ => destruct c eqn:?
         end; try discriminate;
    try (eapply of_set_uint_slice_typed; eassumption); try (eapply of_set_int_slice_typed; eassumption).
  - (* float32 *)
    eapply of_set_float_slice_typed; [|eassumption]. intros bits Et. inversion Et; subst e.
    apply Forall_map. eapply Forall_impl; [|exact Hel]. intros c [Hc _]. cbv beta.
    eapply (float_fits_lt _ _ 32); [exact Hf|left; split; [assumption|reflexivity]|apply get32_lt, Hc].
  - (* float64 *)
    eapply of_set_float_slice_typed; [|eassumption]. intros bits Et. inversion Et; subst e.
    match goal with E : (fd_btype fd =? base_float64) = true |- _ => rewrite (proj1 (N.eqb_eq _ _) E) in Es end.
    inversion Es; subst p.
    apply Forall_map. eapply Forall_impl; [|exact Hel]. intros c [Hc Hlen]. cbv beta.
    eapply (float_fits_lt _ _ 64); [exact Hf|right; repeat split; assumption|now apply get_val_lt].
  - (* strings *)
    eapply of_set_strings_typed; [|eassumption]. apply scan_strings_bytes; [assumption|constructor].
Qed.

Theorem set_time_typed s u kind num v s' ty v' :
  parse_time_stamp s u kind num = (Some v, s') -> of_set (set_time ty v) = FSet v' -> val_has_type ty v' = true.
Proof.
  intros H. destruct ty; cbn [set_time of_set]; intros H'; inversion H'; subst v'.
  (* every time stamp parseTimeStamp builds has whole seconds *)
  unfold parse_time_stamp, decode_date_time in H.
  repeat match type of H with (if ?c then _ else _) = _ => destruct c end; inversion H; reflexivity.
Qed.

(* the 4 bytes the time / coordinate kinds are read from are bytes *)
Lemma extend4_bytes be sg buf : bytes_lt buf -> bytes_lt (extend4 be sg buf).
Proof.
  intros H. unfold extend4. destruct (Nat.leb 4 _); [now apply Forall_firstn|].
  assert (Hf : forall c : bool, (if c then 255 else 0) < 256) by (intros []; reflexivity).
  destruct be; apply Forall_app; split; try assumption; apply Forall_repeat, Hf.
Qed.

Lemma coord_range be sg buf : bytes_lt buf ->
  (-2147483648 <= to_signed 32 (get32 be (extend4 be sg buf)) <= 2147483647)%Z.
Proof.
  intros Hb. pose proof (to_signed_range 32 _ (get32_lt be _ (extend4_bytes be sg buf Hb))) as R.
  change (Z.of_N (2 ^ (32 - 1))) with 2147483648%Z in R. lia.
Qed.

Theorem set_lat_typed be sg buf ty v : bytes_lt buf ->
  of_set (set_lat ty (new_latitude (to_signed 32 (get32 be (extend4 be sg buf))))) = FSet v -> val_has_type ty v = true.
Proof.
  intros Hb. destruct ty; cbn [set_lat of_set]; intros H; inversion H. pose proof (coord_range be sg buf Hb) as R.
  unfold new_latitude. destruct (_ || _); apply z_in_iff; lia.
Qed.

Theorem set_lng_typed be sg buf ty v : bytes_lt buf ->
  of_set (set_lng ty (new_longitude (to_signed 32 (get32 be (extend4 be sg buf))))) = FSet v -> val_has_type ty v = true.
Proof.
  intros Hb. destruct ty; cbn [set_lng of_set]; intros H; inversion H. apply z_in_iff, coord_range, Hb.
Qed.

(* Q holds of every value the program can return, whatever the decoder state, provided the input consists of bytes *)
Fixpoint wpre {S E A} (p : prog S E A) (Q : A -> Prop) : Prop :=
  match p with
  | Ret a => Q a
  | Fail _ => True
  | Panic _ => True
  | ReadByte k => forall b, b < 256 -> wpre (k b) Q
  | ReadFull n k => forall l, bytes_lt l -> wpre (k l) Q
  | More k => forall m, wpre (k m) Q
  | Get k => forall s, wpre (k s) Q
  | Put s k => wpre k Q
  end.

Lemma wpre_mono {S E A} (p : prog S E A) (Q Q' : A -> Prop) : (forall a, Q a -> Q' a) -> wpre p Q -> wpre p Q'.
Proof. intros HQ. induction p; cbn [wpre]; auto. Qed.

Lemma wpre_seq {S E A B} (p : prog S E A) (f : A -> prog S E B) (M : A -> Prop) Q :
  wpre p M -> (forall a, M a -> wpre (f a) Q) -> wpre (bind p f) Q.
Proof. intros Hp Hf. induction p; cbn [wpre bind] in *; auto. Qed.

(* the same with the decoder state: Q relates the value returned and the state then *)
Fixpoint wps {S E A} (p : prog S E A) (Q : A -> S -> Prop) (s : S) : Prop :=
  match p with
  | Ret a => Q a s
  | Fail _ => True
  | Panic _ => True
  | ReadByte k => forall b, b < 256 -> wps (k b) Q s
  | ReadFull n k => forall l, bytes_lt l -> wps (k l) Q s
  | More k => forall m, wps (k m) Q s
  | Get k => wps (k s) Q s
  | Put s' k => wps k Q s'
  end.

Lemma wps_mono {S E A} (p : prog S E A) (Q Q' : A -> S -> Prop) : (forall a s', Q a s' -> Q' a s') ->
  forall s, wps p Q s -> wps p Q' s.
Proof. intros HQ. induction p; intros s0; cbn [wps]; auto. Qed.

Lemma wps_seq {S E A B} (p : prog S E A) (f : A -> prog S E B) (M : A -> S -> Prop) Q s :
  wps p M s -> (forall a s1, M a s1 -> wps (f a) Q s1) -> wps (bind p f) Q s.
Proof. intros Hp Hf. revert s Hp. induction p; intros s0 Hp; cbn [wps bind] in *; auto. Qed.

Lemma wps_and {S E A} (p : prog S E A) (Q1 Q2 : A -> S -> Prop) : forall s,
  wps p Q1 s -> wps p Q2 s -> wps p (fun a s' => Q1 a s' /\ Q2 a s') s.
Proof. induction p; intros s0 H1 H2; cbn [wps] in *; auto. Qed.

Lemma wpre_wps {S E A} (p : prog S E A) (Q : A -> Prop) : wpre p Q -> forall s, wps p (fun a _ => Q a) s.
Proof. induction p; intros Hw s0; cbn [wps wpre] in *; auto. Qed.

(* soundness over the byte-list interpreter, on bytes; IOSim.run_c_abs carries it to the buffered reader *)
Theorem wps_sound_a {S E A} : forall (p : prog S E A) Q x s a x' s',
  wps p Q s -> bytes_lt (a_rest x) -> run_a p x s = ROk a x' s' -> Q a s'.
Proof.
  induction p as [a0|e|w|k IH|n k IH|k IH|k IH|s0 k IH]; intros Q x s a x' s' Hw Hb Hr; cbn [wps run_a] in *;
    try discriminate; try (eapply IH; [apply Hw|exact Hb|exact Hr]).
  - now inversion Hr; subst.
  - destruct (a_take_spec 1 x) as [_ _|_]; [|discriminate].
    eapply IH; [| |exact Hr]; [|cbn [a_rest]; apply Forall_skipn, Hb].
    apply Hw. destruct (a_rest x); [reflexivity|now inversion Hb].
  - destruct (a_take_spec n x) as [_ _|_]; [|discriminate].
    eapply IH; [| |exact Hr]; [|cbn [a_rest]; apply Forall_skipn, Hb]. apply Hw, Forall_firstn, Hb.
Qed.

Theorem wpre_sound_c {S E A} (p : prog S E A) Q rd limit crc fuel s a c' s' :
  wpre p Q -> bytes_lt (rd_data rd) -> (List.length (rd_data rd) + List.length (rd_sched rd) < fuel)%nat ->
  run_c p (start_c rd limit crc fuel) s = ROk a c' s' -> Q a.
Proof.
  intros Hw Hb _ Hr. pose proof (run_c_abs rd crc p _ s (BInv_start rd limit crc fuel)) as H. rewrite Hr in H.
  destruct (run_a p _ s) as [y a' s''| | | |] eqn:Ea; try contradiction. destruct H as (-> & -> & _).
  exact (wps_sound_a p (fun a _ => Q a) (abs rd (start_c rd limit crc fuel)) s _ _ _ (wpre_wps p Q Hw s) Hb Ea).
Qed.

(* no struct field of the profile is a float: its Go type is the one its types.Fit code denotes
   (ProfileProofs.entry_sound), and the base type of that code is one of the storable ones *)
Lemma field_not_float gmn fdn p ty : get_field gmn fdn = Some p -> field_type gmn (pf_sindex p) = Some ty -> not_float ty = true.
Proof.
  intros Hg Ht. destruct (entry_sound _ _ _ Hg) as (md & _ & F). rewrite (ef_type _ _ _ _ F) in Ht. injection Ht as <-.
  unfold gotype_of_fit. cbv zeta. set (elem := if fit_kind _ =? kind_native then _ else _).
  enough (He : not_float elem = true) by (destruct (fit_array _); exact He). subst elem.
  destruct (_ =? kind_native).
  - pose proof (StreamDenoteField.storable_cases _ (ef_storable _ _ _ _ F)) as Hin.
    unfold StreamDenoteField.storable_list in Hin. cbn [In] in Hin.
    repeat (destruct Hin as [<-|Hin]); try contradiction; reflexivity.
  - destruct (_ || _); [reflexivity|]. destruct (_ =? kind_lat); [reflexivity|]. now destruct (_ =? kind_lng).
Qed.

Definition mwf (m : msg) : Prop := msg_wf (m_num m) m = true.

Lemma msg_wf_mwf mn m : msg_wf mn m = true -> mwf m.
Proof. intros H. unfold mwf. now rewrite (msg_wf_num _ _ H). Qed.

Definition opt_wf (gmn : N) : option msg -> Prop := opt_all (fun m => msg_wf gmn m = true).

Lemma finish_wf gmn m i ty (r : fres) :
  msg_wf gmn m = true -> field_type gmn i = Some ty -> (forall v, r = FSet v -> val_has_type ty v = true) ->
  wpre (match r with
        | FSet v => Ret (Some (msg_set m i v))
        | FKeep => Ret (Some m)
        | FErr => fail EParseField
        | FPanic w => panic w
        end : P (option msg)) (opt_wf gmn).
Proof. intros Hm Ht Hr. destruct r; cbn [wpre fail panic opt_wf opt_all]; auto. eapply msg_set_wf; eauto. Qed.

Theorem parse_one_field_wf o dm known fd msgv :
  opt_wf (dm_gmn dm) msgv -> wpre (parse_one_field o dm known fd msgv) (opt_wf (dm_gmn dm)).
Proof.
  intros Hm. unfold parse_one_field. cbv zeta. apply (wpre_seq _ _ (fun _ => True)).
  - (* the size check, or the count of an unknown field *)
    destruct (get_field (dm_gmn dm) (fd_num fd)) as [p|].
    + destruct (_ && _); [|exact I]. destruct (b_size _); exact I.
    + destruct (known && o_unkf o); [|exact I]. cbn [get_st put_st bind wpre]. intros s1. exact I.
  - intros _ _. cbn [read_full bind wpre]. intros buf Hbuf.
    destruct (get_field (dm_gmn dm) (fd_num fd)) as [p|] eqn:Eg; [|exact Hm].
    destruct (negb known); [exact Hm|]. destruct msgv as [m|]; [|exact I]. cbn [opt_wf opt_all] in Hm.
    destruct (field_type (dm_gmn dm) (pf_sindex p)) as [ty|] eqn:Ety; [|exact I].
    pose proof (not_float_fits (fd_btype fd) ty (field_not_float _ _ _ _ Eg Ety)) as Hnf.
    destruct (fit_kind (pf_t p) =? kind_native).
    + destruct (negb (fit_array (pf_t p))); apply (finish_wf _ _ _ ty); try assumption; intros v Hv.
      * eapply parse_fit_field_typed; eassumption.
      * eapply parse_fit_field_array_typed; eassumption.
    + destruct (b_signed (fd_btype fd)) as [sg|]; [|exact I].
      destruct ((fit_kind (pf_t p) =? kind_timeutc) || (fit_kind (pf_t p) =? kind_timelocal)).
      * cbn [get_st bind wpre]. intros s2. destruct (parse_time_stamp s2 _ _ _) as [ov s3] eqn:Ep. cbn [put_st bind wpre].
        destruct ov as [v|]; [|exact Hm]. apply (finish_wf _ _ _ ty); try assumption. intros v' Hv'.
        eapply set_time_typed; eassumption.
      * destruct (fit_kind (pf_t p) =? kind_lat).
        { apply (finish_wf _ _ _ ty); try assumption. intros v Hv. eapply set_lat_typed; eassumption. }
        destruct (fit_kind (pf_t p) =? kind_lng); [|exact I].
        apply (finish_wf _ _ _ ty); try assumption. intros v Hv. eapply set_lng_typed; eassumption.
Qed.

Theorem parse_fields_wf o dm known : forall fds msgv,
  opt_wf (dm_gmn dm) msgv -> wpre (parse_fields o dm known fds msgv) (opt_wf (dm_gmn dm)).
Proof.
  induction fds as [|fd r IH]; intros msgv Hm; cbn [parse_fields]; [exact Hm|].
  eapply wpre_seq; [now apply parse_one_field_wf|exact IH].
Qed.

Lemma skip_dev_fields_any : forall devs, wpre (skip_dev_fields devs) (fun _ => True).
Proof.
  induction devs as [|[[a size] c] r IH]; cbn [skip_dev_fields]; [exact I|].
  cbn [read_full bind wpre]. intros l _. apply IH.
Qed.

Theorem parse_data_fields_wf o dm known msgv :
  opt_wf (dm_gmn dm) msgv -> wpre (parse_data_fields o dm known msgv) (opt_all mwf).
Proof.
  intros Hm. unfold parse_data_fields. eapply wpre_seq; [now apply parse_fields_wf|]. intros om Hm'.
  eapply wpre_seq; [apply skip_dev_fields_any|]. intros _ _. destruct om as [m|]; [exact (msg_wf_mwf _ _ Hm')|exact I].
Qed.

(* decode_wf at message level *)
Theorem parse_data_message_wf o b compressed :
  wpre (parse_data_message o b compressed)
       (fun om => match om with Some m => msg_wf (m_num m) m = true | None => True end).
Proof.
  change (wpre (parse_data_message o b compressed) (opt_all mwf)).
  unfold parse_data_message. cbv zeta. cbn [get_st bind wpre]. intros s1.
  destruct (nth _ (ds_defs s1) None) as [dm|]; [|exact I].
  apply (wpre_seq _ _ (opt_wf (dm_gmn dm))).
  - (* the message under construction: the constructor's all-invalid one, or none *)
    destruct (known_msg (dm_gmn dm)).
    + destruct (mesg_all_invalid (dm_gmn dm)) as [m|] eqn:Ei; [|exact I]. now apply mesg_all_invalid_wf.
    + cbn [bind]. destruct (o_unkm o); exact I.
  - intros msgv Hm. destruct (negb compressed); [now apply parse_data_fields_wf|].
    cbn [get_st bind wpre]. intros s3. destruct (negb (ds_hasts s3)); [now apply parse_data_fields_wf|]. cbn [put_st bind wpre].
    destruct (get_field (dm_gmn dm) c_fieldNumTimeStamp) as [p|]; [|now apply parse_data_fields_wf].
    destruct msgv as [m|]; [|exact I]. destruct (field_type (dm_gmn dm) (pf_sindex p)) as [ty|] eqn:Ety; [|exact I].
    destruct (set_time ty _) as [v|] eqn:Es; [|exact I]. apply parse_data_fields_wf. cbn [opt_wf opt_all] in *.
    eapply msg_set_wf; [exact Hm|exact Ety|]. destruct ty; try discriminate. cbn [set_time] in Es. inversion Es. reflexivity.
Qed.

(* the slots of a File hold typed messages (C06Codec.all_typed is another thing: the elements of an array) *)
Definition all_typed (slots : list (list msg)) : Prop := Forall (Forall mwf) slots.

Theorem apply_routes_typed : forall rs m slots g slots' g',
  mwf m -> all_typed slots -> apply_routes rs m slots g = Some (slots', g') -> all_typed slots'.
Proof.
  induction rs as [|[[i mode] exp] rest IH]; intros m slots g slots' g' Hm Hs H; cbn [apply_routes] in H.
  - apply some_pair_inj in H as [<- _]. exact Hs.
  - destruct (if exp then expand_components g m else Some (m, g)) as [[m1 g1]|] eqn:E; [|discriminate].
    assert (Hm1 : mwf m1).
    { destruct exp; [eapply msg_wf_mwf, expand_components_wf; eassumption|]. apply some_pair_inj in E as [<- _]. exact Hm. }
    eapply IH; [exact Hm| |exact H].
    destruct mode; [| |exact Hs]; apply Forall_set_nth; try assumption.
    + apply Forall_app. split; [|constructor; [assumption|constructor]].
      apply (Forall_nth_default (Forall mwf) []); [constructor|exact Hs].
    + constructor; [assumption|constructor].
Qed.

(* r does not panic: it is a value in Q or an error in E.  Shown of every writer from binary.Write up to Encode, on
   well-typed values, with the UTF-8 error of encodeString as the only error left at the top *)
Definition yields {A} (E : eerr -> Prop) (Q : A -> Prop) (r : eres A) : Prop :=
  match r with EOk a => Q a | EErr e => E e | EPanic _ => False end.
Definition errs_in {A} (E : eerr -> Prop) (r : eres A) : Prop := yields E (fun _ => True) r.
Definition no_err (e : eerr) : Prop := False.

Lemma yields_mono {A} (E E' : eerr -> Prop) (Q Q' : A -> Prop) r :
  (forall e, E e -> E' e) -> (forall a, Q a -> Q' a) -> yields E Q r -> yields E' Q' r.
Proof. destruct r; cbn [yields]; auto. Qed.

Lemma no_err_any {A} E (Q : A -> Prop) r : yields no_err Q r -> yields E Q r.
Proof. apply yields_mono; [intros e []|auto]. Qed.

Lemma yields_bind {A B} E (P : A -> Prop) (Q : B -> Prop) r f :
  yields E P r -> (forall a, P a -> yields E Q (f a)) -> yields E Q (ebind r f).
Proof. destruct r; cbn [yields ebind]; auto. Qed.

Lemma errs_in_econcat E l : Forall (errs_in E) l -> errs_in E (econcat l).
Proof.
  induction 1 as [|r l Hr Hl IH]; cbn [econcat]; [exact I|].
  eapply yields_bind; [exact Hr|]. intros a _. eapply yields_bind; [exact IH|]. intros b _. exact I.
Qed.

Lemma errs_in_map {X} E (f : X -> eres (list N)) l :
  (forall x, In x l -> errs_in E (f x)) -> errs_in E (econcat (map f l)).
Proof.
  intros H. apply errs_in_econcat, Forall_forall. intros r Hr. apply in_map_iff in Hr as (x & <- & Hx). now apply H.
Qed.

Lemma one_err_cases {A} e (r : eres A) : errs_in (eq e) r -> (exists a, r = EOk a) \/ r = EErr e.
Proof. destruct r; cbn [errs_in yields]; [eauto|intros <-; auto|intros []]. Qed.

Lemma yields_no_panic {A} E (Q : A -> Prop) r w : yields E Q r -> r <> EPanic w.
Proof. intros H ->. exact H. Qed.

Lemma yields_err {A} E (Q : A -> Prop) r e : yields E Q r -> r = EErr e -> E e.
Proof. intros H ->. exact H. Qed.

(* the Go types binary.Write accepts *)
Fixpoint bw_able (ty : gotype) : bool :=
  match ty with
  | TU _ | TI _ | TF _ | TLat | TLng => true
  | TSlice t => bw_able t
  | TStr | TTime | TOther => false
  end.

Theorem bw_typed be : forall v ty, val_has_type ty v = true ->
  errs_in (fun e => bw_able ty = false /\ e = EEWrite) (bw be ty v).
Proof.
  induction v using goval_ind2; intros ty Ht; destruct ty; try discriminate;
    try (cbn [bw errs_in yields bw_able]; now auto).
  rewrite bw_slice. apply errs_in_map. intros x Hx.
  rewrite slice_typed, forallb_forall in Ht. rewrite Forall_forall in H. apply (H x Hx ty), Ht, Hx.
Qed.

Theorem bw_typed_ok : forall be v ty,
  val_has_type ty v = true -> bw_able ty = true -> exists bs, bw be ty v = EOk bs.
Proof.
  intros be v ty Ht Ha. pose proof (bw_typed be v ty Ht) as H.
  destruct (bw be ty v) as [bs|e|w]; [now exists bs|destruct H; congruence|contradiction].
Qed.

Theorem bw_no_panic be ty v : val_has_type ty v = true -> forall w, bw be ty v <> EPanic w.
Proof. intros Ht w. eapply yields_no_panic, bw_typed, Ht. Qed.

Theorem bw_str_time_err be ty v : val_has_type ty v = true -> (ty = TStr \/ ty = TTime) -> bw be ty v = EErr EEWrite.
Proof. intros Ht [-> | ->]; destruct v; try discriminate; reflexivity. Qed.

(* the Go type of the struct field is the one the profile kind denotes *)
Definition kind_type_ok (pf : pfield) (ty : gotype) : bool :=
  let t := pf_t pf in
  let k := fit_kind t in
  if (k =? kind_timeutc) || (k =? kind_timelocal) then match ty with TTime => true | _ => false end
  else if k =? kind_lat then match ty with TLat => true | _ => false end
  else if k =? kind_lng then match ty with TLng => true | _ => false end
  else if k =? kind_native then
    if fit_base t =? base_string then match ty with TStr => 0 <? pf_length pf | _ => false end
    else match ty with TU _ | TI _ | TF _ => true | _ => false end
  else false.

Theorem encode_value_cases be pf ty v :
  val_has_type ty v = true -> kind_type_ok pf ty = true ->
  errs_in (fun e => ty = TStr /\ e = EEString) (encode_value be pf ty v).
Proof.
  intros Ht Hk. unfold kind_type_ok in Hk. unfold encode_value. cbv zeta in *.
  destruct (fit_kind (pf_t pf) =? kind_timeutc), (fit_kind (pf_t pf) =? kind_timelocal),
           (fit_kind (pf_t pf) =? kind_lat), (fit_kind (pf_t pf) =? kind_lng); cbn [orb] in Hk.
  (* time stamps and coordinates: the kind fixes the Go type, the type the shape of the value *)
  1-15: destruct ty; try discriminate; destruct v; try discriminate; exact I.
  destruct (fit_kind (pf_t pf) =? kind_native); [|discriminate].
  destruct (fit_base (pf_t pf) =? base_string).
  - destruct ty; try discriminate. destruct v; try discriminate. apply N.ltb_lt in Hk.
    unfold encode_string. replace (pf_length pf =? 0) with false by (symmetry; apply N.eqb_neq; lia).
    destruct (utf8_valid _); cbn [errs_in yields]; auto.
  - eapply yields_mono; [|auto|apply bw_typed, Ht]. intros e [Hb _]. destruct ty; discriminate.
Qed.

Theorem encode_value_no_panic : forall be pf ty v,
  val_has_type ty v = true -> kind_type_ok pf ty = true -> forall w, encode_value be pf ty v <> EPanic w.
Proof. intros be pf ty v Ht Hk w. eapply yields_no_panic, encode_value_cases; assumption. Qed.

Theorem encode_value_err_only_string : forall be pf ty v e,
  val_has_type ty v = true -> kind_type_ok pf ty = true -> encode_value be pf ty v = EErr e -> e = EEString.
Proof. intros be pf ty v e Ht Hk He. now destruct (yields_err _ _ _ _ (encode_value_cases be pf ty v Ht Hk) He). Qed.

(* what writeField needs from a profile entry and the Go type of its struct
   field: scalars as encodeValue; arrays over a known non-string base type whose
   invalid value is defined and typed (the padding) *)
Definition pfield_enc_ok (pf : pfield) (ty : gotype) : bool :=
  let t := pf_t pf in
  if negb (fit_array t) then kind_type_ok pf ty
  else
    negb (fit_base t =? base_string) &&
    match b_known (fit_base t) with Some true => true | _ => false end &&
    match ty with TSlice et => kind_type_ok pf et | _ => false end &&
    match b_invalid (fit_base t), invalid_type (fit_base t) with
    | Some iv, Some ity => val_has_type ity iv && kind_type_ok pf ity
    | _, _ => false
    end.

Lemma kind_type_ok_str pf : kind_type_ok pf TStr = true -> (fit_base (pf_t pf) =? base_string) = true.
Proof.
  unfold kind_type_ok. cbv zeta.
  repeat match goal with |- (if ?c then _ else _) = _ -> _ => destruct c end; try discriminate. reflexivity.
Qed.

Lemma slice_typed_inv t v : val_has_type (TSlice t) v = true ->
  exists l, (match v with VList l => Some l | VNil => Some [] | _ => None end) = Some l /\ forallb (val_has_type t) l = true.
Proof.
  destruct v; try discriminate; intros H.
  - now exists [].
  - exists l. split; [reflexivity|]. now rewrite <- slice_typed.
Qed.

(* an array field (not of strings) is always written: elements and padding are not strings *)
Theorem write_field_array_ok be pf ty v :
  fit_array (pf_t pf) = true -> val_has_type ty v = true -> pfield_enc_ok pf ty = true ->
  errs_in no_err (write_field be pf ty v).
Proof.
  intros Ha Ht Hp. unfold pfield_enc_ok in Hp. unfold write_field. cbv zeta in *. rewrite Ha in *. cbn [negb] in *.
  rewrite !andb_true_iff in Hp. destruct Hp as [[[Hs Hkn] Het] Hinv].
  apply negb_true_iff in Hs. rewrite Hs.
  destruct (b_known (fit_base (pf_t pf))) as [[|]|]; try discriminate.
  destruct ty as [| | | | | | |et|]; try discriminate.
  destruct (slice_typed_inv et v Ht) as (l & -> & Hl).
  assert (Helem : forall t x, val_has_type t x = true -> kind_type_ok pf t = true -> errs_in no_err (encode_value be pf t x)).
  { intros t x Hx Hk. eapply yields_mono; [|auto|apply encode_value_cases; assumption].
    intros e [-> _]. apply kind_type_ok_str in Hk. congruence. }
  apply errs_in_econcat, Forall_app. split.
  - cbn [elem_type]. apply Forall_forall. intros r Hr. apply in_map_iff in Hr as (x & <- & Hx).
    apply Helem; [|assumption]. eapply forallb_forall; [apply forallb_firstn, Hl|exact Hx].
  - destruct (N.to_nat _) as [|k]; [constructor|]. cbn [negb].
    destruct (b_invalid _) as [iv|]; [|discriminate]. destruct (invalid_type _) as [ity|]; [|discriminate].
    apply andb_true_iff in Hinv as [Hi1 Hi2]. apply Forall_repeat. now apply Helem.
Qed.

Theorem write_field_cases be pf ty v :
  val_has_type ty v = true -> pfield_enc_ok pf ty = true ->
  errs_in (fun e => ty = TStr /\ e = EEString) (write_field be pf ty v).
Proof.
  intros Ht Hp. destruct (fit_array (pf_t pf)) eqn:Ha.
  - now apply no_err_any, write_field_array_ok.
  - unfold pfield_enc_ok in Hp. unfold write_field. cbv zeta in *. rewrite Ha in *. cbn [negb] in *.
    now apply encode_value_cases.
Qed.

Theorem write_field_no_panic : forall be pf ty v,
  val_has_type ty v = true -> pfield_enc_ok pf ty = true -> forall w, write_field be pf ty v <> EPanic w.
Proof. intros be pf ty v Ht Hp w. eapply yields_no_panic, write_field_cases; assumption. Qed.

Theorem write_field_err_only_string : forall be pf ty v e,
  val_has_type ty v = true -> pfield_enc_ok pf ty = true -> write_field be pf ty v = EErr e -> e = EEString /\ ty = TStr.
Proof. intros be pf ty v e Ht Hp He. now destruct (yields_err _ _ _ _ (write_field_cases be pf ty v Ht Hp) He). Qed.

(* arrays of strings: the encoder refuses them outright *)
Definition is_string_array (pf : pfield) : bool := fit_array (pf_t pf) && (fit_base (pf_t pf) =? base_string).

Theorem write_field_string_array be pf ty v : is_string_array pf = true -> write_field be pf ty v = EErr EEStringArray.
Proof.
  unfold is_string_array. intros H. apply andb_true_iff in H as [Ha Hs].
  unfold write_field. cbv zeta. now rewrite Ha, Hs.
Qed.

Definition entry_enc_ok (m : msgdesc) (e : N * pfield) : bool :=
  match field_type (md_num m) (pf_sindex (snd e)) with
  | Some ty => pfield_enc_ok (snd e) ty || (is_string_array (snd e) && gotype_eqb ty (TSlice TStr))
  | None => false
  end.

(* every entry of every message is encodable in the sense of pfield_enc_ok, or is an array of strings *)
Theorem profile_enc_ok : forallb (fun m => forallb (entry_enc_ok m) (md_entries m)) messages = true.
Proof. vm_compute. reflexivity. Qed.

(* ... and the arrays of strings are exactly these four (message number, field number) *)
Theorem profile_string_arrays :
  flat_map (fun m => map (fun e => (md_num m, fst e)) (filter (fun e => is_string_array (snd e)) (md_entries m))) messages
  = [(201, 5); (206, 3); (206, 8); (264, 2)].
Proof. vm_compute. reflexivity. Qed.

(* without the exception the check is false: pfield_enc_ok fails exactly on the same four entries *)
Theorem profile_enc_ok_exceptions :
  flat_map (fun m => map (fun e => (md_num m, fst e))
     (filter (fun e => negb match field_type (md_num m) (pf_sindex (snd e)) with
                            | Some ty => pfield_enc_ok (snd e) ty | None => false end) (md_entries m))) messages
  = [(201, 5); (206, 3); (206, 8); (264, 2)].
Proof. vm_compute. reflexivity. Qed.

(* what the message writers need from a field of a definition *)
Definition field_good (gmn : N) (pf : pfield) : Prop :=
  b_size (fit_base (pf_t pf)) <> None /\
  exists ty, field_type gmn (pf_sindex pf) = Some ty /\ pfield_enc_ok pf ty = true.

(* struct field i of message gmn: getFieldBySindex finds an entry, the base-type
   tables are defined on it, and it is encodable *)
Definition sindex_enc_ok (gmn : N) (i : nat) : bool :=
  match get_field_by_sindex gmn i with
  | Some pf =>
      match b_known (fit_base (pf_t pf)), b_size (fit_base (pf_t pf)), field_type gmn (pf_sindex pf) with
      | Some _, Some _, Some ty => pfield_enc_ok pf ty
      | _, _, _ => false
      end
  | None => false
  end.

Definition mesg_enc_ok (gmn : N) : bool :=
  match mesg_all_invalid gmn with
  | Some inv =>
      Nat.eqb (List.length (msg_layout gmn)) (List.length (m_fields inv)) &&
      forallb (sindex_enc_ok gmn) (seq 0 (List.length (msg_layout gmn)))
  | None => false
  end.

Lemma sindex_enc_ok_inv gmn i : sindex_enc_ok gmn i = true ->
  exists pf, get_field_by_sindex gmn i = Some pf /\ b_known (fit_base (pf_t pf)) <> None /\ field_good gmn pf.
Proof.
  unfold sindex_enc_ok. destruct (get_field_by_sindex gmn i) as [pf|]; [|discriminate].
  destruct (b_known _) eqn:Ek; [|discriminate]. destruct (b_size _) eqn:Es; [|discriminate].
  destruct (field_type _ _) as [ty|] eqn:Et; [|discriminate]. intros H.
  exists pf. split; [reflexivity|]. split; [congruence|]. split; [congruence|]. now exists ty.
Qed.

Lemma def_fields_ok gmn : forall vals invs i,
  forallb (sindex_enc_ok gmn) (seq i (List.length vals)) = true ->
  yields no_err (Forall (field_good gmn)) (def_fields gmn i vals invs).
Proof.
  induction vals as [|v vr IH]; intros invs i Hk; cbn [def_fields]; [constructor|].
  destruct invs as [|iv ir]; [constructor|].
  cbn [List.length seq forallb] in Hk. apply andb_true_iff in Hk as [Hi Hk].
  pose proof (IH ir (S i) Hk) as Hrest.
  destruct (sindex_enc_ok_inv gmn i Hi) as (pf & -> & Hkn & Hgood).
  assert (Hinc : yields no_err (Forall (field_good gmn)) (ebind (def_fields gmn (S i) vr ir) (fun r => EOk (pf :: r)))).
  { eapply yields_bind; [exact Hrest|]. intros r Hr. now constructor. }
  destruct v; try (destruct (goval_eqb _ iv); assumption); [assumption|].
  destruct (b_known (fit_base (pf_t pf))); [|congruence]. destruct l; assumption.
Qed.

Theorem get_encode_mesg_def_ok mn m : msg_wf mn m = true -> mesg_enc_ok mn = true ->
  yields no_err (Forall (field_good mn)) (get_encode_mesg_def m).
Proof.
  unfold mesg_enc_ok. intros [Hn Hv]%msg_wf_iff He.
  unfold get_encode_mesg_def. rewrite Hn. destruct (mesg_all_invalid mn) as [inv|]; [|discriminate].
  apply andb_true_iff in He as [Hlen Hall]. apply Nat.eqb_eq in Hlen.
  pose proof (vals_typed_length _ _ Hv) as Hl. rewrite Hl, Hlen, Nat.eqb_refl. cbn [negb].
  apply def_fields_ok. now rewrite Hl.
Qed.

Theorem write_def_mesg_ok be gmn gmn' fs : Forall (field_good gmn) fs -> errs_in no_err (write_def_mesg be gmn' fs).
Proof.
  intros H. unfold write_def_mesg. eapply yields_bind; [|intros; exact I].
  apply errs_in_map. intros pf Hin. rewrite Forall_forall in H. destruct (H pf Hin) as [Hs _].
  unfold fdef_bytes. destruct (b_size _); [exact I|congruence].
Qed.

Theorem write_mesg_cases be mn m fs : msg_wf mn m = true -> Forall (field_good mn) fs ->
  errs_in (eq EEString) (write_mesg be m fs).
Proof.
  intros [Hn Hv]%msg_wf_iff Hg.
  unfold write_mesg. eapply yields_bind; [|intros; exact I].
  apply errs_in_map. intros pf Hin.
  rewrite Forall_forall in Hg. destruct (Hg pf Hin) as (_ & ty & Hty & Hok). rewrite Hn, Hty.
  destruct (field_type_nth _ _ _ Hty) as (nm & Hnth).
  destruct (vals_typed_nth _ _ _ _ _ Hv Hnth) as (v & -> & Htv).
  eapply yields_mono; [|auto|apply write_field_cases; eassumption]. now intros e [_ ->].
Qed.

Theorem encode_def_and_data_cases be mn m : msg_wf mn m = true -> mesg_enc_ok mn = true ->
  errs_in (eq EEString) (encode_def_and_data be m).
Proof.
  intros Hw He. unfold encode_def_and_data.
  eapply yields_bind; [apply no_err_any, get_encode_mesg_def_ok; eassumption|]. intros fs Hg.
  eapply yields_bind; [eapply no_err_any, write_def_mesg_ok, Hg|]. intros d _.
  eapply yields_bind; [eapply write_mesg_cases; eassumption|]. intros w _. exact I.
Qed.

Lemma collect_fields_good mn : mesg_enc_ok mn = true -> forall ms acc,
  forallb (msg_wf mn) ms = true -> Forall (field_good mn) acc ->
  yields no_err (Forall (field_good mn)) (collect_fields ms acc).
Proof.
  intros He. induction ms as [|m r IH]; intros acc Hw Ha; cbn [collect_fields]; [exact Ha|].
  cbn [forallb] in Hw. apply andb_true_iff in Hw as [Hm Hr].
  eapply yields_bind; [apply get_encode_mesg_def_ok; eassumption|]. intros fs Hg.
  apply IH; [assumption|]. now apply fold_ins_Forall.
Qed.

Theorem encode_slice_cases be mn ms : forallb (msg_wf mn) ms = true -> mesg_enc_ok mn = true ->
  errs_in (eq EEString) (encode_slice be ms).
Proof.
  intros Hw He. unfold encode_slice. destruct ms as [|m0 mr]; [exact I|].
  eapply yields_bind; [apply no_err_any, (collect_fields_good mn He _ [] Hw (Forall_nil _))|]. intros fs Hg.
  eapply yields_bind; [eapply no_err_any, write_def_mesg_ok, Hg|]. intros d _.
  eapply yields_bind; [|intros; exact I].
  apply errs_in_map. intros m Hin. rewrite forallb_forall in Hw. eapply write_mesg_cases; [apply Hw, Hin|assumption].
Qed.

Theorem encode_slot_cases be multi mn ms : forallb (msg_wf mn) ms = true -> mesg_enc_ok mn = true ->
  errs_in (eq EEString) (encode_slot be multi ms).
Proof.
  intros Hw He. unfold encode_slot. destruct multi; [now apply (encode_slice_cases be mn)|].
  apply errs_in_map. intros m Hin. rewrite forallb_forall in Hw. eapply encode_def_and_data_cases; [apply Hw, Hin|assumption].
Qed.

(* the message types of the profile that are not encodable are exactly those with a []string field *)
Lemma profile_mesg_enc_ok :
  map md_num (filter (fun m => md_known m && negb (mesg_enc_ok (md_num m))) messages) = [201; 206; 264].
Proof. vm_compute. reflexivity. Qed.

Lemma known_enc_ok mn : known_msg mn = true -> existsb (N.eqb mn) str_array_msgs = false -> mesg_enc_ok mn = true.
Proof.
  intros Hk Hn. destruct (known_has_constructor mn Hk) as (m & Ef & _). destruct (find_msg_in _ _ Ef) as [Hin <-].
  destruct (mesg_enc_ok (md_num m)) eqn:E; [reflexivity|exfalso].
  assert (H : In (md_num m) (map md_num (filter (fun m => md_known m && negb (mesg_enc_ok (md_num m))) messages))).
  { (* filter_In with its direction: left to find it, apply first reduces the goal, a filter over the closed table [messages] *)
    apply in_map, (proj2 (filter_In _ m messages)). split; [exact Hin|]. now rewrite <- (known_iff _ _ Ef), Hk, E. }
  rewrite profile_mesg_enc_ok in H. rewrite <- not_true_iff_false in Hn. apply Hn, existsb_exists.
  exists (md_num m). split; [exact H|apply N.eqb_refl].
Qed.

(* every message type a container encodes (the hidden slots 3 and 4 are skipped) is known (C15) and none of those
   three (EncodeLay.file_types_ok): it is encodable *)
Theorem encode_slots_cases be : forall descs i slots, slots_wf i descs slots = true ->
  (forall nm multi mn, In (nm, multi, mn) descs -> known_msg mn = true) -> descs_plain i descs = true ->
  errs_in (eq EEString) (encode_slots be i descs slots).
Proof.
  refine (slots_wf_cases _ _ _); [intros; exact I|]. intros i nm multi mn dr s sr Hs _ _ _ IH Hk Hp. cbn [encode_slots].
  cbn [descs_plain] in Hp. apply andb_true_iff in Hp as [Hh Hp].
  specialize (IH (fun nm' mu' mn' Hin => Hk nm' mu' mn' (or_intror Hin)) Hp). unfold hidden_slot in Hh.
  destruct (Nat.eqb i 3 || Nat.eqb i 4); [exact IH|]. cbn [orb] in Hh. apply negb_true_iff in Hh.
  eapply yields_bind; [exact (encode_slot_cases be multi mn s Hs (known_enc_ok mn (Hk nm multi mn (or_introl eq_refl)) Hh))|]. intros a _.
  eapply yields_bind; [exact IH|]. intros b _. exact I.
Qed.

(* C05 encode_total: on a well-formed File, Encode does not panic, and the only
   error it can return is the UTF-8 one of encodeString (known finding reencode_utf8) *)
Theorem encode_cases f be : wf_file f = true -> errs_in (eq EEString) (encode f be).
Proof.
  intros Hw. destruct (wf_file_inv f Hw) as (cn & descs & _ & _ & Ei & Ee & Hsw & _).
  unfold encode. rewrite Ee, Ei, N.eqb_refl. cbn [negb].
  pose proof (ft_entry_ok _ _ _ Ee) as Hct.
  eapply yields_bind; [exact (encode_slots_cases be descs 0 _ Hsw (ct_known _ Hct) (ct_plain _ Hct))|]. intros data _.
  cbv zeta. destruct (header_marshal _) as [hdr hcrc]. exact I.
Qed.

Theorem encode_total : forall f be, wf_file f = true ->
  (exists r, encode f be = EOk r) \/ encode f be = EErr EEString.
Proof. intros f be Hw. apply one_err_cases, encode_cases, Hw. Qed.

Theorem encode_no_panic : forall f be w, wf_file f = true -> encode f be <> EPanic w.
Proof. intros f be w Hw. eapply yields_no_panic, encode_cases, Hw. Qed.

Theorem encode_err_only_string : forall f be e, wf_file f = true -> encode f be = EErr e -> e = EEString.
Proof. intros f be e Hw He. symmetry. exact (yields_err _ _ _ _ (encode_cases f be Hw) He). Qed.

Lemma wrap_u_id bits n : n < 2 ^ bits -> wrap_u bits n = n.
Proof. apply C06Codec.wrap_u_id. Qed.

Lemma pff_at be n s bt buf ty : parse_fit_field be (mk_fdef n s bt) buf ty = parse_fit_field be (mk_fdef 0 0 bt) buf ty.
Proof. reflexivity. Qed.

(* the definition's base type and the struct field's Go type have the same width and signedness *)
Definition codec_ok (bt : N) (ty : gotype) : bool :=
  (is_u8like bt && gotype_eqb ty (TU 8)) ||
  ((bt =? base_sint8) && gotype_eqb ty (TI 8)) ||
  ((bt =? base_sint16) && gotype_eqb ty (TI 16)) ||
  (((bt =? base_uint16) || (bt =? base_uint16z)) && gotype_eqb ty (TU 16)) ||
  ((bt =? base_sint32) && gotype_eqb ty (TI 32)) ||
  (((bt =? base_uint32) || (bt =? base_uint32z)) && gotype_eqb ty (TU 32)).

Lemma codec_ok_ty bt ty : codec_ok bt ty = true -> codec_ty bt = Some ty.
Proof.
  unfold codec_ok, is_u8like. intros H.
  repeat (apply orb_true_iff in H as [H|H]); apply andb_true_iff in H as [Hbt Hty];
    apply gotype_eqb_eq in Hty; subst ty.
  (* in each row the base type is one of finitely many constants *)
  all: repeat (apply orb_true_iff in Hbt as [Hbt|Hbt]); apply N.eqb_eq in Hbt; subst bt; reflexivity.
Qed.

Lemma codec_ok_int bt ty : codec_ok bt ty = true -> not_float ty = true /\ bw_able ty = true.
Proof. intros H. apply codec_ok_ty, codec_ty_int in H. destruct ty; try contradiction; split; reflexivity. Qed.

Lemma decoded_scalar_typed be fd buf ty v : bytes_lt buf ->
  parse_fit_field be fd buf ty = FSet v -> codec_ok (fd_btype fd) ty = true -> val_has_type ty v = true.
Proof.
  intros Hb Hp Hc. eapply parse_fit_field_typed; [exact Hb| |exact Hp]. now apply not_float_fits, (codec_ok_int (fd_btype fd)).
Qed.

(* the fixpoint at field level: a value the decoder produced, written and read again, is the same value *)
Theorem decode_reencode_scalar : forall be be' fd buf ty v bs,
  Forall (fun b => b < 256) buf ->
  parse_fit_field be fd buf ty = FSet v -> codec_ok (fd_btype fd) ty = true ->
  bw be' ty v = EOk bs -> parse_fit_field be' fd bs ty = FSet v.
Proof.
  intros be be' fd buf ty v bs Hb Hp Hc Hbw.
  (* C06Codec.rt_scalar, read on a native non-string profile entry, where encodeValue is binary.Write *)
  apply (rt_scalar be' (mk_pfield 0 0 0 0) fd ty v bs); [reflexivity|reflexivity|now apply codec_ok_ty| |exact Hbw].
  eapply decoded_scalar_typed; eassumption.
Qed.

(* each comparator decides equality of a normal form *)

Lemma goval_eqb_iff a b : goval_eqb a b = true <-> a = b.
Proof. split; [apply goval_eqb_eq|intros ->; apply goval_eqb_refl]. Qed.

Lemma eqb_of_key_equiv {A K} (r : A -> A -> bool) (k : A -> K) : (forall a b, r a b = true <-> k a = k b) ->
  (forall a, r a a = true) /\ (forall a b, r a b = r b a) /\
  (forall a b c, r a b = true -> r b c = true -> r a c = true).
Proof.
  intros H. split; [|split].
  - intros a. now apply H.
  - intros a b. apply eq_true_iff_eq. rewrite !H. split; congruence.
  - intros a b c. rewrite !H. congruence.
Qed.

Lemma forall2b_iff {A K} (p : A -> A -> bool) (k : A -> K) : (forall x y, p x y = true <-> k x = k y) ->
  forall a b, forall2b p a b = true <-> map k a = map k b.
Proof.
  intros H. induction a as [|x a IH]; intros [|y b]; cbn [forall2b map]; try (split; discriminate); [tauto|].
  rewrite andb_true_iff, H, IH. split; [intros [-> ->]; reflexivity|intros E; inversion E; auto].
Qed.

Lemma msg_eqb_iff a b : msg_eqb a b = true <-> a = b.
Proof.
  unfold msg_eqb. rewrite andb_true_iff, N.eqb_eq, (forall2b_iff _ (fun v => v) goval_eqb_iff), !map_id.
  destruct a as [na fa], b as [nb fb]; cbn [m_num m_fields]. split; [intros [-> ->]; reflexivity|intros E; inversion E; auto].
Qed.

Theorem cmp7_iff i m m' : cmp7 i m m' = true <-> norm_msg (trunc_msg m) = norm_msg (trunc_msg m').
Proof. apply msg_eqb_iff. Qed.

(* what content_eq7 compares: the container, and per visible slot the normal forms of its messages *)
Fixpoint slots_key7 (i : nat) (a : list (list msg)) : list (list msg) :=
  match a with
  | [] => []
  | s :: r => (if hidden_slot i then [] else map (fun m => norm_msg (trunc_msg m)) s) :: slots_key7 (S i) r
  end.

Lemma slots_eq7_iff : forall a b i, slots_eq cmp7 i a b = true <-> slots_key7 i a = slots_key7 i b.
Proof.
  induction a as [|s a IH]; intros [|s' b] i; cbn [slots_eq slots_key7]; try (split; discriminate); [tauto|].
  rewrite andb_true_iff, IH. destruct (hidden_slot i).
  - split; [intros [_ ->]; reflexivity|intros E; inversion E; auto].
  - rewrite (forall2b_iff _ _ (cmp7_iff i)). split; [intros [-> ->]; reflexivity|intros E; inversion E; auto].
Qed.

Lemma opt_n_eqb_iff a b : opt_n_eqb a b = true <-> a = b.
Proof. destruct a, b; cbn [opt_n_eqb]; rewrite ?N.eqb_eq; split; congruence. Qed.

Theorem content_eq7_iff f1 f2 :
  content_eq7 f1 f2 = true <-> (f_inited f1, slots_key7 0 (f_slots f1)) = (f_inited f2, slots_key7 0 (f_slots f2)).
Proof.
  unfold content_eq7. rewrite andb_true_iff, opt_n_eqb_iff, slots_eq7_iff.
  split; [intros [-> ->]; reflexivity|intros E; inversion E; auto].
Qed.
