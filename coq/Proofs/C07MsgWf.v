(* msg_wf (Spec/RoundTrip.v: the struct fields of a message hold values of their Go types) is kept by what the
   decoder does to a message: a store into one struct field, the constructor's all-invalid message,
   expandComponents. *)
From Coq Require Import NArith ZArith List Bool Lia String.
From FitV Require Import Model.Values Model.Bytes Model.Base Model.Profile Model.Reflect Model.Components Model.Decode
  Spec.RoundTrip Proofs.Util Proofs.ProfileProofs Gen.ProfileData Gen.Consts.
Import ListNotations.
Local Open Scope N_scope.

Lemma slice_typed t l : val_has_type (TSlice t) (VList l) = forallb (val_has_type t) l.
Proof. induction l as [|x r IH]; [reflexivity|]. cbn [val_has_type forallb] in *. now rewrite IH. Qed.

Lemma msg_wf_iff mn m : msg_wf mn m = true <-> m_num m = mn /\ vals_typed (msg_layout mn) (m_fields m) = true.
Proof. unfold msg_wf. now rewrite andb_true_iff, N.eqb_eq. Qed.

Lemma msg_wf_num mn m : msg_wf mn m = true -> m_num m = mn.
Proof. intros H. now apply msg_wf_iff in H. Qed.

Lemma field_type_nth gmn i ty : field_type gmn i = Some ty -> exists nm, nth_error (msg_layout gmn) i = Some (nm, ty).
Proof. unfold field_type. destruct (nth_error _ _) as [[nm t]|]; [|discriminate]. intros H; inversion H. now exists nm. Qed.

(* vals_typed says that the values have, one by one, the types of the layout *)
Definition typed_as (p : string * gotype) (v : goval) : Prop := val_has_type (snd p) v = true.

Lemma vals_typed_iff : forall layout vals, vals_typed layout vals = true <-> Forall2 typed_as layout vals.
Proof.
  induction layout as [|[nm ty] lr IH]; intros [|v vr]; cbn [vals_typed]; try (split; [discriminate|intros H; inversion H]).
  - split; constructor.
  - rewrite andb_true_iff, IH. split; [intros [H1 H2]; now constructor|intros H; inversion H; subst; now split].
Qed.

Lemma vals_typed_length layout vals : vals_typed layout vals = true -> List.length vals = List.length layout.
Proof. intros H%vals_typed_iff. exact (Forall2_length' _ _ _ H). Qed.

Lemma vals_typed_nth layout vals i nm ty : vals_typed layout vals = true ->
  nth_error layout i = Some (nm, ty) -> exists v, nth_error vals i = Some v /\ val_has_type ty v = true.
Proof.
  intros H%vals_typed_iff Hn. revert i Hn. induction H as [|p v lr vr Hp _ IH]; intros [|i] Hn; try discriminate.
  - injection Hn as ->. now exists v.
  - now apply IH.
Qed.

Lemma vals_typed_set_nth layout vals i nm ty v : vals_typed layout vals = true ->
  nth_error layout i = Some (nm, ty) -> val_has_type ty v = true -> vals_typed layout (set_nth i v vals) = true.
Proof. rewrite !vals_typed_iff. intros H Hn Hv. exact (F2_set_nth_r typed_as i v _ _ (nm, ty) H Hn Hv). Qed.

Theorem msg_set_wf mn m i ty v : msg_wf mn m = true -> field_type mn i = Some ty -> val_has_type ty v = true ->
  msg_wf mn (msg_set m i v) = true.
Proof.
  rewrite !msg_wf_iff. unfold msg_set. cbn [m_num m_fields]. intros [Hn H] Hty Hv. split; [exact Hn|].
  destruct (field_type_nth _ _ _ Hty) as (nm & Hnth). eapply vals_typed_set_nth; eassumption.
Qed.

Lemma fld_typed mn m name i ty : msg_wf mn m = true -> sindex_of mn name = Some i -> field_type mn i = Some ty ->
  val_has_type ty (fld m name) = true.
Proof.
  unfold fld. intros [Hn Hv]%msg_wf_iff Hs Ht. rewrite Hn, Hs.
  destruct (field_type_nth _ _ _ Ht) as (nm & Hnth). destruct (vals_typed_nth _ _ _ _ _ Hv Hnth) as (v & Hv1 & Hv2).
  now rewrite (nth_error_nth _ _ _ Hv1).
Qed.

Lemma ctor_typed_check :
  forallb (fun m => if md_has_ctor m then vals_typed (md_layout m) (md_invalid m) else true) messages = true.
Proof. vm_compute. reflexivity. Qed.

Theorem mesg_all_invalid_wf gmn m : mesg_all_invalid gmn = Some m -> msg_wf gmn m = true.
Proof.
  unfold mesg_all_invalid. destruct (find_msg gmn) as [md|] eqn:Em; [|discriminate].
  destruct (md_has_ctor md) eqn:Ec; [|discriminate]. intros H; inversion H; subst m.
  apply msg_wf_iff. split; [reflexivity|]. unfold msg_layout. cbn [m_fields]. rewrite Em.
  destruct (ProfileProofs.find_msg_in _ _ Em) as [Hin _].
  pose proof ctor_typed_check as T. rewrite forallb_forall in T. specialize (T md Hin). now rewrite Ec in T.
Qed.

(* expandComponents stores unsigned values below the width of the derived field: every store keeps msg_wf mn, mn being the
   constant message number of the expansion, so that the width of a field named in the code is computed *)

Definition fld_ubits (mn : N) (name : string) : option N :=
  match sindex_of mn name with
  | Some i => match field_type mn i with Some (TU bits) => Some bits | _ => None end
  | None => None
  end.

Lemma set_fld_u_wf mn m name x bits : msg_wf mn m = true -> fld_ubits mn name = Some bits -> x < 2 ^ bits ->
  msg_wf mn (set_fld m name (VU x)) = true.
Proof.
  unfold fld_ubits, set_fld. intros Hm Hb Hx. pose proof (msg_wf_num _ _ Hm) as Hn. rewrite <- Hn in Hb.
  destruct (sindex_of (m_num m) name) as [i|]; [|discriminate].
  destruct (field_type (m_num m) i) as [ty|] eqn:Et; [|discriminate]. destruct ty; try discriminate. injection Hb as ->.
  rewrite Hn in Et. apply (msg_set_wf mn m i (TU bits) (VU x) Hm Et). cbn [val_has_type]. now apply N.ltb_lt.
Qed.

(* below, [fld] and [set_fld] are compared as they stand: unfolded, the checker takes them down to the profile table
   when it compares the two forms of the event expander's first statement *)
Local Opaque fld set_fld.

Lemma land_bound a b bits : (b <? 2 ^ bits) = true -> N.land a b < 2 ^ bits.
Proof. intros H. apply land_lt_pow2. now apply N.ltb_lt. Qed.

Lemma widen16_wf mn m src dst : msg_wf mn m = true -> fld_ubits mn dst = Some 32 -> msg_wf mn (widen16 m src dst) = true.
Proof.
  intros Hm Hb. unfold widen16. destruct (_ =? _); [assumption|].
  eapply set_fld_u_wf; [assumption|exact Hb|]. apply land_bound. reflexivity.
Qed.

Lemma expand_session_lap_wf mn m : mn = c_MesgNumSession \/ mn = c_MesgNumLap ->
  msg_wf mn m = true -> msg_wf mn (expand_session_lap m) = true.
Proof.
  intros Hn Hm. unfold expand_session_lap.
  repeat (apply widen16_wf; [|destruct Hn as [-> | ->]; reflexivity]). exact Hm.
Qed.

Lemma expand_segment_lap_wf m : msg_wf c_MesgNumSegmentLap m = true -> msg_wf c_MesgNumSegmentLap (expand_segment_lap m) = true.
Proof. intros Hm. unfold expand_segment_lap. repeat (apply widen16_wf; [|reflexivity]). exact Hm. Qed.

Lemma expand_segment_point_wf m :
  msg_wf c_MesgNumSegmentPoint m = true -> msg_wf c_MesgNumSegmentPoint (expand_segment_point m) = true.
Proof. intros Hm. apply widen16_wf; [exact Hm|reflexivity]. Qed.

Lemma expand_event_wf m : msg_wf c_MesgNumEvent m = true -> msg_wf c_MesgNumEvent (expand_event m) = true.
Proof.
  intros Hm. unfold expand_event. cbv zeta.
  (* the first statement is a widen16 step from Data16 to Data *)
  pose proof (widen16_wf _ m "Data16" "Data" Hm eq_refl) as Hm1. unfold widen16 in Hm1. cbv zeta in Hm1.
  set (m1 := if uval (fld m "Data16") =? 65535 then m else _) in *. clearbody m1.
  destruct (_ =? 4294967295); [assumption|].
  destruct (_ =? c_EventSportPoint).
  { repeat (eapply set_fld_u_wf; [|reflexivity|apply land_bound; reflexivity]). exact Hm1. }
  destruct (_ || _); [|assumption].
  repeat (eapply set_fld_u_wf; [|reflexivity|apply land_bound; reflexivity]). exact Hm1.
Qed.

Lemma accumulate_lt a v : fst (accumulate a v) < 2 ^ 32.
Proof. unfold accumulate. cbn [fst]. apply N.mod_lt. apply N.pow_nonzero. discriminate. Qed.

Lemma nth_map_uval_lt l k : forallb (val_has_type (TU 8)) l = true -> nth k (map uval l) 0 < 256.
Proof.
  revert k. induction l as [|x r IH]; intros k H; [destruct k; reflexivity|].
  cbn [forallb] in H. apply andb_true_iff in H as [Hx Hr]. destruct k as [|k]; cbn [map nth]; [|now apply IH].
  destruct x; try discriminate. cbn [val_has_type uval] in *. now apply N.ltb_lt in Hx.
Qed.

Lemma expand_csd_wf g m : msg_wf c_MesgNumRecord m = true -> msg_wf c_MesgNumRecord (fst (expand_csd g m)) = true.
Proof.
  intros Hm. unfold expand_csd. cbv zeta.
  (* the source is a []byte *)
  assert (Hb : forall k, nth k (match fld m "CompressedSpeedDistance" with VList l => map uval l | _ => [] end) 0 < 256).
  { intros k. assert (Ht : val_has_type (TSlice (TU 8)) (fld m "CompressedSpeedDistance") = true)
      by (eapply (fld_typed _ m _ _ _ Hm); reflexivity).
    destruct (fld m "CompressedSpeedDistance"); try (destruct k; reflexivity).
    rewrite slice_typed in Ht. now apply nth_map_uval_lt. }
  set (csd := match fld m "CompressedSpeedDistance" with VList l => map uval l | _ => [] end) in *.
  destruct (_ && _); cbn [fst]; [|exact Hm].
  eapply set_fld_u_wf; [eapply set_fld_u_wf; [exact Hm|reflexivity|]|reflexivity|].
  - apply lor_lt_pow2.
    + eapply N.lt_le_trans; [apply (Hb 0%nat)|]. vm_compute. discriminate.
    + rewrite N.shiftl_mul_pow2. pose proof (land_bound (nth 1 csd 0) 15 4 eq_refl) as H4.
      change (2 ^ 4) with 16 in H4. change (2 ^ 8) with 256. change (2 ^ 16) with 65536. lia.
  - apply accumulate_lt.
Qed.

Lemma expand_cycles_wf g m : msg_wf c_MesgNumRecord m = true -> msg_wf c_MesgNumRecord (fst (expand_cycles g m)) = true.
Proof.
  intros Hm. unfold expand_cycles. cbv zeta. destruct (_ =? _); cbn [fst]; [exact Hm|].
  eapply set_fld_u_wf; [exact Hm|reflexivity|apply accumulate_lt].
Qed.

Lemma expand_power_wf g m : msg_wf c_MesgNumRecord m = true -> msg_wf c_MesgNumRecord (fst (expand_power g m)) = true.
Proof.
  intros Hm. unfold expand_power. cbv zeta. destruct (_ =? _); cbn [fst]; [exact Hm|].
  eapply set_fld_u_wf; [exact Hm|reflexivity|apply accumulate_lt].
Qed.

Lemma expand_record_wf g m : msg_wf c_MesgNumRecord m = true -> msg_wf c_MesgNumRecord (fst (expand_record g m)) = true.
Proof.
  intros Hm. unfold expand_record. cbv zeta.
  apply expand_power_wf, expand_cycles_wf, expand_csd_wf. repeat (apply widen16_wf; [|reflexivity]). exact Hm.
Qed.

Theorem expand_components_wf mn g m m' g' : msg_wf mn m = true -> expand_components g m = Some (m', g') ->
  msg_wf mn m' = true.
Proof.
  intros Hm. unfold expand_components. cbv zeta. rewrite (msg_wf_num _ _ Hm).
  (* the types whose expansion leaves the accumulators alone *)
  assert (K : forall x, msg_wf mn x = true -> Some (x, g) = Some (m', g') -> msg_wf mn m' = true).
  { intros x Hx H. now apply some_pair_inj in H as [<- _]. }
  destruct (N.eqb_spec mn c_MesgNumSession) as [->|_]; [apply K, expand_session_lap_wf; auto|].
  destruct (N.eqb_spec mn c_MesgNumLap) as [->|_]; cbn [orb]; [apply K, expand_session_lap_wf; auto|].
  destruct (N.eqb_spec mn c_MesgNumRecord) as [->|_].
  { intros H. apply some_inj in H. change m' with (fst (m', g')). rewrite <- H. now apply expand_record_wf. }
  destruct (N.eqb_spec mn c_MesgNumEvent) as [->|_]; [now apply K, expand_event_wf|].
  destruct (N.eqb_spec mn c_MesgNumSegmentLap) as [->|_]; [now apply K, expand_segment_lap_wf|].
  destruct (N.eqb_spec mn c_MesgNumSegmentPoint) as [->|_]; [now apply K, expand_segment_point_wf|discriminate].
Qed.
